(* C10 — AMP armor round-trips and survives cache-style rewriting.
   Statements, proved from the lemmas of Proofs/Base64Proofs.v and Proofs/Armor*.v, most of them in one step
   (the facts about [neutral] - C10_outside_markup, C10_neutral_decidable, C10_neutral_concat - are proved
   here); examples by evaluation.
   Models: coq/Model/Base64.v, Armor.v, ArmorStream.v, HtmlEntities.v (common/amp/armor_encoder.go,
   armor_decoder.go).  The decoder is modelled in the layers of the code: x/net/html's Tokenizer as a
   byte-incremental automaton returning tokens (comments, doctype, raw-text and RCDATA elements, the
   script escape states, attributes, self-closing tags, any letter case, NUL, the SetMaxBuf accounting),
   Tokenizer.Text (convertNewlines, NUL replacement, character references with the library's complete
   entity table), decodeToWriter with bufio.Scanner's word splitting and 64 KiB token limit, the
   io.Pipe, NewArmorDecoder's version byte and base64.NewDecoder's Read with its buffer arithmetic
   (so also its read-size dependent acceptance of data after padding).
   Not modelled, i.e. outside every statement below (monitors / assumptions of lib/checks/c10.py):
   a source reader that fails or returns (0, nil); scheduling of the two goroutines beyond the
   rendezvous points of the pipe (the model is the sequential demand-driven process they form);
   allocation sizes of the Go runtime (the buffering theorem counts bytes held in the modelled buffers).
   CDATA sections are not enabled by the decoder (AllowCDATA is never called): "<![CDATA[" is a bogus
   comment, and is modelled as that. *)
From Coq Require Import List NArith Bool String Lia.
From Snow Require Import Lib.Wire Model.Base64 Model.Armor Model.ArmorStream.
From Snow Require Import Proofs.Base64Proofs Proofs.ArmorEncProofs Proofs.ArmorDecProofs Proofs.ArmorMarkupProofs.
From Snow Require Import Proofs.ArmorStreamProofs Proofs.ArmorBufProofs Proofs.ArmorStreamInst Proofs.ArmorTailProofs.
Import ListNotations.
Open Scope N_scope.

(* std base64 with padding: decoding the encoding of any byte string gives it back *)
Theorem C10_b64_roundtrip : forall p, bytes_ok p = true -> b64_decode (b64_encode p) = Some p.
Proof. intros p H. unfold b64_decode. rewrite (b64_roundtrip_seq p H). reflexivity. Qed.

(* decoding the armor of any byte string returns that byte string (whole-document meaning) *)
Theorem C10_roundtrip : forall p, bytes_ok p = true -> armor_decode (armor_encode p) = DOk p.
Proof. exact roundtrip. Qed.

(* every pattern of encoder Writes (any number, any sizes, empty ones included) produces the
   document of the whole input *)
Theorem C10_write_chunking : forall parts, armor_stream parts = armor_encode (List.concat parts).
Proof. exact write_chunking. Qed.

(* hence: round trip for every pattern of encoder writes *)
Corollary C10_roundtrip_any_writes : forall parts,
  bytes_ok (List.concat parts) = true -> armor_decode (armor_stream parts) = DOk (List.concat parts).
Proof. intros parts H. rewrite write_chunking. exact (roundtrip _ H). Qed.

(* ================================================================== the decoder as a streaming reader *)

(* For ANY tokenizer that consumes its input byte by byte (T, tinit, tfeed, tfin: the library boundary),
   any way the source's Reads cut the document into chunks, any sequence of non-empty caller buffers:
   the bytes the Reads return, up to io.EOF or the first error, are what the whole-stream meaning
   [decode_result] gives for the pipe traffic [events_of] of the CONCATENATED chunks - exactly the data
   and io.EOF, or the same error class after a prefix of the decodable data - provided no correctly
   padded base64 quantum occurs before the end of the character stream ([no_ipad]). *)
Theorem C10_stream_generic :
  forall (T : Type) (tinit : T) (tfeed : T -> N -> T * list tok) (tfin : T -> list tok)
         (chunks : list bytes) (sz : N -> nat) (fuel : nat),
  (forall j, (1 <= sz j)%nat) ->
  let F := events_of T tfeed tfin false tinit (List.concat chunks) in
  no_ipad (tl (chars F)) = true -> (List.length (chars F) < fuel)%nat ->
  fixed_ok T (stream_decode T tinit tfeed tfin chunks sz fuel) F.
Proof. exact stream_decode_spec. Qed.

(* ... instantiated with the tokenizer model of Armor.v and stated with armor_decode *)
Theorem C10_stream_reads : forall doc chunks sz fuel,
  List.concat chunks = doc -> (forall j, (1 <= sz j)%nat) ->
  no_ipad (body_of doc) = true -> (List.length (fst (armor_scan doc)) < fuel)%nat ->
  let r := armor_stream_decode chunks sz fuel in
  match armor_decode doc with
  | DOk d => s_data r = d /\ s_end r = Some REOF
  | DErr e => s_end r = Some (RErr e) /\ prefix (s_data r) (fst (b64_decode_seq (body_of doc)))
  end.
Proof. exact stream_decode_armor. Qed.

(* ... with the number of Reads the runner allows (3 per document byte: Text() at most triples a token) *)
Theorem C10_stream_reads_run : forall doc chunks sz,
  List.concat chunks = doc -> (forall j, (1 <= sz j)%nat) -> no_ipad (body_of doc) = true ->
  let r := armor_stream_decode chunks sz (fuel_for doc) in
  match armor_decode doc with
  | DOk d => s_data r = d /\ s_end r = Some REOF
  | DErr e => s_end r = Some (RErr e) /\ prefix (s_data r) (fst (b64_decode_seq (body_of doc)))
  end.
Proof. intros doc chunks sz Hc Hsz Hp. apply stream_decode_armor; try assumption. apply fuel_for_enough. Qed.

(* non-vacuity: a document with an error after data, delivered byte by byte and read with buffers of
   1, 2, 3, 1, 2, 3, ... bytes; and the hypotheses hold for it *)
Example C10_stream_reads_example :
  let doc := bs "<pre>0QUJD QUJD</pre><pre>" in
  no_ipad (body_of doc) = true /\ armor_decode doc = DErr EUnterminated /\
  let r := armor_stream_decode (map (fun c => [c]) doc) (fun i => S (N.to_nat (i mod 3))) 40 in
  s_data r = bs "ABCABC" /\ s_end r = Some (RErr EUnterminated).
Proof. vm_compute. auto. Qed.

(* the condition on padding cannot be dropped: base64.NewDecoder decodes what it has gathered as one
   chunk, so with a correctly padded quantum in the middle the answer depends on the caller's buffers *)
Theorem C10_read_pattern_dependence : exists doc,
  armor_decode doc = DErr EBadBase64 /\
  s_end (armor_stream_decode [doc] (fun _ => 4096%nat) 40) = Some (RErr EBadBase64) /\
  s_end (armor_stream_decode [doc] (fun _ => 1%nat) 40) = Some REOF /\
  s_data (armor_stream_decode [doc] (fun _ => 1%nat) 40) = bs "AABC".
Proof. exists (bs "<pre>0QQ==QUJD</pre>"). vm_compute. auto. Qed.

(* round trip "for every pattern of encoder writes and decoder reads": any Writes, any chunks of the
   resulting document from the source, any caller buffers *)
Theorem C10_roundtrip_streaming : forall parts chunks sz fuel,
  bytes_ok (List.concat parts) = true ->
  List.concat chunks = armor_stream parts -> (forall j, (1 <= sz j)%nat) ->
  (List.length (b64_encode (List.concat parts)) + 1 < fuel)%nat ->
  let r := armor_stream_decode chunks sz fuel in
  s_data r = List.concat parts /\ s_end r = Some REOF /\ sp_stuck (s_prod r) = false.
Proof.
  intros parts chunks sz fuel Hok Hc Hsz Hf. cbv zeta.
  rewrite write_chunking in Hc.
  pose proof (stream_decode_armor (armor_encode (List.concat parts)) chunks sz fuel Hc Hsz) as S.
  unfold body_of in S. rewrite scan_encode in S. cbn [fst tl List.length] in S.
  specialize (S (no_ipad_encode _ Hok) ltac:(lia)). cbv zeta in S. rewrite (roundtrip _ Hok) in S.
  destruct S as [S1 S2]. split; [exact S1|]. split; [exact S2|].
  apply (stream_decode_released tks tk_init tk_step tk_fin). unfold armor_stream_decode in S2. rewrite S2. discriminate.
Qed.

Example C10_roundtrip_streaming_example :
  let parts := [bs "he"; []; bs "llo"] in
  bytes_ok (List.concat parts) = true /\
  s_data (armor_stream_decode (cut_doc [7%nat; 1%nat] (armor_stream parts)) (fun i => S (N.to_nat (i mod 2))) 20) = bs "hello".
Proof. vm_compute. auto. Qed.

(* ================================================================== no hang, no leak, bounded buffering *)

(* arbitrary documents (no condition at all): the caller's loop reaches io.EOF or an error, and then the
   goroutine started by NewArmorDecoder has returned - whatever the source chunks and the buffers *)
Theorem C10_total_and_released : forall doc chunks sz fuel,
  List.concat chunks = doc -> (forall j, (1 <= sz j)%nat) ->
  (List.length (fst (armor_scan doc)) < fuel)%nat ->
  s_end (armor_stream_decode chunks sz fuel) <> None /\
  sp_stuck (s_prod (armor_stream_decode chunks sz fuel)) = false.
Proof. exact armor_total. Qed.

Theorem C10_total_and_released_run : forall doc chunks sz,
  List.concat chunks = doc -> (forall j, (1 <= sz j)%nat) ->
  s_end (armor_stream_decode chunks sz (fuel_for doc)) <> None /\
  sp_stuck (s_prod (armor_stream_decode chunks sz (fuel_for doc))) = false.
Proof. intros doc chunks sz Hc Hsz. apply (armor_total doc); try assumption. apply fuel_for_enough. Qed.

(* the release alone, for any tokenizer and any number of Reads: once an end has been reported (or
   NewArmorDecoder failed) the producer is not blocked in a Write *)
Theorem C10_goroutine_released :
  forall (T : Type) (tinit : T) (tfeed : T -> N -> T * list tok) (tfin : T -> list tok) chunks sz fuel,
  s_end (stream_decode T tinit tfeed tfin chunks sz fuel) <> None ->
  p_stuck T tfeed tfin (s_prod (stream_decode T tinit tfeed tfin chunks sz fuel)) = false.
Proof. exact stream_decode_released. Qed.

(* no hang on what FOLLOWS: the decoder never looks at source it has not asked for.  For any tokenizer, any
   source chunks, any caller buffers: if the caller's Reads reach their end (io.EOF or an error) while the
   producer has not met the end of [chunks] ([p_fin] = false: no source Read has returned io.EOF), then with ANY
   continuation [tl] of the source - as long as one likes, never ending, or never delivered at all - the same
   Reads return the same bytes and the same end, the number of source bytes consumed is the same, and [tl] is
   still unread.  So an error met early in a document is returned after a consumption that does not depend on
   the rest of the document (a decoder that drains the rest before returning the error does not have this
   property; nor does one whose result needs the end of the document). *)
Theorem C10_unread_tail_irrelevant :
  forall (T : Type) (tinit : T) (tfeed : T -> N -> T * list tok) (tfin : T -> list tok) chunks tl sz fuel,
  let r := stream_decode T tinit tfeed tfin chunks sz fuel in
  p_fin (s_prod r) = false ->
  let r' := stream_decode T tinit tfeed tfin (chunks ++ tl) sz fuel in
  s_data r' = s_data r /\ s_end r' = s_end r /\
  p_consumed (s_prod r') = p_consumed (s_prod r) /\ p_src (s_prod r') = p_src (s_prod r) ++ tl.
Proof. exact stream_decode_tail_full. Qed.

(* instance and non-vacuity: bad base64 in the first element ("QU*D" in [tail_doc] =
   "<html><pre>0QUJD QU*D QUJD</pre>"), met by the second Read; the source chunk holding it is all that is ever
   consumed, whatever the list [tl] of further source Reads holds; the goroutine is released *)
Theorem C10_early_error_whatever_follows : forall tl,
  let r' := armor_stream_decode ([tail_doc] ++ tl) (fun _ => 16%nat) 40 in
  s_data r' = bs "ABC" /\ s_end r' = Some (RErr EBadBase64) /\
  p_consumed (s_prod r') = N.of_nat (List.length tail_doc) /\ p_src (s_prod r') = tl /\ sp_stuck (s_prod r') = false.
Proof. exact early_error_whatever_follows. Qed.

(* the code before /repo commit 0dac441 ([dec_read0]: no close of the pipe when base64 fails) did not
   have this property: same answer to the caller, goroutine blocked for ever *)
Theorem C10_v0_goroutine_leak_refuted : exists doc,
  s_end (armor_stream_decode0 [doc] (fun _ => 4096%nat) 40) = Some (RErr EBadBase64) /\
  sp_stuck (s_prod (armor_stream_decode0 [doc] (fun _ => 4096%nat) 40)) = true /\
  s_end (armor_stream_decode [doc] (fun _ => 4096%nat) 40) = Some (RErr EBadBase64) /\
  sp_stuck (s_prod (armor_stream_decode [doc] (fun _ => 4096%nat) 40)) = false.
Proof. exists (bs "<pre>0QU*D QUJD</pre>"). vm_compute. auto. Qed.

(* bounded buffering.  In every state the caller can bring the decoder into (NewArmorDecoder, then any
   Reads with any buffers, also after errors) the bytes it holds - raw bytes of the token the tokenizer
   is reading, the unread rest of the last source Read, the words of the current text token not yet
   taken from the pipe, base64.NewDecoder's two arrays - are at most 4*MAXBUF + B + 1792, where B bounds
   the source's Reads.  (4 = 1 raw + 3 for Text(): a NUL becomes three bytes; character references
   never grow, checked over the whole entity table.)  The document's length does not enter. *)
Theorem C10_bounded_buffering : forall B chunks d,
  Forall (fun ch => N.of_nat (List.length ch) <= B) chunks -> a_reach chunks d ->
  a_held d <= 4 * MAXBUF + B + 1792.
Proof.
  intros B chunks d Hs R.
  exact (held_bound tks tk_init tk_step tk_fin tcnt tk_inv armor_tinv_held tk_init_inv tk_step_ok tk_fin_ok B chunks d Hs R).
Qed.

Theorem C10_bounded_buffering_new : forall B chunks e p,
  Forall (fun ch => N.of_nat (List.length ch) <= B) chunks -> sdec_new chunks = NewErr tks e p ->
  tcnt (p_tk p) + N.of_nat (List.length (p_cur p)) + q_bytes (p_q p) <= 4 * MAXBUF + B.
Proof.
  intros B chunks e p Hs E.
  exact (held_bound_new tks tk_init tk_step tk_fin tcnt tk_inv armor_tinv_held tk_init_inv tk_step_ok tk_fin_ok B chunks e p Hs E).
Qed.

(* the same for any tokenizer whose buffer is bounded (the hypotheses are the library boundary) *)
Theorem C10_bounded_buffering_generic :
  forall (T : Type) (tinit : T) (tfeed : T -> N -> T * list tok) (tfin : T -> list tok)
         (theld : T -> N) (tinv : T -> Prop),
  (forall t, tinv t -> theld t <= MAXBUF) -> tinv tinit ->
  (forall t c, tinv t -> tinv (fst (tfeed t c)) /\ N.of_nat (text_bytes (snd (tfeed t c))) <= MAXBUF) ->
  (forall t, tinv t -> N.of_nat (text_bytes (tfin t)) <= MAXBUF) ->
  forall B chunks d, Forall (fun ch => N.of_nat (List.length ch) <= B) chunks ->
  reach T tinit tfeed tfin chunks d -> held T theld d <= 4 * MAXBUF + B + 1792.
Proof. exact held_bound. Qed.

(* non-vacuity: a state reached after NewArmorDecoder and two Reads, holding something *)
Example C10_bounded_buffering_example :
  let chunks := [bs "<pre>0QUJDQUJD QUJD</pre>"] in
  exists d, a_reach chunks d /\ 0 < a_held d.
Proof.
  cbv zeta. destruct (sdec_new [bs "<pre>0QUJDQUJD QUJD</pre>"]) as [e p|d0] eqn:E; [vm_compute in E; discriminate|].
  exists (snd (sdec_read 2 (snd (sdec_read 2 d0)))). split.
  - apply reach_read. apply reach_read. apply reach_new. exact E.
  - vm_compute in E. injection E as <-. vm_compute. reflexivity.
Qed.

(* an element that reaches the limit is an error (never unbounded growth, never other data): see
   C10_resep_oversize below; the tokenizer state never counts MAXBUF bytes *)
Theorem C10_tokenizer_buffer_below_limit : forall t c, tk_inv t -> tk_inv (fst (tk_step t c)).
Proof. intros t c H. exact (proj1 (tk_step_ok t c H)). Qed.

(* ================================================================== shape, rewriting by caches *)

(* the armored document is the fixed boilerplate around pre elements; each element has 1..992
   words of 1..32 bytes over the base64 alphabet, '=' or the version byte, each word followed
   by one LF; the element's text is at most 32737 bytes (< 32 KiB - 2, the tokenizer's limit
   less its two bytes of look-ahead); the words concatenated are "0" ++ base64(p) *)
Theorem C10_shape : forall p, exists els : list (list bytes),
  armor_encode p = boilerplate_start ++ List.concat (map element els) ++ boilerplate_end /\
  Forall (fun ws => (1 <= List.length ws <= 992)%nat /\
                    Forall (fun w => (1 <= List.length w <= 32)%nat /\ Forall armor_char w) ws /\
                    element ws = bs "<pre>" ++ element_text ws ++ bs "</pre>" ++ [LF] /\
                    blen (element_text ws) <= 32737) els /\
  List.concat (List.concat els) = VERSION :: b64_encode p.
Proof. exact shape. Qed.

(* re-separation: the words of every element kept, in order, but each followed by an ARBITRARY
   string of ASCII whitespace (also before the first word and after "</pre>"): as long as every
   element's text stays below the limit the decoded data is unchanged ... *)
Theorem C10_resep : forall p rs, bytes_ok p = true ->
  map (fun r => map fst (r_words r)) rs = armor_elements p ->
  Forall rseg_ws rs -> Forall rseg_fits rs ->
  armor_decode (resep_doc rs) = DOk p.
Proof. exact resep_ok. Qed.

(* ... and the first element whose text reaches the limit makes decoding fail: an error,
   never different data (whatever follows that element) *)
Theorem C10_resep_oversize : forall rs1 r rs2,
  Forall rseg_ws (rs1 ++ [r]) ->
  Forall (fun r => Forall (Forall armor_char) (map fst (r_words r))) (rs1 ++ [r]) ->
  Forall rseg_fits rs1 -> MAXBUF <= blen (resep_text r) + 2 ->
  exists e, armor_decode (resep_doc (rs1 ++ r :: rs2)) = DErr e.
Proof. exact resep_over. Qed.

(* non-vacuity of C10_resep / C10_resep_oversize: "hi" with tabs and CRs instead of LF *)
Example C10_resep_example :
  let rs := [ {| r_lead := [9; 32]; r_words := [(bs "0aGk=", [13; 10; 12])]; r_post := [] |} ] in
  map (fun r => map fst (r_words r)) rs = armor_elements (bs "hi") /\
  Forall rseg_ws rs /\ Forall rseg_fits rs /\ armor_decode (resep_doc rs) = DOk (bs "hi").
Proof.
  cbv zeta. split; [vm_compute; reflexivity|]. split.
  - repeat constructor.
  - split; [repeat constructor|vm_compute; reflexivity].
Qed.

(* markup added outside the pre elements, I: complete tokens at a token boundary.  [a] is any document
   prefix that ends just after a complete tag/comment outside every pre element (that is what
   [run dinit a = mk MTxt 0 false o] says); [m] is any markup which, read on its own from such a point,
   is a sequence of complete tokens none of which is a pre start/end tag ([neutral], decided by
   [neutralb]): inserting it leaves the result unchanged, for EVERY rest of document [b]. *)
Theorem C10_outside_markup : forall a b m o,
  run dinit a = mk MTxt 0 false o -> neutral m ->
  armor_decode (a ++ m ++ b) = armor_decode (a ++ b).
Proof.
  intros a b m o Ha Hm. unfold armor_decode, armor_scan, armor_words_of.
  rewrite !run_app. rewrite Ha. rewrite Hm. reflexivity.
Qed.

Theorem C10_neutral_decidable : forall m, neutralb m = true -> neutral m.
Proof.
  intros m H o. unfold neutralb in H.
  change (mk MTxt 0 false o) with (addo (mk MTxt 0 false []) o). rewrite run_frame.
  destruct (run (mk MTxt 0 false []) m) as [[md0 n tb] a x h]. unfold dst_quiet0 in H. cbn [tkz tmd tcnt tbuf active out_rev halt] in H.
  destruct h; try discriminate. destruct x; try discriminate. destruct md0; try discriminate. destruct tb; try discriminate.
  apply andb_true_iff in H as [H1 H2]. apply N.eqb_eq in H1. apply negb_true_iff in H2. subst.
  reflexivity.
Qed.

Theorem C10_neutral_concat : forall m1 m2, neutral m1 -> neutral m2 -> neutral (m1 ++ m2).
Proof. intros m1 m2 H1 H2 o. rewrite run_app, H1. apply H2. Qed.

(* markup added outside the pre elements, II: EVERYTHING the decoder ignores - bare text, text with
   character references, comments, doctype, other elements with their content, raw-text elements - inserted
   at ANY text position outside pre (also in the middle of the text between two elements).  [s] is the
   state after the prefix [a]: outside pre, in the text state ([quiet]); [neutral_atb (cnt s) m = Some n']
   is the decidable statement that [m] read from there hands nothing to the decoder and ends in the text
   state with count n'.  Then the rest [b] decodes as without [m], provided the text token being read at
   the junction (its [tlen] more bytes of [b]) still fits the tokenizer's buffer, with and without [m]. *)
Theorem C10_outside_anything : forall a m b s n',
  run dinit a = s -> quiet s -> neutral_atb (cnt s) m = Some n' ->
  cnt s + tlen false b < MAXBUF -> n' + tlen false b < MAXBUF ->
  armor_decode (a ++ m ++ b) = armor_decode (a ++ b).
Proof.
  intros a m b s n' Ha Qs Hm Hn Hn'.
  destruct (neutral_atb_sound _ _ _ Hm s Qs eq_refl) as (Q' & O' & C').
  apply (outside_any a m b s (run s m) Ha Qs eq_refl Q' O'); [exact Hn|rewrite C'; exact Hn'].
Qed.

(* any '<'-free text is such markup wherever it fits *)
Theorem C10_text_is_neutral : forall n t, noLT t -> n + blen t < MAXBUF -> neutral_atb n t = Some (n + blen t).
Proof. intros n t Ht Hn. unfold neutral_atb. rewrite run_text by assumption. reflexivity. Qed.

(* non-vacuity: tags with quoted '>' , self-closing tags, comments, doctype, raw-text elements
   (even containing "<pre>") are neutral; a pre tag is not; and the insertion points exist in every
   armored document *)
Example C10_neutral_examples :
  forallb neutralb (map bs ["<b>"; "</div>"; "<span title='a>b' class=""x"">"; "<br/>"; "<pre/>"; "<!-- c -->";
                            "<!-->"; "<!--a--!>"; "<!DOCTYPE y>"; "<?php ?>"; "</>"; "<title>x</title>";
                            "<xmp><pre></xmp>"; "<noscript><pre></noscript>"; "<TITLE></pre></TiTlE >";
                            "<script><!--<script></script><pre>--></script>"]%string) = true
  /\ neutralb (bs "<pre>") = false /\ neutralb (bs "</pre>") = false.
Proof. vm_compute. auto. Qed.

(* text, "a < b", an element with text, a comment between text, character references: neutral from a
   text position (here count 1, the state after "</pre>\n") *)
Example C10_neutral_at_examples :
  map (neutral_atb 1) (map bs ["hello"; "a < b & c"; "<p>AT&amp;T</p> x"; "x<!-- <pre> -->y"; "<title><pre></title>z";
                               "<pre>"; "x</pre>"; "<"]%string)
  = [Some 6; Some 10; Some 2; Some 1; Some 1; None; None; None].
Proof. vm_compute. reflexivity. Qed.

Example C10_outside_anything_example :
  let a := boilerplate_start ++ element [bs "0aGk="] in
  let m := bs "cached by <b>example</b> &copy; 2026" in
  let b := element [bs "aGk="] ++ boilerplate_end in
  exists s n', run dinit a = s /\ quiet s /\ neutral_atb (cnt s) m = Some n' /\
               cnt s + tlen false b < MAXBUF /\ n' + tlen false b < MAXBUF /\
               armor_decode (a ++ m ++ b) = armor_decode (a ++ b).
Proof.
  cbv zeta. eexists _, _. split; [reflexivity|]. split; [vm_compute; auto|]. split; [vm_compute; reflexivity|].
  split; [vm_compute; reflexivity|]. split; [vm_compute; reflexivity|]. vm_compute. reflexivity.
Qed.

Example C10_insertion_points :
  run dinit [] = mk MTxt 0 false [] /\
  (exists o, run dinit (firstn 982 boilerplate_start) = mk MTxt 0 false o) /\
  (exists o, run dinit (boilerplate_start ++ element [bs "0aGk="]) = mkb MTxt 1 [LF] false o) /\
  (exists o, run dinit (boilerplate_start ++ bs "<pre>0aGk=</pre>") = mk MTxt 0 false o).
Proof. split; [reflexivity|]. repeat split; eexists; vm_compute; reflexivity. Qed.

(* every input yields data or exactly one error class, in this priority: how the token stream
   ended ([t]: clean end, or stray </pre>, nested <pre>, missing </pre>, buffer limit, a word beyond
   bufio's token limit) and what reached the decoder before that ([out]: version byte, then base64
   quanta decoded in order) *)
Theorem C10_decode_classes : forall doc,
  let out := fst (armor_scan doc) in
  let t := snd (armor_scan doc) in
  end_class t /\
  match armor_decode doc with
  | DOk d => t = TEnd /\ exists body, out = VERSION :: body /\ b64_decode_seq body = (d, B64Clean)
  | DErr EEmpty => out = [] /\ t = TEnd
  | DErr EUnknownVersion => exists v body, out = v :: body /\ v <> VERSION
  | DErr EBadBase64 =>
      exists body, out = VERSION :: body /\
        (snd (b64_decode_seq body) = B64Corrupt \/ (snd (b64_decode_seq body) = B64Partial /\ t = TEnd))
  | DErr e =>
      t = TErr e /\
      (out = [] \/ exists body, out = VERSION :: body /\ snd (b64_decode_seq body) <> B64Corrupt)
  end.
Proof. exact decode_classes. Qed.

(* each class is inhabited; character references, NUL, script escapes, upper case are part of the model *)
Example C10_classes_inhabited :
  map armor_decode (map bs ["<pre>0QUJD</pre>"; ""; "<pre>1QUJD</pre>"; "<pre>0QU*D</pre>"; "<pre>0QUJ</pre>";
                            "</pre>"; "<pre><pre>"; "<pre>0QUJD";
                            "<PRE class=x>0QU&#74;D</pRe >"; "<pre>0&lt;pre&gt;</pre>";
                            "<script><!--<script></script><pre>1--></script><pre>0QUJD</pre>"]%string)
  = [DOk (bs "ABC"); DErr EEmpty; DErr EUnknownVersion; DErr EBadBase64; DErr EBadBase64;
     DErr EStray; DErr ENested; DErr EUnterminated;
     DOk (bs "ABC"); DErr EBadBase64; DOk (bs "ABC")].
Proof. vm_compute. reflexivity. Qed.

(* non-vacuity of C10_resep_oversize: 32766 spaces before the first word *)
Example C10_resep_oversize_example :
  let r := {| r_lead := repeat 32 (N.to_nat 32766); r_words := [(bs "0aGk=", [10])]; r_post := [] |} in
  Forall rseg_ws ([] ++ [r]) /\
  Forall (fun r => Forall (Forall armor_char) (map fst (r_words r))) ([] ++ [r]) /\
  Forall rseg_fits [] /\ MAXBUF <= blen (resep_text r) + 2 /\
  armor_decode (resep_doc ([] ++ r :: [])) = DErr EOversize.
Proof.
  cbv zeta. split; [|split; [|split; [|split]]].
  - constructor; [|constructor]. split; [apply ws_only_repeat|]. split; repeat constructor.
  - constructor; [|constructor]. cbn [r_words map fst]. constructor; [|constructor].
    change (bs "0aGk=") with [48; 97; 71; 107; 61].
    repeat (apply Forall_cons; [unfold armor_char, PAD, VERSION; lia|]). apply Forall_nil.
  - constructor.
  - unfold resep_text, blen. cbn [r_lead r_words]. rewrite app_length, repeat_length, Nat2N.inj_add, N2Nat.id.
    vm_compute. discriminate.
  - (* the spaces are read by run_text; only the few bytes around them are evaluated *)
    unfold armor_decode, armor_scan, armor_words_of, resep_doc, doc_of, resep_text, seg_bytes. cbn [map List.concat fst snd r_lead r_words r_post app].
    rewrite run_app, run_boiler_start. rewrite <- !app_assoc, run_app, run_pre_open by (vm_compute; reflexivity).
    rewrite run_app. unfold mk.
    rewrite run_text; [|apply (ws_only_avoids LT); [reflexivity|apply ws_only_repeat]|unfold blen; rewrite repeat_length, N2Nat.id; reflexivity].
    assert (R : forall n, rev (repeat 32 n) = repeat 32 n)
      by (induction n as [|n IH]; [reflexivity|]; cbn [repeat rev]; rewrite IH; symmetry; apply repeat_cons).
    unfold blen. rewrite R, repeat_length, N2Nat.id. vm_compute. reflexivity.
Qed.
