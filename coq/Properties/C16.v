(* C16 — the proxy honours its capacity and never leaks a session slot.

   Machine: Model/ProxySession.v over Model/Tokens.v.  `run v (init N) ls = Some st` ranges over
   ALL schedules ls (any interleaving of the Start loop with any number of handler goroutines, any
   broker response at each poll / answer, any timing of the data channel against the 20 s timer).
   V1 is the repaired code (proposed-fixes/C16-release-once.diff), V0 the pinned code.
   in_use = sessions whose tokens.get() completed and for which tokens.ret() has not been called;
   n_active = clients being negotiated with or served.
   The second half of the file states "polls again with full capacity" in its general form, at every reachable state
   (slot accounting, when the poll loop is enabled, and that no session can hold a slot with nothing left to run).
   The machine's LDcOpen is "close(dataChan); go handler(...)" as ONE step: a callback that closed dataChan and then
   returned without starting the handler (what a nil webRTCConn.RemoteAddr() must not cause) is outside the machine and
   is what the O<x>/Q<x> cases of the correspondence (clients whose offer has no non-local address, no candidates, ...)
   look for in the Go code. *)
From Coq Require Import List ZArith Arith Bool Lia.
From Snow Require Import Model.Tokens Model.ProxySession Proofs.ProxySessionProofs Proofs.ProxySessionLiveProofs.
From Snow Require Import Model.TokensConc Proofs.TokensConcProofs.
Import ListNotations.

(* A proxy with capacity N >= 1 never negotiates with or serves more than N clients at once. *)
Theorem C16_capacity : forall N ls st,
  N >= 1 -> run V1 (init N) ls = Some st ->
  n_active st <= in_use st /\ in_use st <= N.
Proof.
  intros N ls st HN H. pose proof (run_inv _ _ _ H) as I. split.
  - eapply inv_active_le_in_use; eauto.
  - apply inv_in_use_le_cap; [intro; subst; inversion HN | exact I].
Qed.

(* Every completed get belongs to exactly one session; no session is released twice; a session
   that has terminated (runSession returned, no handler pending or running) was released once. *)
Theorem C16_release_once : forall N ls st,
  run V1 (init N) ls = Some st ->
  gets st = length (sessions st) /\
  (forall c, In c (sessions st) -> released c <= 1) /\
  (forall c, In c (bg st) -> handler_quiet c = true -> released c = 1).
Proof.
  intros N ls st H. pose proof (run_inv _ _ _ H) as I. split; [rewrite length_sessions; apply (inv_gets _ _ I)|]. split.
  - intros c Hc. eapply sess_released_le1; eauto.
  - intros c Hc Hq. eapply sess_terminated_released; eauto.
Qed.

(* The second half of every ret (the channel receive) is always enabled: a release never blocks. *)
Theorem C16_release_never_blocks : forall N ls st,
  run V1 (init N) ls = Some st ->
  (mn st = MRetRecv \/ exists c, In c (sessions st) /\ hp c = HRetRecv) ->
  recv_ready (tok st) = true.
Proof. intros N ls st H. eapply inv_ret_never_blocks. eapply run_inv; eauto. Qed.

(* After any sequence of sessions, once all have ended nothing is in use, the counter is back to
   zero and the next iteration of the Start loop gets a slot without blocking and polls. *)
Theorem C16_full_capacity_again : forall N ls st,
  run V1 (init N) ls = Some st -> all_terminated st = true ->
  in_use st = 0 /\
  (mn st = MTop -> count (tok st) = 0%Z /\
     exists st1 st2, step V1 st LGet = Some st1 /\ step V1 st1 LGetSend = Some st2 /\
                     mn st2 = MPoll /\ in_use st2 = 1).
Proof.
  intros N ls st H Ht. pose proof (run_inv _ _ _ H) as I.
  destruct (inv_all_terminated _ _ I Ht) as (Hu & Hc & _ & _). split; [exact Hu|].
  intros Hm. split.
  - rewrite Hc, Hm. reflexivity.
  - eapply inv_polls_again; eauto.
Qed.

(* Every Clients figure sent to the broker, int((tokens.count()/8)*8), is a multiple of 8 and does
   not exceed the number of slots in use at the moment it is computed. *)
Theorem C16_reported_load : forall N ls st,
  run V1 (init N) ls = Some st ->
  Forall (fun p => (8 | fst p)%Z /\ (0 <= fst p <= Z.of_nat (snd p))%Z) (polls st).
Proof. intros N ls st H. exact (inv_polls _ _ (run_inv _ _ _ H)). Qed.

(* The pinned code: sendAnswer failing after the client already connected releases twice; the
   counter goes negative and the handler's second receive blocks forever. *)
Theorem C16_v0_answer_fail_after_open_refuted :
  exists st c, run V0 (init 1) w_answer_fail = Some st /\ nth_error (sessions st) 0 = Some c /\
               released c = 2 /\ count (tok st) = (-1)%Z /\ step V0 st (LH 0 HRecv) = None.
Proof. eexists. eexists. vm_compute. repeat split. Qed.

(* The pinned code: the select takes the 20 s timer while the data channel handler starts. *)
Theorem C16_select_tie_refuted :
  exists st c, run V0 (init 1) w_select_tie = Some st /\ nth_error (sessions st) 0 = Some c /\
               released c = 2 /\ count (tok st) = (-1)%Z.
Proof. eexists. eexists. vm_compute. repeat split. Qed.

(* The pinned code: after a double release a capacity-2 proxy serves three clients. *)
Theorem C16_v0_capacity_refuted :
  exists st, run V0 (init 2) w_capacity = Some st /\ n_active st = 3 /\ count (tok st) = 2%Z.
Proof. eexists. vm_compute. repeat split. Qed.

(* The pinned code on tie-free schedules (runSession never gives up a session its handler has
   claimed, no handler claims a session runSession gave up) behaves as the repaired code, so all of
   the above holds for it on those schedules. *)
Theorem C16_v0_tie_free : forall N ls st,
  tie_free V0 (init N) ls = true -> run V0 (init N) ls = Some st ->
  run V1 (init N) ls = Some st /\
  (N >= 1 -> n_active st <= in_use st /\ in_use st <= N) /\
  (forall c, In c (sessions st) -> released c <= 1) /\
  (forall c, In c (bg st) -> handler_quiet c = true -> released c = 1) /\
  Forall (fun p => (8 | fst p)%Z /\ (0 <= fst p <= Z.of_nat (snd p))%Z) (polls st).
Proof.
  intros N ls st Ht H. rewrite (run_v0_v1 _ _ Ht) in H. split; [exact H|]. split.
  - intros HN. eapply C16_capacity; eauto.
  - destruct (C16_release_once _ _ _ H) as (_ & H1 & H2). split; [exact H1|]. split; [exact H2|].
    eapply C16_reported_load; eauto.
Qed.

(* ---- the hypotheses are satisfiable by non-trivial runs *)

(* capacity 2 filled by two served clients while a third get blocks; both theorems' premises hold *)
Example C16_capacity_nonvacuous :
  exists st, run V1 (init 2) (w_open 0 ++ w_open 1 ++ [LGet]) = Some st /\
             n_active st = 2 /\ in_use st = 2 /\ step V1 st LGetSend = None.
Proof. eexists. vm_compute. repeat split. Qed.

(* a run through every exit path, overlapping a served client, that ends all-terminated *)
Definition ex_all_paths : list label :=
  w_open 0 ++
  [LGet; LGetSend; LPollNoMatch; LPollNil; LMainRecv] ++
  [LGet; LGetSend; LPollShutdown; LMainRecv] ++
  [LGet; LGetSend; LPollOffer; LRelayBad; LMainRecv] ++
  [LGet; LGetSend; LPollOffer; LRelayOk; LPcFail; LMainRecv] ++
  [LGet; LGetSend; LPollOffer; LRelayOk; LPcOk; LAnswerFail; LGiveUp; LClose; LMainRecv] ++
  [LGet; LGetSend; LPollOffer; LRelayOk; LPcOk; LAnswerOk; LSelectTimeout; LGiveUp; LClose; LMainRecv] ++
  [LGet; LGetSend; LPollOffer; LRelayOk; LPcOk; LAnswerOk; LDcOpen; LSelectOpen; LH 7 HClaim; LH 7 HDialFail; LH 7 HRecv] ++
  [LH 0 HEnd; LH 0 HRecv].

Example C16_full_capacity_again_nonvacuous :
  exists st, run V1 (init 2) ex_all_paths = Some st /\ all_terminated st = true /\ mn st = MTop /\
             length (sessions st) = 8 /\ length (polls st) = 8.
Proof. eexists. vm_compute. repeat split. Qed.

(* a reachable state in which a release is pending in main and in a handler at once *)
Example C16_release_never_blocks_nonvacuous :
  exists st, run V1 (init 2) (w_open 0 ++ [LGet; LGetSend; LPollNil; LH 0 HEnd]) = Some st /\
             mn st = MRetRecv /\ (exists c, In c (sessions st) /\ hp c = HRetRecv).
Proof. eexists. split; [vm_compute; reflexivity|]. split; [reflexivity|]. eexists. split; [left; reflexivity | reflexivity]. Qed.

(* nine slots in use: the reported figure is 8 *)
Example C16_reported_load_nonvacuous :
  exists st, run V1 (init 0)
               (w_open 0 ++ w_open 1 ++ w_open 2 ++ w_open 3 ++ w_open 4 ++ w_open 5 ++ w_open 6 ++
                w_open 7 ++ [LGet; LGetSend; LPollNoMatch]) = Some st /\
             last (polls st) (0%Z, 0) = (8%Z, 9).
Proof. eexists. vm_compute. repeat split. Qed.

(* ONE session polls again and again ("no match") while the eight served clients end between its
   polls: the figure is computed anew for each poll (8 with nine slots in use, then 0 with one) *)
Example C16_reported_load_repoll :
  exists st, run V1 (init 0)
               (w_open 0 ++ w_open 1 ++ w_open 2 ++ w_open 3 ++ w_open 4 ++ w_open 5 ++ w_open 6 ++
                w_open 7 ++ [LGet; LGetSend; LPollNoMatch] ++
                concat (map (fun i => [LH i HEnd; LH i HRecv]) (seq 0 8)) ++ [LPollNoMatch; LPollNil]) = Some st /\
             skipn 8 (polls st) = [(8%Z, 9); (0%Z, 1); (0%Z, 1)].
Proof. eexists. vm_compute. repeat split. Qed.

(* a tie-free schedule of the pinned code that is not trivial *)
Example C16_v0_tie_free_nonvacuous :
  tie_free V0 (init 2) ex_all_paths = true /\ run V0 (init 2) ex_all_paths <> None.
Proof. vm_compute. split; [reflexivity | discriminate]. Qed.

(* ==== "after any sequence of sessions it polls again with full capacity", general form: at EVERY reachable
   state, also with 0 < in_use < N (C16_full_capacity_again above is the special case occupied = 0).

   occupied st = in_use st + releasing st: sessions whose tokens.get() completed and whose tokens.ret() has not
   finished (ret not called yet, or called with its channel receive still to come).  free_slots N st = N - occupied st. *)

(* The channel holds exactly the occupied slots; the free slots are the rest of the capacity; the counter is the
   slots in use (plus the get in progress); the second half of get is enabled exactly when a slot is free. *)
Theorem C16_slot_accounting : forall N ls st,
  N >= 1 -> run V1 (init N) ls = Some st ->
  chlen (tok st) = occupied st /\ occupied st <= N /\ free_slots N st + occupied st = N /\
  count (tok st) = (Z.of_nat (in_use st) + (match mn st with MGetSend => 1 | _ => 0 end))%Z /\
  (send_ready (tok st) = true <-> 0 < free_slots N st).
Proof.
  intros N ls st HN H. pose proof (run_inv _ _ _ H) as I. assert (N <> 0) as HN0 by (intro; subst; inversion HN).
  destruct (inv_occupied _ _ HN0 I) as (E & L & F). repeat (split; [assumption|]).
  split; [rewrite (inv_count _ _ I); destruct (mn st); reflexivity|]. exact (inv_send_ready_iff _ _ HN0 I).
Qed.

(* The poll loop at its head: taking a slot goes through - and the loop polls, with one more slot in use - if
   (and for N >= 1 only if) a slot is free; otherwise the loop parks in tokens.get(). *)
Theorem C16_poll_loop_iff_free_slot : forall N ls st,
  run V1 (init N) ls = Some st -> mn st = MTop ->
  exists st1, step V1 st LGet = Some st1 /\ mn st1 = MGetSend /\ in_use st1 = in_use st /\ releasing st1 = releasing st /\
    ((N = 0 \/ 0 < free_slots N st) ->
       exists st2, step V1 st1 LGetSend = Some st2 /\ mn st2 = MPoll /\ in_use st2 = in_use st + 1 /\
                   releasing st2 = releasing st /\ gets st2 = S (gets st)) /\
    (N <> 0 -> free_slots N st = 0 -> step V1 st1 LGetSend = None).
Proof. intros N ls st H. exact (inv_poll_loop _ _ (run_inv _ _ _ H)). Qed.

(* No served session can sit on a slot with nothing left to run: a session runSession has returned from and that
   still occupies a slot has a handler goroutine, and that goroutine alone (at most 3 of its own steps: claim, the
   handshake timer of the relay dial or the end of copyLoop, channel receive; nothing is asked of the loop, of another
   session, of the relay while it is being dialled, or of the peer beyond copyLoop returning) gives the slot back:
   one more slot is free afterwards. *)
Theorem C16_served_session_can_release : forall N ls st i c,
  run V1 (init N) ls = Some st -> nth_error (bg st) i = Some c -> holds c + pend c = 1 ->
  length (handler_path i c) <= 3 /\ Forall (own_handler_step i) (handler_path i c) /\
  exists st' c', run V1 st (handler_path i c) = Some st' /\ handler_path i c <> [] /\
    nth_error (bg st') i = Some c' /\ holds c' = 0 /\ pend c' = 0 /\ hp c' = HDone /\ released c' = 1 /\
    mn st' = mn st /\ cur st' = cur st /\ length (bg st') = length (bg st) /\
    (N <> 0 -> S (chlen (tok st')) = chlen (tok st)).
Proof.
  intros N ls st i c H Hn Ho. split; [apply handler_path_short|]. split; [apply handler_path_own|].
  destruct (bg_release_path _ _ _ _ (run_inv _ _ _ H) Hn Ho) as (Hne & st' & R & (Hn' & M & C & L & _) & Ch).
  exists st', handler_done. repeat (split; [assumption || reflexivity|]). exact Ch.
Qed.

(* Nor can the session under negotiation: from every stage of runSession there are at most 6 steps of the Start
   goroutine inside runSession and of this session's own handler - none of them the peer opening the data channel:
   where the broker is awaited the path takes its error answer (LPollNil, LAnswerFail), where the data channel is
   awaited it takes the 20 s timer (LSelectTimeout) - after which runSession has returned, the loop is back at its
   head, and the slot has been given back exactly once. *)
Theorem C16_negotiating_session_can_release : forall N ls st c,
  run V1 (init N) ls = Some st -> cur st = Some c -> holds c + pend c + (match mn st with MRetRecv => 1 | _ => 0 end) = 1 ->
  length (cur_release st c) <= 6 /\ forallb (cur_session_step (length (bg st))) (cur_release st c) = true /\
  exists st' c', run V1 st (cur_release st c) = Some st' /\ cur_release st c <> [] /\
    mn st' = MTop /\ cur st' = None /\
    nth_error (bg st') (length (bg st)) = Some c' /\ length (bg st') = S (length (bg st)) /\
    holds c' = 0 /\ pend c' = 0 /\ released c' = 1 /\
    (N <> 0 -> S (chlen (tok st')) = chlen (tok st)).
Proof.
  intros N ls st c H Hc Ho. split; [apply cur_release_short|]. split; [apply cur_release_steps|].
  apply (cur_release_path _ _ _ (run_inv _ _ _ H) Hc). destruct (mn st); exact Ho.
Qed.

(* runSession itself always returns within 4 steps of the Start goroutine, whoever owns the session *)
Theorem C16_run_session_returns : forall N ls st c,
  run V1 (init N) ls = Some st -> cur st = Some c ->
  length (main_exit (mn st) (own c)) <= 4 /\ forallb main_step (main_exit (mn st) (own c)) = true /\
  exists st', run V1 st (main_exit (mn st) (own c)) = Some st' /\ mn st' = MTop /\ cur st' = None /\
              length (bg st') = S (length (bg st)).
Proof.
  intros N ls st c H Hc. split; [apply main_exit_short|]. split; [apply main_exit_main|].
  destruct (cur_exit_path _ _ _ (run_inv _ _ _ H) Hc) as (st' & c' & R & M & C & B & _).
  exists st'. repeat (split; [assumption|]). rewrite B, app_length. cbn. apply Nat.add_1_r.
Qed.

(* ---- non-vacuity: capacity 3, one client served, one session waiting for its data channel: 0 < in_use < N *)
Definition ex_partial : list label := w_open 0 ++ [LGet; LGetSend; LPollOffer; LRelayOk; LPcOk; LAnswerOk].

Example C16_slot_accounting_nonvacuous :
  exists st, run V1 (init 3) ex_partial = Some st /\ in_use st = 2 /\ releasing st = 0 /\ free_slots 3 st = 1 /\ mn st = MSelect.
Proof. eexists. vm_compute. repeat split. Qed.

(* ... and a release in progress: occupied counts it until the channel receive *)
Example C16_slot_accounting_releasing :
  exists st, run V1 (init 3) (w_open 0 ++ [LH 0 HEnd]) = Some st /\ in_use st = 0 /\ releasing st = 1 /\ free_slots 3 st = 2.
Proof. eexists. vm_compute. repeat split. Qed.

Example C16_poll_loop_nonvacuous :
  (exists st, run V1 (init 2) (w_open 0) = Some st /\ mn st = MTop /\ free_slots 2 st = 1) /\
  (exists st, run V1 (init 2) (w_open 0 ++ w_open 1) = Some st /\ mn st = MTop /\ free_slots 2 st = 0).
Proof. split; eexists; vm_compute; repeat split. Qed.

Example C16_served_session_nonvacuous :
  exists st c, run V1 (init 3) ex_partial = Some st /\ nth_error (bg st) 0 = Some c /\ holds c + pend c = 1 /\
               handler_path 0 c = [LH 0 HEnd; LH 0 HRecv].
Proof. eexists. eexists. vm_compute. repeat split. Qed.

Example C16_negotiating_session_nonvacuous :
  exists st c, run V1 (init 3) ex_partial = Some st /\ cur st = Some c /\
               holds c + pend c + (match mn st with MRetRecv => 1 | _ => 0 end) = 1 /\
               cur_release st c = [LSelectTimeout; LGiveUp; LClose; LMainRecv].
Proof. eexists. eexists. vm_compute. repeat split. Qed.

(* the handler owns the session under negotiation (the answer request still in flight): 2 main steps + 2 handler steps *)
Example C16_negotiating_session_handler_owned :
  exists st c, run V1 (init 1) [LGet; LGetSend; LPollOffer; LRelayOk; LPcOk; LDcOpen; LH 0 HClaim] = Some st /\
               cur st = Some c /\ own c = OHandler /\
               cur_release st c = [LAnswerFail; LGiveUp; LH 0 HDialTimer; LH 0 HRecv].
Proof. eexists. eexists. vm_compute. repeat split. Qed.

(* ==== the relay dial (handler stage HDial: datachannelHandler is inside websocket.DefaultDialer.Dial).  What the relay
   answers is the environment's choice (LH i HDialOk / LH i HDialFail); a relay that accepts the connection and never
   answers gives NEITHER.  The code's own bound is the dialer's 45 s HandshakeTimeout: LH i HDialTimer. *)

(* ---- a session whose relay hangs gives its slot back by its own timer: from EVERY reachable state with a served session
   inside the relay dial, two steps of that session's handler - the timer and the channel receive, nothing from the relay,
   the loop, the broker or another session - and the slot is free again, released exactly once *)
Theorem C16_hanging_relay_released : forall N ls st i c,
  run V1 (init N) ls = Some st -> nth_error (bg st) i = Some c -> hp c = HDial ->
  holds c = 1 /\
  exists st' c', run V1 st [LH i HDialTimer; LH i HRecv] = Some st' /\
    nth_error (bg st') i = Some c' /\ holds c' = 0 /\ pend c' = 0 /\ hp c' = HDone /\ released c' = 1 /\
    mn st' = mn st /\ cur st' = cur st /\ in_use st' + 1 = in_use st /\
    (N <> 0 -> S (chlen (tok st')) = chlen (tok st)).
Proof. intros N ls st i c H Hn Hh. exact (dial_timer_releases N st i c (run_inv _ _ _ H) Hn Hh). Qed.

(* ---- and ONLY that timer (or an answer of the relay) does: without a dial event of session i - whatever else happens, for
   ever, in either code version - the session stays inside the dial, holding its slot.  A dial that is not bounded by a
   timer therefore leaks the slot of every session whose relay hangs. *)
Theorem C16_dial_without_timer_leaks : forall v tr st st' i c, nth_error (bg st) i = Some c -> hp c = HDial ->
  forallb (fun l => negb (dial_event i l)) tr = true -> run v st tr = Some st' ->
  nth_error (bg st') i = Some c.
Proof. exact hang_holds_slot. Qed.

(* capacity 1, the only client's relay hangs: the loop is parked in tokens.get() (C16_poll_loop_iff_free_slot: no free
   slot) until the timer has fired *)
Definition ex_dialling : list label := [LGet; LGetSend; LPollOffer; LRelayOk; LPcOk; LAnswerOk; LDcOpen; LH 0 HClaim; LSelectOpen].

Example C16_hanging_relay_nonvacuous :
  exists st c, run V1 (init 1) ex_dialling = Some st /\ nth_error (bg st) 0 = Some c /\ hp c = HDial /\ in_use st = 1 /\
    free_slots 1 st = 0 /\ n_active st = 1 /\
    (exists st', run V1 st [LGet; LH 0 HDialTimer; LH 0 HRecv; LGetSend] = Some st' /\ mn st' = MPoll /\ in_use st' = 1) /\
    (exists st', run V1 st [LGet; LPollNoMatch] = None /\ run V1 st [LGet] = Some st' /\ step V1 st' LGetSend = None).
Proof.
  eexists. eexists. split; [vm_compute; reflexivity|]. vm_compute. repeat split.
  - eexists. repeat split.
  - eexists. repeat split.
Qed.

Example C16_dial_without_timer_nonvacuous :
  exists st c, run V1 (init 2) ex_dialling = Some st /\ nth_error (bg st) 0 = Some c /\ hp c = HDial /\
    forallb (fun l => negb (dial_event 0 l)) (w_open 1 ++ [LH 1 HEnd; LH 1 HRecv]) = true /\
    run V1 st (w_open 1 ++ [LH 1 HEnd; LH 1 HRecv]) <> None.
Proof. eexists. eexists. split; [vm_compute; reflexivity|]. vm_compute. repeat split. discriminate. Qed.

(* ---- overlapping callers of tokens_t (Model/TokensConc.v): any number of goroutines, each with its own program of
   get()/ret() calls, every call two atomic steps (atomic.AddInt64, then the channel operation), interleaved by ANY
   schedule.  The session machine above takes get/ret steps one at a time; these statements say that nothing is lost when
   they overlap.  Tie: the conc cases (op S<n>x<rounds>) run the same programs on the real tokens_t behind one barrier and
   are compared at every quiescent point with the extracted machine run under a pseudo-random schedule
   (Run/ProxySessionRun.v `stress`); by the statements below the prediction is the same for every schedule. *)

(* at every point of every interleaving the counter is exactly its start value plus what the steps taken so far added *)
Theorem C16_counter_exact_under_interleaving : forall t ps sched s, balanced t ->
  crun (cinit t ps) sched = Some s ->
  clients (ctok s) = (clients t + progs_net ps - total net_c (todo s))%Z.
Proof. intros t ps sched s Hb Hr. destruct (crun_inv _ _ _ _ _ (cinit_cinv t ps Hb) Hr) as ((Ic & _) & _). lia. Qed.

(* the channel holds exactly one element per completed send not yet received, and never more than the capacity *)
Theorem C16_channel_exact_under_interleaving : forall t ps sched s, balanced t -> cap t <> O ->
  crun (cinit t ps) sched = Some s ->
  Z.of_nat (chlen (ctok s)) = (clients t + progs_net ps - total net_h (todo s))%Z /\ chlen (ctok s) <= cap t.
Proof.
  intros t ps sched s Hb Hc Hr. destruct (crun_inv _ _ _ _ _ (cinit_cinv t ps Hb) Hr) as ((_ & Ih & _) & Hcap & _).
  cbn [cinit ctok] in Hcap. rewrite Hcap in Ih. destruct (Ih Hc) as [Ha Hl]. split; [lia|exact Hl].
Qed.

(* when every goroutine has finished: count = start + gets - rets, and counter and channel agree again *)
Theorem C16_quiescent_count : forall t ps sched s, balanced t ->
  crun (cinit t ps) sched = Some s -> quiescent s = true ->
  clients (ctok s) = (clients t + progs_net ps)%Z /\ balanced (ctok s).
Proof. exact quiescent_count. Qed.

Theorem C16_quiescent_count_schedule_independent : forall t ps sched1 sched2 s1 s2, balanced t ->
  crun (cinit t ps) sched1 = Some s1 -> quiescent s1 = true ->
  crun (cinit t ps) sched2 = Some s2 -> quiescent s2 = true ->
  clients (ctok s1) = clients (ctok s2).
Proof.
  intros t ps a b s1 s2 Hb H1 Q1 H2 Q2.
  destruct (quiescent_count _ _ _ _ Hb H1 Q1) as [E1 _]. destruct (quiescent_count _ _ _ _ Hb H2 Q2) as [E2 _]. lia.
Qed.

(* one round of the driver's stress (n sessions end while n others start, k short sessions each) leaves the count as it
   was, whatever the interleaving *)
Theorem C16_stress_round_count : forall t n k sched s, balanced t ->
  crun (cinit t (round_progs n k)) sched = Some s -> quiescent s = true ->
  clients (ctok s) = clients t /\ balanced (ctok s).
Proof. intros t n k sched s Hb Hr Hq. destruct (quiescent_count _ _ _ _ Hb Hr Hq) as [E B]. rewrite round_net in E. split; [lia|exact B]. Qed.

(* capacity 0 (unlimited): no caller is ever blocked *)
Theorem C16_unlimited_never_blocks : forall s i m rest, cap (ctok s) = O ->
  nth_error (todo s) i = Some (m :: rest) -> exists s', cstep s i = Some s'.
Proof.
  intros s i m rest Hc Hn. unfold cstep. rewrite Hn.
  assert (micro_ready (ctok s) m = true) as ->; [|eauto].
  destruct m; cbn [micro_ready]; unfold send_ready, recv_ready; rewrite ?Hc; reflexivity.
Qed.

(* what atomic.AddInt64 buys: with the counter as a load followed by a (clamped) store, two sessions ending together can
   leave a slot counted for ever, and a get overlapping a ret can vanish (seed C16-m13's shape) *)
Theorem C16_load_store_counter_refuted :
  exists s, lrun two_rets [0; 1; 0; 1] = Some s /\ lquiescent s = true /\ lclients s = 1%Z.
Proof. eexists. split; [vm_compute; reflexivity|]. split; reflexivity. Qed.
Theorem C16_load_store_get_refuted :
  exists s, lrun ret_and_get [0; 1; 1; 0] = Some s /\ lquiescent s = true /\ lclients s = 0%Z.
Proof. eexists. split; [vm_compute; reflexivity|]. split; reflexivity. Qed.

Example C16_stress_round_nonvacuous :
  exists s, crun (cinit ex_tok (round_progs 2 1)) ex_sched = Some s /\ quiescent s = true /\ clients (ctok s) = 3%Z.
Proof. exact ex_round_runs. Qed.
Example C16_stress_round_start_balanced : balanced ex_tok.
Proof. split; cbn; intros; [split; [reflexivity|lia]|discriminate]. Qed.
