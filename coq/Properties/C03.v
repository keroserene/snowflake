(* C03 — Matches respect NAT compatibility, availability and load order.
   Over Model/Broker.v (see Properties/C02.v for the reading of [reachable], entries and labels).
   [eligible n e] = entry e is still in its matching heap and belongs to the pool a client of NAT
   type n is served from; L_Client n fp o choice is the client's matchSnowflake step. *)
From Coq Require Import List NArith ZArith Bool.
From Coq Require Import Permutation.
From Snow Require Import Model.Broker Proofs.BrokerProofs Proofs.BrokerSteps Proofs.BrokerThms.
From Snow Require Import Model.GoHeap Proofs.GoHeapProofs Model.BrokerHeap Proofs.BrokerHeapProofs.
From Snow Require Import Model.BrokerImpl Proofs.BrokerKeys Proofs.BrokerImplProofs.
Import ListNotations.
Open Scope N_scope.

(* In every reachable state every matched pair is NAT compatible: a restricted or unknown client holds
   an unrestricted proxy; an unrestricted client holds a restricted or unknown proxy. *)
Theorem C03_nat_compat : forall v br s p e c,
  reachable v br s -> nth_error (entries s) p = Some e -> e_cl e = Some c ->
  compat (c_nat c) (e_nat e) = true.
Proof.
  intros v br s p e c R Hp Hc. destruct (inv_entries v s (reachable_inv v br s R) p e Hp) as [_ [_ [Hcl _]]].
  apply Hcl. exact Hc.
Qed.

Example C03_compat_table :
  compat NatRestricted NatUnrestricted = true /\ compat NatUnknown NatUnrestricted = true /\
  compat NatRestricted NatRestricted = false /\ compat NatRestricted NatUnknown = false /\
  compat NatUnknown NatUnknown = false /\
  compat NatUnrestricted NatRestricted = true /\ compat NatUnrestricted NatUnknown = true /\
  compat NatUnrestricted NatUnrestricted = false.
Proof. repeat split. Qed.

(* "In the heap" means exactly: registered, not expired, not yet claimed by any client. *)
Theorem C03_waiting_iff_in_heap : forall v br s p e,
  reachable v br s -> nth_error (entries s) p = Some e ->
  (e_inheap e = true <-> e_cl e = None /\ w_unmatched_waiting (e_w e) = true).
Proof. exact inheap_iff_waiting. Qed.

(* A client (naming a known bridge) is refused exactly when no proxy of its eligible pool is waiting,
   and then the answer is 'no proxies' and nothing else changes. *)
Theorem C03_refusal_iff : forall v s n ofp o ch s',
  step v s (L_Client n ofp o ch) = Some s' -> lookup (fp_of ofp) (bridges s) <> None ->
  (ch = None <-> forall e, In e (entries s) -> eligible n e = false) /\
  (ch = None -> done_clients s' = (next_cid s, n, fp_of ofp, o, CNoProxies) :: done_clients s /\ entries s' = entries s).
Proof. exact refusal_iff. Qed.

(* The proxy a client is given is waiting, eligible, and has the smallest self-reported client count
   among all eligible waiting proxies. *)
Theorem C03_least_loaded : forall v s n ofp o p s',
  step v s (L_Client n ofp o (Some p)) = Some s' ->
  exists e, nth_error (entries s) p = Some e /\ eligible n e = true /\
    (forall e', In e' (entries s) -> eligible n e' = true -> e_clients e <= e_clients e') /\
    exists c, nth_error (entries s') p = Some (set_cl (Some c) (set_heap_live false (e_live e) e)) /\
              c_nat c = n /\ c_fp c = fp_of ofp /\ c_offer c = o /\ c_pc c = C_Send.
Proof. exact least_loaded. Qed.

(* Loads are Go ints: 64 bit, SIGNED, and the wire accepts every value of that range. The model's loads are N and the
   model only compares them; the runner feeds it emb z = z + 2^63 for the int64 value z (Model/BrokerHeap.v), under which
   the order of the model IS the order of the integers - for every pair of the range, also two counts more than
   MaxInt64 apart (MaxInt64 and -8), where a comparison by the sign of a 64-bit difference goes wrong. *)
Theorem C03_load_order_is_integer_order : forall a b, int64_range a = true -> int64_range b = true ->
  sf_less (0%nat, emb a) (1%nat, emb b) = (a <? b)%Z /\ unemb (emb a) = a.
Proof. intros a b Ha Hb. split; [exact (emb_order a b Ha Hb)|exact (unemb_emb a Ha)]. Qed.

Example C03_load_order_extreme_example :
  int64_range 9223372036854775807 = true /\ int64_range (-8) = true /\ int64_range (-9223372036854775808) = true /\
  sf_less (0%nat, emb (-8)) (1%nat, emb 9223372036854775807) = true /\
  sf_less (0%nat, emb 9223372036854775807) (1%nat, emb (-8)) = false /\
  (* the 64-bit difference of the same two counts has the wrong sign *)
  ((9223372036854775807 - -8 + 9223372036854775808) mod 18446744073709551616 - 9223372036854775808 <? 0)%Z = true /\
  fst (lpop sf_less (lpush sf_less (1%nat, emb (-8)) (lpush sf_less (0%nat, emb 9223372036854775807) []))) =
    [(0%nat, emb 9223372036854775807)].
Proof. repeat split; vm_compute; reflexivity. Qed.

(* The relational pool above is what the real data structure delivers: the broker's SnowflakeHeap is Go's
   container/heap (Model/GoHeap.v, validated against the standard library by the C17 correspondence) over a
   slice ordered by client count. After ANY sequence of pushes (AddSnowflake), guarded pops (matchSnowflake)
   and guarded removals (proxy timeout) the slice is heap ordered, heap.Pop returns an element whose client
   count is minimal, and the contents change only by that element. *)
Theorem C03_array_heap_invariant : forall ops, heap_ok sf sf_less (fold_left hstep ops []).
Proof. exact heap_ops_ok. Qed.

Theorem C03_array_heap_pops_least_loaded : forall ops m,
  let l := fold_left hstep ops [] in
  nth_error l 0 = Some m ->
  exists l', lpop sf_less l = (l', Some m) /\ heap_ok sf sf_less l' /\ Permutation l (m :: l') /\
             (forall y, In y l -> snd m <= snd y).
Proof.
  intros ops m l Hm.
  destruct (lpop_spec sf sf_less sf_irrefl sf_trans sf_negtrans l m (heap_ops_ok ops) Hm) as [l' [Hp [Hok [Hperm Hmin]]]].
  exists l'. repeat split; try assumption.
  intros y Hy. specialize (Hmin y Hy). unfold sf_less in Hmin. apply N.ltb_ge in Hmin. exact Hmin.
Qed.

Example C03_array_heap_example :
  lpop sf_less (fold_left hstep [HPush (0%nat, 15); HPush (1%nat, 9); HPush (2%nat, 23); HRemove 2] []) =
  ([(0%nat, 15)], Some (1%nat, 9)).
Proof. vm_compute. reflexivity. Qed.

(* a removal that needs a sift-UP (what the poll-timeout branch does at an inner position): counts pushed
   11 | 1,2,10,12,20,3; the 11 sits at position 3 under the 10 at position 1; taking it out moves the last element
   (the 3) into the hole, where it must rise above the 10 - the next three hand-overs are then 1, 2, 3. (A removal
   that only sifts down leaves the 3 under the 10 and hands out the 10 third: scenario kind
   poll-expires-inside-heap-up of lib/checks/brokerlib.py runs this history against broker.go.) *)
Example C03_removal_needs_sift_up_example :
  let l0 := fold_left hstep [HPush (0%nat, 11); HPush (1%nat, 1); HPush (2%nat, 2); HPush (3%nat, 10); HPush (4%nat, 12);
                             HPush (5%nat, 20); HPush (6%nat, 3)] [] in
  let l1 := hstep l0 (HRemove 3) in
  nth_error l0 3 = Some (0%nat, 11) /\ nth_error l0 1 = Some (3%nat, 10) /\ nth_error l0 6 = Some (6%nat, 3) /\
  l1 = [(1%nat, 1); (6%nat, 3); (2%nat, 2); (3%nat, 10); (4%nat, 12); (5%nat, 20)] /\
  snd (lpop sf_less l1) = Some (1%nat, 1) /\
  snd (lpop sf_less (fst (lpop sf_less l1))) = Some (2%nat, 2) /\
  snd (lpop sf_less (fst (lpop sf_less (fst (lpop sf_less l1))))) = Some (6%nat, 3).
Proof. vm_compute. repeat split; reflexivity. Qed.

(* ---- the pointer level: what `broker heap` runs against broker/snowflake-heap.go (Model/BrokerHeap.v [xstep]:
   the slice of *Snowflake, every element carrying the `index` field written by Swap/Push/Pop). ---- *)

(* it is the list-level heap above, element for element, after every operation sequence ... *)
Theorem C03_pointer_heap_is_list_heap : forall ops,
  map x_el (h_arr (xrun ops sheap_empty)) = fold_left hstep ops [].
Proof.
  intros ops. apply (xrun_sim ops sheap_empty []). split; [reflexivity|]. intros i x H. destruct i; discriminate.
Qed.

(* ... and SnowflakeHeap's index bookkeeping is consistent: after ANY sequence of Push / guarded Pop / guarded
   Remove(i) / Fix every element's `index` equals its position in the slice, and every element that was handed
   back by Pop or Remove holds index -1 (what the proxy-timeout path of broker.go relies on). *)
Theorem C03_heap_index_consistent : forall ops,
  let h := xrun ops sheap_empty in
  (forall i x, nth_error (h_arr h) i = Some x -> x_idx x = Z.of_nat i) /\
  (forall e, In e (h_out h) -> x_idx e = (-1)%Z).
Proof. intros ops h. destruct (xrun_ok ops sheap_empty sheap_ok_empty) as [A [B _]]. split; assumption. Qed.

Example C03_heap_index_example :
  let h := xrun [HPush (1%nat, 5); HPush (2%nat, 2); HPush (3%nat, 2); HPop; HRemove 1; HFix 0 0] sheap_empty in
  h_arr h = [mkx (3%nat, 0) 0] /\ h_out h = [mkx (2%nat, 2) (-1); mkx (1%nat, 5) (-1)].
Proof. vm_compute. split; reflexivity. Qed.

(* ---- refinement: the matching machine over the two array heaps (Model/BrokerImpl.v [istep], run against the Go code
   as `broker irun`: AddSnowflake = heap.Push, matchSnowflake = heap.Pop when Len() > 0, the waiter's timeout
   critical section = read the element's `index`, heap.Remove unless -1) against the relational machine [step].
   [Rel st]: for each NAT class, the multiset of (poll, client count) in the slice IS the relational pool
   {entries of that class with e_inheap}, the slice is heap ordered, `index` = position, what left holds -1. ---- *)

(* every step of the array-heap machine is a step of the relational machine for the same request (for a client
   poll: with the proxy that heap.Pop returned as the relational choice), and re-establishes the relation *)
Theorem C03_array_heap_refines_pool : forall v st l st',
  Rel st -> istep v st l = Some st' ->
  (exists l', step v (i_s st) l' = Some (i_s st') /\ same_request l l') /\ Rel st'.
Proof. exact istep_refines. Qed.

(* it never refuses what the relational machine allows: heap.Pop / heap.Remove are called with valid arguments and
   what matchSnowflake returns is always a choice the relational machine admits (eligible, minimal) *)
Theorem C03_array_heap_never_refuses : forall v st l s',
  Rel st -> step v (i_s st) l = Some s' -> exists st', istep v st l = Some st'.
Proof. exact istep_enabled. Qed.

(* hence every state of an array-heap run is a reachable state of the relational machine (all of C02, C03, C04
   apply to it) and satisfies the relation *)
Theorem C03_array_heap_runs : forall v br ls st,
  irun v (iinit br) ls = Some st -> reachable v br (i_s st) /\ Rel st.
Proof. exact irun_refines. Qed.

(* C03_refusal_iff / C03_least_loaded delivered by the array implementation: after any run, a client (naming a known
   bridge) is refused only when no proxy of its pool waits, and is otherwise given an eligible waiting proxy with
   the smallest client count *)
Theorem C03_array_heap_least_loaded : forall v br ls st n ofp o ch st',
  irun v (iinit br) ls = Some st -> istep v st (L_Client n ofp o ch) = Some st' ->
  lookup (fp_of ofp) (bridges (i_s st)) <> None ->
  (forall e, In e (entries (i_s st)) -> eligible n e = false) /\ entries (i_s st') = entries (i_s st) /\
    done_clients (i_s st') = (next_cid (i_s st), n, fp_of ofp, o, CNoProxies) :: done_clients (i_s st)
  \/ exists p e, nth_error (entries (i_s st)) p = Some e /\ eligible n e = true /\
       (forall e', In e' (entries (i_s st)) -> eligible n e' = true -> e_clients e <= e_clients e') /\
       exists c, nth_error (entries (i_s st')) p = Some (set_cl (Some c) (set_heap_live false (e_live e) e)) /\ c_offer c = o.
Proof.
  intros v br ls st n ofp o ch st' Hrun H Hfp. destruct (irun_refines v br ls st Hrun) as [_ R].
  destruct (istep_refines v st _ st' R H) as [[l' [Hs [ch' ->]]] _].
  destruct ch' as [p|].
  - right. destruct (least_loaded v _ n ofp o p _ Hs) as [e [Hp [He [Hmin [c [Hc [_ [_ [Ho _]]]]]]]]].
    exists p, e. repeat split; try assumption. exists c. split; assumption.
  - left. destruct (refusal_iff v _ n ofp o None _ Hs Hfp) as [[Hall _] Hdone].
    split; [apply Hall; reflexivity|]. destruct (Hdone eq_refl) as [A B]. split; assumption.
Qed.

(* a poll that left the pool never returns to it (used by C02_poll_gets_at_most_one_offer) *)
Theorem C03_left_pool_forever : forall v s l s' p e,
  step v s l = Some s' -> nth_error (entries s) p = Some e -> e_inheap e = false ->
  exists e', nth_error (entries s') p = Some e' /\ e_inheap e' = false.
Proof. exact left_pool_forever. Qed.

(* non-vacuity: three unrestricted proxies with loads 5, 2, 2 and a restricted one; the middle one expires (its
   waiter removes it at its index), a client is given a load-2 proxy (whatever choice was written in the label), the
   next one the load-5 proxy, the third is refused; an unrestricted client is served from the other heap. *)
Example C03_array_heap_machine_example :
  exists st, irun V1 (iinit [(7, 9)])
    [L_Poll 1 NatUnrestricted 1 5; L_Poll 2 NatUnrestricted 1 2; L_Poll 3 NatUnrestricted 1 2; L_Poll 4 NatRestricted 1 0;
     L_FireW 1; L_WTake 1; L_WTimeoutCS 1;
     L_Client NatRestricted (Some 7) 100 None; L_Client NatUnknown (Some 7) 101 None; L_Client NatRestricted (Some 7) 102 None;
     L_Client NatUnrestricted (Some 7) 103 None] = Some st /\
  map (fun e => option_map c_offer (e_cl e)) (entries (i_s st)) = [Some 101; None; Some 100; Some 103] /\
  map (fun '(cid, _, _, _, r) => (cid, r)) (done_clients (i_s st)) = [(2%nat, CNoProxies)] /\
  h_arr (i_hu st) = [] /\ map x_idx (h_out (i_hu st)) = [(-1)%Z; (-1)%Z; (-1)%Z].
Proof. eexists. vm_compute. repeat split. Qed.

(* non-vacuity: with loads 5 and 2 waiting, the client is given the proxy with load 2 and cannot be given the other *)
Example C03_example :
  let s0 := run V1 (init [(7, 9)]) [L_Poll 1 NatUnrestricted 1 5; L_Poll 2 NatUnrestricted 1 2] in
  (exists s, s0 = Some s /\ step V1 s (L_Client NatRestricted (Some 7) 100 (Some 1%nat)) <> None /\
             step V1 s (L_Client NatRestricted (Some 7) 100 (Some 0%nat)) = None /\
             step V1 s (L_Client NatRestricted (Some 7) 100 None) = None /\
             step V1 s (L_Client NatUnrestricted (Some 7) 100 None) <> None).
Proof. eexists. split; [vm_compute; reflexivity|]. repeat split; vm_compute; congruence. Qed.

(* Absent/empty NAT on the wire (C12's decoders) composed with the pool selection: a client that sends no NAT
   type is treated as unknown and served only from the unrestricted proxies; a proxy that sends none is
   registered as unknown and kept for unrestricted clients only. *)
(* imported here and not at the head of the file: JsonBoundary has a [step], MessagesProofs an [entry_ok] of its own *)
From Coq Require Import String.
From Snow Require Import Lib.Wire Model.JsonBoundary Model.Messages Proofs.MessagesProofs Proofs.BrokerWireProofs.

Theorem C03_wire_default_client : forall v o n f e,
  decode_client_poll_body v = Ok (o, n, f) -> absent "nat"%string v ->
  natty_of n = NatUnknown /\ eligible (natty_of n) e = e_inheap e && is_unrestricted (e_nat e).
Proof.
  intros v o n f e Hd Ha.
  destruct defaults as [_ [_ [_ [_ [_ [_ [Hc _]]]]]]].
  rewrite (Hc v o n f Hd Ha). split; reflexivity.
Qed.

Theorem C03_wire_default_proxy : forall v r sd pt cl,
  decode_proxy_poll v = Ok r -> absent "NAT"%string v ->
  natty_of (pq_nat r) = NatUnknown /\
  (forall cn, eligible cn (new_entry sd (natty_of (pq_nat r)) pt cl) = is_unrestricted cn).
Proof.
  intros v r sd pt cl Hd Ha.
  destruct defaults as [Hp _]. rewrite (Hp v r Hd Ha). split; [reflexivity|].
  intros cn. unfold eligible, new_entry. cbn. destruct cn; reflexivity.
Qed.

(* The Version field of a proxy poll (every string the decoder accepts: major version 1 - "1.0" ... "1.3", a bare "1",
   "1.10", "1.2.3" ...) does not enter the pool decision: two polls whose other fields agree decode alike, and for
   EVERY accepted version the poll is registered with exactly the NAT type it carries (empty = unknown), i.e. kept for
   the clients compatible with that NAT type and for no others. [unmarshal poll_req_schema v] = what json.Unmarshal
   leaves in the ProxyPollRequest struct (Model/JsonBoundary.v). *)
Theorem C03_wire_version_irrelevant : forall v1 v2 sid ver1 ver2 ty nat n pat,
  unmarshal poll_req_schema v1 = Some [VStr sid; VStr ver1; VStr ty; VStr nat; VInt n; VPtr pat] ->
  unmarshal poll_req_schema v2 = Some [VStr sid; VStr ver2; VStr ty; VStr nat; VInt n; VPtr pat] ->
  major_ok ver1 = true -> major_ok ver2 = true ->
  decode_proxy_poll v1 = decode_proxy_poll v2.
Proof.
  intros v1 v2 sid ver1 ver2 ty nat n pat H1 H2 M1 M2. unfold decode_proxy_poll. rewrite H1, H2, M1, M2. reflexivity.
Qed.

Theorem C03_wire_nat_for_every_version : forall v sid ver ty nat n pat,
  unmarshal poll_req_schema v = Some [VStr sid; VStr ver; VStr ty; VStr nat; VInt n; VPtr pat] ->
  major_ok ver = true -> beq sid [] = false ->
  match norm_nat nat with
  | None => decode_proxy_poll v = Err
  | Some nat' =>
      exists r, decode_proxy_poll v = Ok r /\ pq_nat r = nat' /\ pq_sid r = sid /\ pq_type r = norm_type ty /\
                pq_clients r = n /\
                (forall cn sd pt cl, eligible cn (new_entry sd (natty_of (pq_nat r)) pt cl) = compat cn (natty_of nat'))
  end.
Proof.
  intros v sid ver ty nat n pat H M S. unfold decode_proxy_poll. rewrite H, M, S. cbn [negb].
  destruct (norm_nat nat) as [nat'|]; [|reflexivity].
  eexists. split; [reflexivity|]. cbn [pq_nat pq_sid pq_type pq_clients].
  split; [reflexivity|]. split; [reflexivity|]. split; [reflexivity|]. split; [reflexivity|].
  intros cn sd pt cl. unfold eligible, new_entry, compat. cbn. destruct cn, (natty_of nat'); reflexivity.
Qed.

(* non-vacuity: polls carrying NAT "unrestricted" under the versions 1.0, 1, 1.10 and 1.3 (the last without the
   relay-pattern field) are all accepted with NAT unrestricted - kept for restricted/unknown clients, not for
   unrestricted ones; version 2.0 is refused *)
Example C03_wire_version_example :
  let poll ver := JObj [jstr_field (bs "Sid") (bs "s"); jstr_field (bs "Version") ver; jstr_field (bs "Type") (bs "standalone");
                        jstr_field (bs "NAT") NAT_UNRESTRICTED; (bs "Clients", JNum (bs "2"))] in
  (forall ver, In ver [bs "1.0"; bs "1"; bs "1.10"; bs "1.3"] ->
     major_ok ver = true /\
     exists r, decode_proxy_poll (poll ver) = Ok r /\ natty_of (pq_nat r) = NatUnrestricted /\
       eligible NatRestricted (new_entry 1 (natty_of (pq_nat r)) 1 0) = true /\
       eligible NatUnknown (new_entry 1 (natty_of (pq_nat r)) 1 0) = true /\
       eligible NatUnrestricted (new_entry 1 (natty_of (pq_nat r)) 1 0) = false) /\
  decode_proxy_poll (poll (bs "2.0")) = Err.
Proof.
  split; [|vm_compute; reflexivity].
  intros ver [<-|[<-|[<-|[<-|[]]]]]; (split; [vm_compute; reflexivity|]); eexists; (split; [vm_compute; reflexivity|]);
    repeat split; vm_compute; reflexivity.
Qed.
