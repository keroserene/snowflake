(* C08 — local addresses are stripped from SDP, nothing else is lost.
   Statements over Model/IpClass.v (util.IsLocal and the net.IP methods), Model/SdpStrip.v
   (util.StripLocalAddresses over the parsed description; see that file for the library boundary) and
   Model/SdpStripLines.v (the whole description line by line as pion/sdp writes it; what the client and the
   proxy put into the message for the broker, with the keep flag and a Marshal that may fail). *)
From Coq Require Import String.
From Coq Require Import List NArith Bool.
From Snow Require Import Lib.Wire Model.IpClass Model.SdpStrip Proofs.IpClassProofs Proofs.SdpStripProofs.
From Snow Require Import Model.SdpStripLines Proofs.SdpStripLinesProofs.
Import ListNotations.
Open Scope N_scope.

(* IsLocal is exactly 10/8 ∪ 172.16/12 ∪ 192.168/16 ∪ 100.64/10 ∪ 169.254/16 (4-byte form, and
   IPv4-mapped 16-byte form) ∪ fc00::/7, as intervals of the big-endian value of the address. *)
Theorem C08_is_local_ranges :
  (forall a b c d, wf [a; b; c; d] ->
     (is_local [a; b; c; d] = true <->
        (v4num 10 0 0 0 <= v4num a b c d <= v4num 10 255 255 255)
        \/ (v4num 172 16 0 0 <= v4num a b c d <= v4num 172 31 255 255)
        \/ (v4num 192 168 0 0 <= v4num a b c d <= v4num 192 168 255 255)
        \/ (v4num 100 64 0 0 <= v4num a b c d <= v4num 100 127 255 255)
        \/ (v4num 169 254 0 0 <= v4num a b c d <= v4num 169 254 255 255)))
  /\ (forall x, wf x -> List.length x = 16%nat ->
     (is_local x = true <->
        (MAPPED_LO <= be_num x <= MAPPED_HI /\ in_local4 (be_num x - MAPPED_LO))
        \/ (ULA_LO <= be_num x <= ULA_HI))).
Proof. split; [exact is_local_4 | exact is_local_16]. Qed.

(* the whole test of the stripping step (IsLocal || IsUnspecified || IsLoopback) as intervals:
   the above, plus 0.0.0.0, 127/8 (both forms), :: and ::1 *)
Theorem C08_bad_addr_ranges :
  (forall a b c d, wf [a; b; c; d] ->
     (bad_addr [a; b; c; d] = true <->
        in_local4 (v4num a b c d) \/ v4num a b c d = 0
        \/ (v4num 127 0 0 0 <= v4num a b c d <= v4num 127 255 255 255)))
  /\ (forall x, wf x -> List.length x = 16%nat ->
     (bad_addr x = true <->
        (MAPPED_LO <= be_num x <= MAPPED_HI /\ bad4 (be_num x - MAPPED_LO))
        \/ (ULA_LO <= be_num x <= ULA_HI) \/ be_num x = 0 \/ be_num x = 1)).
Proof. split; [exact bad_addr_4 | exact bad_addr_16]. Qed.

Example C08_ranges_nonvacuous :
  wf [172; 31; 255; 255] /\ is_local [172; 31; 255; 255] = true /\ is_local [172; 32; 0; 0] = false
  /\ wf [0;0;0;0;0;0;0;0;0;0;255;255;100;64;0;0] /\ is_local [0;0;0;0;0;0;0;0;0;0;255;255;100;64;0;0] = true
  /\ is_local [252;0;0;0;0;0;0;0;0;0;0;0;0;0;0;1] = true /\ is_local [251;255;0;0;0;0;0;0;0;0;0;0;0;0;0;1] = false.
Proof. repeat split; try reflexivity; repeat constructor. Qed.

(* After stripping, no media section holds a host candidate whose (parsed) address is local,
   unspecified or loopback … *)
Theorem C08_no_local_host_left : forall (d : description) (m : media) (a : attr) (ip : bytes),
  In m (strip d) -> In a m -> a_class a = Cand Host (Some ip) ->
  is_local ip = false /\ is_unspecified ip = false /\ is_loopback ip = false.
Proof. exact no_local_host_left. Qed.

(* … i.e. its numeric value lies in none of the ranges (net.ParseIP yields 16 bytes; 4-byte form included). *)
Theorem C08_no_local_host_left_ranges : forall (d : description) (m : media) (a : attr) (ip : bytes),
  In m (strip d) -> In a m -> a_class a = Cand Host (Some ip) -> wf ip ->
  (List.length ip = 16%nat -> ~ bad16 (be_num ip))
  /\ (forall x y z w, ip = [x; y; z; w] -> ~ bad4 (v4num x y z w)).
Proof.
  intros d m a ip Hm Ha Hc Hwf.
  pose proof (proj2 (bad_addr_false_iff ip) (no_local_host_left d m a ip Hm Ha Hc)) as Hb.
  split.
  - intros Hlen Hbad. apply (bad_addr_16 ip Hwf Hlen) in Hbad. congruence.
  - intros x y z w E Hbad. subst ip. apply (bad_addr_4 x y z w Hwf) in Hbad. congruence.
Qed.

Example C08_no_local_host_left_nonvacuous :
  let pub := mkAttr 1 (Cand Host (Some [0;0;0;0;0;0;0;0;0;0;255;255;192;0;2;7])) in
  let loc := mkAttr 0 (Cand Host (Some [0;0;0;0;0;0;0;0;0;0;255;255;192;168;1;7])) in
  strip [[loc; mkAttr 2 Other; pub]] = [[mkAttr 2 Other; pub]].
Proof. reflexivity. Qed.

(* Everything else is preserved in order: the statement-by-statement model of the loop equals, per media
   section, the order-preserving filter that removes exactly the attributes that are parsed host candidates
   with such an address (mDNS names, candidates of other types, candidate lines pion/ice rejects and all
   other attributes stay).  The last three clauses determine the output uniquely (sublist_filter_unique). *)
Theorem C08_rest_preserved : forall d : description,
  List.length (strip d) = List.length d
  /\ Forall2 (fun m_in m_out =>
                m_out = filter (fun a => negb (bad_host a)) m_in
                /\ Sublist m_out m_in
                /\ (forall a, In a m_out <-> In a m_in /\ bad_host a = false))
             d (strip d).
Proof. exact rest_preserved. Qed.

Theorem C08_dropped_exactly : forall a : attr,
  bad_host a = true <->
  exists ip, a_class a = Cand Host (Some ip) /\ (is_local ip || is_unspecified ip || is_loopback ip) = true.
Proof. exact bad_host_spec. Qed.

Theorem C08_clean_input_unchanged : forall d : description,
  (forall m a, In m d -> In a m -> bad_host a = false) -> strip d = d.
Proof. exact strip_identity. Qed.

Example C08_clean_input_nonvacuous :
  forall m a, In m [[mkAttr 0 (Cand Srflx (Some [10;0;0;1])); mkAttr 1 BadCand; mkAttr 2 (Cand Host None)]] -> In a m -> bad_host a = false.
Proof. intros m a [E|[]] Ha; subst m. destruct Ha as [E|[E|[E|[]]]]; subst a; reflexivity. Qed.

Theorem C08_idempotent : forall d : description, strip (strip d) = strip d.
Proof. intros d. apply strip_identity. apply strip_keeps_good. Qed.

(* The modelled step is total: the text comes back unchanged or as a description
   (panic freedom of the pion parsers themselves is observed by the check, not proved).  [mok] is the
   outcome of desc.Marshal() on the stripped description: the code returns the input text when
   desc.Unmarshal OR desc.Marshal fails. *)
Theorem C08_total : forall (mok : bool) (p : option description),
  strip_text mok p = Unchanged \/ exists d, strip_text mok p = Stripped d.
Proof. intros [|] [d|]; try (left; reflexivity). right; exists (strip d); reflexivity. Qed.

Theorem C08_text_unchanged_iff : forall (mok : bool) (p : option description),
  (strip_text mok p = Unchanged <-> p = None \/ mok = false)
  /\ (forall d', strip_text mok p = Stripped d' -> mok = true /\ exists d, p = Some d /\ d' = strip d).
Proof. intros mok p. split; [apply strip_text_unchanged_iff|apply strip_text_stripped]. Qed.

(* ------------------------------------------------------------------------------------------------
   The whole description, line by line (Model/SdpStripLines.v: session part, media heads and all
   attribute lines in the order pion/sdp writes them; a line's id stands for its exact text).

   "Every other candidate and every other field of the description is preserved in order": the lines of
   the output ARE the lines of the input with exactly the local host candidate lines removed - same
   order, every remaining line identical; the last two clauses say the same without naming [filter]. *)
Theorem C08_lines_preserved : forall d : sdesc,
  marshal (strip_sdesc d) = filter (fun l => negb (bad_host_line l)) (marshal d)
  /\ Sublist (marshal (strip_sdesc d)) (marshal d)
  /\ (forall l, In l (marshal (strip_sdesc d)) <-> In l (marshal d) /\ bad_host_line l = false).
Proof. exact lines_preserved. Qed.

(* the removed lines are exactly the media-level a=candidate lines parsed as host candidates with a
   local / unspecified / loopback address *)
Theorem C08_removed_lines_exactly : forall l : line,
  bad_host_line l = true <->
  exists ip, l_kind l = KAttr (Cand Host (Some ip)) /\ (is_local ip || is_unspecified ip || is_loopback ip) = true.
Proof. exact bad_host_line_spec. Qed.

Theorem C08_no_local_line_left : forall (d : sdesc) (l : line) (ip : bytes),
  In l (marshal (strip_sdesc d)) -> l_kind l = KAttr (Cand Host (Some ip)) ->
  is_local ip = false /\ is_unspecified ip = false /\ is_loopback ip = false.
Proof.
  intros d l ip Hin Hk. pose proof (no_local_line_left d l Hin) as Hb. apply bad_addr_false_iff.
  destruct (bad_addr ip) eqn:E; [|reflexivity].
  assert (bad_host_line l = true) by (apply bad_host_line_spec; exists ip; auto). congruence.
Qed.

(* session-level lines (session-level a=candidate included), m= lines and the i=/c=/b=/k= lines of the
   media sections come out one for one; so does every attribute line that is not such a candidate *)
Theorem C08_other_fields_identical : forall d : sdesc,
  filter (fun l => negb (is_attr_line l)) (marshal (strip_sdesc d)) = filter (fun l => negb (is_attr_line l)) (marshal d)
  /\ filter (fun l => negb (bad_host_line l)) (marshal (strip_sdesc d)) = filter (fun l => negb (bad_host_line l)) (marshal d)
  /\ sd_session (strip_sdesc d) = sd_session d
  /\ map ms_head (sd_media (strip_sdesc d)) = map ms_head (sd_media d)
  /\ map ms_attrs (sd_media (strip_sdesc d)) = strip (map ms_attrs (sd_media d)).
Proof.
  intros d. split; [apply non_attr_lines_identical|]. split; [apply kept_lines_identical|].
  split; [apply strip_sdesc_rest|]. split; [apply strip_sdesc_rest|apply strip_sdesc_attrs].
Qed.

Theorem C08_clean_lines_unchanged : forall d : sdesc,
  (forall l, In l (marshal d) -> bad_host_line l = false) -> marshal (strip_sdesc d) = marshal d.
Proof. intros d H. rewrite marshal_strip. apply filter_all. intros x Hx. unfold keepf. rewrite (H x Hx). reflexivity. Qed.

Example C08_lines_nonvacuous :
  let loc := mkAttr 7 (Cand Host (Some [192;168;1;7])) in
  let pub := mkAttr 8 (Cand Host (Some [192;0;2;7])) in
  let d := mkSdesc [0; 1; 2; 3; 4] [mkMsec [5; 6] [loc; mkAttr 9 Other; pub]; mkMsec [10] [loc]] in
  map l_id (marshal d) = [0; 1; 2; 3; 4; 5; 6; 7; 9; 8; 10; 7]
  /\ map l_id (marshal (strip_sdesc d)) = [0; 1; 2; 3; 4; 5; 6; 9; 8; 10]
  /\ (forall l, In l (marshal (mkSdesc [0] [mkMsec [1] [pub]])) -> bad_host_line l = false).
Proof.
  repeat split; try reflexivity.
  intros l [E|[E|[E|[]]]]; subst l; reflexivity.
Qed.

(* ------------------------------------------------------------------------------------------------
   "Unless local addresses are explicitly kept": the two call sites.  [to_send keep mok p] is the SDP text
   inside the message for the broker ([Original] = the very string the peer connection produced).

   [mok] = desc.Marshal() on the stripped description returned no error (util.go: `bts, err := desc.Marshal();
   if err != nil { return str }`; the driver reports it for every case).
   Flag on: the original text, untouched.  Flag off and Marshal succeeded: what is sent is never the original
   text of a parsable description (no fall-back to the unstripped text, not even when every candidate was
   local).  Flag off, whatever Marshal did: anything freshly marshalled that is sent holds no local host
   candidate line and is the input minus exactly those lines (and then Marshal did succeed). *)
Theorem C08_sent_stripped_unless_kept : forall (mok : bool) (p : option sdesc),
  to_send true mok p = Original
  /\ (to_send false true p = Original -> p = None)
  /\ (forall l, to_send false mok p = Lines l ->
        mok = true
        /\ (forall x, In x l -> bad_host_line x = false)
        /\ exists d, p = Some d /\ l = filter (fun x => negb (bad_host_line x)) (marshal d)).
Proof.
  intros mok p. split; [apply to_send_keep|]. split; [apply to_send_original_only_unparsable|apply to_send_strips].
Qed.

Example C08_sent_all_local_nonvacuous :
  let loc := mkAttr 3 (Cand Host (Some [10;0;0;1])) in
  to_send false true (Some (mkSdesc [0] [mkMsec [1; 2] [loc; mkAttr 4 (Cand Host (Some [127;0;0;1]))]]))
  = Lines [mkLine 0 KSession; mkLine 1 KHead; mkLine 2 KHead]
  /\ to_send false true None = Original.
Proof. split; reflexivity. Qed.

(* When Marshal fails the code falls back to the ORIGINAL text: flag off, the original goes out exactly
   when one of the two pion calls failed - and then it goes out with its local host candidates. *)
Theorem C08_marshal_failure_sends_original : forall (mok : bool) (p : option sdesc),
  (to_send false mok p = Original <-> p = None \/ mok = false)
  /\ to_send false false p = Original.
Proof. intros mok p. split; [apply to_send_original_iff|apply to_send_marshal_failed]. Qed.

Theorem C08_marshal_failure_leaks :
  let d := mkSdesc [0] [mkMsec [1] [mkAttr 2 (Cand Host (Some [10;0;0;1]))]] in
  to_send false false (Some d) = Original
  /\ (exists l, In l (marshal d) /\ bad_host_line l = true)
  /\ to_send false true (Some d) = Lines [mkLine 0 KSession; mkLine 1 KHead].
Proof. exact marshal_failure_leaks. Qed.

(* So the first sentence of the property rests on a contract of pion/sdp: Marshal does not fail on an
   unmarshalled description with some attributes removed.  Over ANY library function [pion_marshal]
   (None = it returned an error) that writes the lines of the structure when it succeeds: if it never
   fails, then with the flag off the original text is sent only for unparsable input and every parsable
   description is sent stripped ... *)
Theorem C08_sent_stripped_under_marshal_contract : forall (pion_marshal : sdesc -> option (list line)),
  (forall d l, pion_marshal d = Some l -> l = marshal d) ->
  (forall d, pion_marshal d <> None) ->
  forall p : option sdesc,
    (to_send_lib pion_marshal false p = Original -> p = None)
    /\ (forall l, to_send_lib pion_marshal false p = Lines l ->
          (forall x, In x l -> bad_host_line x = false)
          /\ exists d, p = Some d /\ l = filter (fun x => negb (bad_host_line x)) (marshal d))
    /\ (forall d, p = Some d -> to_send_lib pion_marshal false p = Lines (filter (fun x => negb (bad_host_line x)) (marshal d))).
Proof. exact to_send_lib_contract. Qed.

(* ... without the second hypothesis the only thing that can be said is where the original goes out ... *)
Theorem C08_sent_original_only_on_library_failure : forall (pion_marshal : sdesc -> option (list line)),
  (forall d l, pion_marshal d = Some l -> l = marshal d) ->
  forall p : option sdesc,
    to_send_lib pion_marshal false p = Original ->
    p = None \/ exists d, p = Some d /\ pion_marshal (strip_sdesc d) = None.
Proof. exact to_send_lib_original. Qed.

(* ... and the hypothesis is needed: a Marshal that is right whenever it succeeds but fails once sends the
   unstripped description, local host candidate included *)
Theorem C08_marshal_contract_needed :
  exists (pion_marshal : sdesc -> option (list line)) (d : sdesc),
    (forall d l, pion_marshal d = Some l -> l = marshal d)
    /\ pion_marshal (strip_sdesc d) = None
    /\ to_send_lib pion_marshal false (Some d) = Original
    /\ exists l, In l (marshal d) /\ bad_host_line l = true.
Proof. eexists. exists leak_witness. exact marshal_contract_needed. Qed.

Example C08_marshal_contract_nonvacuous :
  (forall d l, observed_marshal true d = Some l -> l = marshal d) /\ (forall d, observed_marshal true d <> None).
Proof. split; [intros d l H; inversion H; reflexivity | intros d; discriminate]. Qed.

(* client: the channel built by newBrokerChannelFromConfig carries config.KeepLocalAddresses and nothing
   else decides: not the broker URL, the AMP cache URL or the front domain *)
Theorem C08_client_offer : forall (cfg : client_config) (urls_ok mok : bool) (p : option sdesc) (s : sent),
  client_offer_sent cfg urls_ok mok p = Some s ->
  (cc_keep cfg = true -> s = Original)
  /\ (cc_keep cfg = false ->
        (s = Original /\ (p = None \/ mok = false))
        \/ exists d, mok = true /\ p = Some d /\ s = Lines (filter (fun x => negb (bad_host_line x)) (marshal d))
                     /\ forall x, In x (filter (fun x => negb (bad_host_line x)) (marshal d)) -> bad_host_line x = false).
Proof.
  intros cfg ok mok p s H. unfold client_offer_sent, channel_keep in H. destruct ok; [|discriminate].
  injection H as <-. apply site_cases.
Qed.

Theorem C08_client_urls_irrelevant : forall (cfg cfg' : client_config) (mok : bool) (p : option sdesc),
  cc_keep cfg = cc_keep cfg' -> client_offer_sent cfg true mok p = client_offer_sent cfg' true mok p.
Proof. intros cfg cfg' mok p H. unfold client_offer_sent, channel_keep. rewrite H. reflexivity. Qed.

Example C08_client_offer_nonvacuous :
  let d := mkSdesc [0] [mkMsec [1] [mkAttr 2 (Cand Host (Some [192;168;0;2])); mkAttr 3 (Cand Srflx (Some [192;0;2;9]))]] in
  client_offer_sent (mkCC (bs "http://127.0.0.1:8080/") [] [] false) true true (Some d)
    = Some (Lines [mkLine 0 KSession; mkLine 1 KHead; mkLine 3 (KAttr (Cand Srflx (Some [192;0;2;9])))])
  /\ client_offer_sent (mkCC (bs "https://broker.example/") [] [] true) true true (Some d) = Some Original
  /\ client_offer_sent (mkCC (bs "https://broker.example/") [] [] false) true false (Some d) = Some Original.
Proof. repeat split; reflexivity. Qed.

(* proxy: sendAnswer on a SignalingServer built by newSignalingServer(url, keep) *)
Theorem C08_proxy_answer : forall (url : bytes) (url_ok keep mok : bool) (p : option sdesc) (s : sent),
  proxy_answer_sent url url_ok keep mok p = Some s ->
  (keep = true -> s = Original)
  /\ (keep = false ->
        (s = Original /\ (p = None \/ mok = false))
        \/ exists d, mok = true /\ p = Some d /\ s = Lines (filter (fun x => negb (bad_host_line x)) (marshal d))
                     /\ forall x, In x (filter (fun x => negb (bad_host_line x)) (marshal d)) -> bad_host_line x = false).
Proof.
  intros url ok keep mok p s H. unfold proxy_answer_sent, signaling_keep in H. destruct ok; [|discriminate].
  injection H as <-. apply site_cases.
Qed.

Example C08_proxy_answer_nonvacuous :
  proxy_answer_sent (bs "http://broker/") true false true (Some (mkSdesc [0] [mkMsec [1] [mkAttr 2 (Cand Host (Some [10;1;2;3]))]]))
    = Some (Lines [mkLine 0 KSession; mkLine 1 KHead])
  /\ proxy_answer_sent (bs "http://broker/") true true true None = Some Original.
Proof. split; reflexivity. Qed.
