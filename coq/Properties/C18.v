(* C18 — the bridge is told the right client address or none; the ClientID -> address memory is
   bounded.  Statements with short derivations from the lemmas of Proofs/ClientIdProofs.v,
   Proofs/ServerAcceptProofs.v and Proofs/ProxyClientIPProofs.v.
   Models: Model/ClientIdRing.v (clientIDMap of server/lib/turbotunnel.go), Model/ClientAddr.v
   (clientAddr of server/lib/http.go after net.ParseIP), Model/ServerCarrier.v (turbotunnelMode's Set,
   acceptStreams' Get, handleConn's RemoteAddr().String()), Model/ServerAccept.v (acceptSessions' loop and
   the per-session goroutines as an interleaving machine: accept, goroutine start, stream), Model/ProxyClientIP.v
   (the proxy's datachannelHandler putting client_ip on the relay URL, the handlers of one proxy interleaved). *)
From Coq Require Import List NArith Bool Arith Lia.
From Snow Require Import Lib.Wire Lib.WireFacts Model.ClientIdRing Model.ClientAddr Model.ServerCarrier Model.ServerAccept
                         Proofs.ClientIdProofs Proofs.ServerAcceptProofs.
From Snow Require Import Model.ProxyClientIP Proofs.ProxyClientIPProofs.
Import ListNotations.
Open Scope nat_scope.

(* For every capacity (0 included) and every history of Set/Get calls: Get answers with the address of
   the most recent Set for that id among the last cap Sets, and with "not present" otherwise. *)
Theorem C18_ring_refines_window : forall (A : Type) (nilA : A) (cap : nat) (ops : list (op A)) (k : N),
  get A nilA (exec A nilA (new A nilA cap) ops) k = spec_get A cap (sets_rev A ops) k.
Proof. exact ring_refines_window. Qed.

(* the same for every Get made along the way *)
Theorem C18_ring_trace_refines_window : forall (A : Type) (nilA : A) (cap : nat) (ops : list (op A)),
  outputs A nilA (new A nilA cap) ops = spec_outputs A cap [] ops.
Proof. exact ring_trace_refines_window. Qed.

(* bounded memory: always exactly cap slots, at most cap ids (each once) in the lookup map, and the
   index oldest stays inside the slots *)
Theorem C18_bounded : forall (A : Type) (nilA : A) (cap : nat) (ops : list (op A)),
  let r := exec A nilA (new A nilA cap) ops in
  length (entries r) = cap /\ length (current r) <= cap /\ NoDup (map fst (current r)) /\
  (cap <> 0 -> oldest r < cap).
Proof. exact ring_bounded. Qed.

(* every index kept in the lookup map points inside the slots (so Get and Set never index out of range;
   in the model: the defaults of nth are never what is read) *)
Theorem C18_indices_in_range : forall (A : Type) (nilA : A) (cap : nat) (ops : list (op A)) (k : N) (i : nat),
  cur_get k (current (exec A nilA (new A nilA cap) ops)) = Some i ->
  i < length (entries (exec A nilA (new A nilA cap) ops)).
Proof. exact ring_indices_in_range. Qed.

Example C18_indices_hyp_satisfiable :
  cur_get 7%N (current (exec nat 0 (new nat 0 2) [OSet 7%N 1; OSet 8%N 2; OSet 7%N 3])) = Some 0.
Proof. reflexivity. Qed.

(* capacity 0: Set is a no-op (no division by zero), nothing is ever remembered *)
Theorem C18_cap0 : forall (A : Type) (nilA : A) (ops : list (op A)) (k : N),
  exec A nilA (new A nilA 0) ops = new A nilA 0 /\ get A nilA (exec A nilA (new A nilA 0) ops) k = None.
Proof. exact ring_cap0. Qed.

(* the sanitiser: empty exactly for an absent, unparsable or unspecified (0.0.0.0 / ::) address,
   otherwise the address itself joined with the stub port 1 *)
Theorem C18_sanitise : forall p : param,
  (sanitise p = [] <-> p = Absent \/ p = Unparsable \/ exists ip, p = Parsed ip /\ (ip = v4zero \/ ip = zero16)) /\
  (forall ip, p = Parsed ip -> ip <> v4zero -> ip <> zero16 ->
     sanitise p = join_host_port (ip_string ip) stub_port /\
     exists pre, sanitise p = pre ++ [COLON; 49%N]).
Proof. exact sanitise_spec. Qed.

Example C18_sanitise_hyps_satisfiable :
  let ip := (repeat 0 10 ++ [255; 255; 1; 2; 3; 4])%N in
  ip <> v4zero /\ ip <> zero16 /\ sanitise (Parsed ip) = [49; 46; 50; 46; 51; 46; 52; 58; 49]%N.   (* "1.2.3.4:1" *)
Proof. repeat split; try discriminate. Qed.

(* For every capacity and every interleaving pre of carriers and session starts: a session for cid
   established after pre is given the sanitised client_ip of the most recent carrier that presented
   cid among the last cap carriers, and the empty address if there is none. *)
Theorem C18_attribution : forall (cap : nat) (pre : list event) (cid : N),
  accept (state_after cap pre) cid = spec_attr cap (carriers_rev pre) cid.
Proof. exact attribution_spec. Qed.

(* ... and that value is what the listener hands out for the corresponding Accept event *)
Theorem C18_run_nth : forall (cap : nat) (pre : list event) (cid : N) (post : list event) (dflt : addr),
  nth (length (run cap pre)) (run cap (pre ++ Accept cid :: post)) dflt = accept (state_after cap pre) cid.
Proof.
  intros cap pre cid post dflt. unfold run. rewrite attributions_app.
  rewrite app_nth2 by lia. rewrite Nat.sub_diag. reflexivity.
Qed.

Theorem C18_run_is_spec : forall (cap : nat) (evs : list event), run cap evs = spec_attributions cap [] evs.
Proof.
  intros cap evs. unfold run. apply attributions_spec_gen. apply rel_new.
Qed.

(* ---- carrier END events.  A history may say at any point that the k-th carrier has ended (HEnd k): before or after
   a session of its ClientID is established, with other carriers of the same ClientID (same or different client_ip)
   still open or not.  On this tree a carrier's end does not touch the map, so: every connection the listener hands
   out carries the address it would carry in the history without the end events (and with them everything above:
   C18_attribution, C18_conns_carry_session_address, C18_never_foreign apply to strip_ends hevs) ... *)
Theorem C18_carrier_end_changes_nothing : forall (cap : nat) (hevs : list hevent),
  run_conns_h cap hevs = run_conns cap (strip_ends hevs).
Proof. exact run_conns_h_strip. Qed.

(* ... the session established after a history with end events gets the address of the most recent carrier that
   presented its ClientID among the last cap carriers STARTED, whichever of them have ended meanwhile ... *)
Theorem C18_attribution_with_ends : forall (cap : nat) (pre : list hevent) (cid : N),
  accept (hstate_after cap pre) cid = spec_attr cap (carriers_rev (strip_ends pre)) cid.
Proof. intros. rewrite hstate_after_strip. apply attribution_spec. Qed.

(* ... and two histories that differ only in where (and whether) carriers end give the same addresses *)
Theorem C18_ends_anywhere : forall (cap : nat) (h1 h2 : list hevent),
  strip_ends h1 = strip_ends h2 -> run_conns_h cap h1 = run_conns_h cap h2.
Proof.
  intros cap h1 h2 H. rewrite !run_conns_h_strip, H. reflexivity.
Qed.

Example C18_ends_anywhere_hyp_satisfiable :
  let c := Carrier 7 (Parsed [0;0;0;0;0;0;0;0;0;0;255;255;4;4;4;4]%N) in
  strip_ends [HEv c; HEv c; HEnd 0; HEv (Accept 7)] = strip_ends [HEv c; HEv c; HEv (Accept 7); HEnd 0; HEnd 1].
Proof. reflexivity. Qed.

(* the statement tells the code from the variant in which an ending carrier clears its ClientID's entry when the entry
   still EQUALS the address it presented (a comparison of addresses, not of carriers): two carriers of one client
   (same ClientID, same client_ip), the older one ends, then the session is established -> "no address" *)
Theorem C18_end_clearing_by_address_refuted : exists (cap : nat) (hevs : list hevent),
  conns_h_clear (new addr ANil cap) [] [] hevs <> run_conns cap (strip_ends hevs) /\
  run_conns_h cap hevs = run_conns cap (strip_ends hevs).
Proof.
  exists 4, [HEv (Carrier 7 (Parsed [0;0;0;0;0;0;0;0;0;0;255;255;4;4;4;4]%N));
             HEv (Carrier 7 (Parsed [0;0;0;0;0;0;0;0;0;0;255;255;4;4;4;4]%N)); HEnd 0; HEv (Accept 7)].
  split; [vm_compute; discriminate | apply run_conns_h_strip].
Qed.

(* ALL connections of one session: run_conns lists every connection the listener hands out as
   (index of its session, RemoteAddr()) - one for each session start and one for each further stream
   a session opens later.  Whatever happens after the session was established (post: carriers of the
   same or other ClientIDs with any client_ip, evictions from the bounded map, other sessions, streams),
   every connection of that session carries the address looked up at establishment, which is the
   sanitised client_ip of the most recent carrier with this ClientID among the last cap carriers
   BEFORE the establishment (or empty). *)
Theorem C18_session_address_fixed : forall (cap : nat) (pre : list event) (cid : N) (post : list event) (a : addr),
  In (length (run cap pre), a) (run_conns cap (pre ++ Accept cid :: post)) ->
  a = accept (state_after cap pre) cid /\ a = spec_attr cap (carriers_rev pre) cid.
Proof.
  intros cap pre cid post a H. apply conns_session_fixed in H.
  unfold run in H. rewrite attributions_app in H.
  rewrite nth_error_app2 in H by lia. rewrite Nat.sub_diag in H. cbn [nth_error] in H.
  inversion H. split; [reflexivity | apply attribution_spec].
Qed.

(* the same without naming the establishment: connections of session k all carry the k-th looked-up address *)
Theorem C18_conns_carry_session_address : forall (cap : nat) (evs : list event) (k : nat) (a : addr),
  In (k, a) (run_conns cap evs) -> nth_error (run cap evs) k = Some a.
Proof. exact conns_session_fixed. Qed.

(* not vacuous: the session start and every later stream of an established session do yield a connection *)
Theorem C18_conns_exist : forall (cap : nat) (pre : list event) (cid : N) (post : list event),
  In (length (run cap pre), accept (state_after cap pre) cid) (run_conns cap (pre ++ Accept cid :: post)) /\
  forall k, k < length (run cap pre) ->
    exists a, nth_error (run cap pre) k = Some a /\ In (k, a) (run_conns cap (pre ++ Stream k :: post)).
Proof.
  intros cap pre cid post. unfold run_conns. split.
  - rewrite conns_app. apply in_or_app. right. cbn [conns app]. left. reflexivity.
  - intros k Hk. destruct (nth_error (run cap pre) k) as [a |] eqn:E; [| apply nth_error_None in E; lia].
    exists a. split; [reflexivity |]. rewrite conns_app. apply in_or_app. right.
    cbn [conns app]. unfold run in E. rewrite E. left. reflexivity.
Qed.

(* a session with four connections; between them a carrier of the same ClientID with another address,
   one without address, and (capacity 1) a carrier of another ClientID that evicts it: all four
   connections report 1.2.3.4:1.  The variant that looks the ClientID up per stream reports 1.2.3.4:1,
   5.6.7.8:1, then no address. *)
Example C18_session_address_fixed_witness :
  let a := Parsed (repeat 0 10 ++ [255; 255; 1; 2; 3; 4])%N in
  let b := Parsed (repeat 0 10 ++ [255; 255; 5; 6; 7; 8])%N in
  let s1 := AStr ([49; 46; 50; 46; 51; 46; 52; 58; 49]%N) in
  let s2 := AStr ([53; 46; 54; 46; 55; 46; 56; 58; 49]%N) in
  let evs := [Carrier 1%N a; Accept 1%N; Carrier 1%N b; Stream 0; Carrier 2%N a; Stream 0; Carrier 1%N Absent; Stream 0] in
  run_conns 1 evs = [(0, s1); (0, s1); (0, s1); (0, s1)] /\
  conns_perstream accept (new addr ANil 1) [] evs = [(0, s1); (0, s2); (0, AStr []); (0, AStr [])].
Proof. split; reflexivity. Qed.

(* never another session's address: it is empty, or what a carrier with the SAME ClientID presented *)
Theorem C18_never_foreign : forall (cap : nat) (pre : list event) (cid : N),
  accept (state_after cap pre) cid = AStr [] \/
  exists p, In (Carrier cid p) pre /\ accept (state_after cap pre) cid = AStr (sanitise p).
Proof. exact never_foreign. Qed.

(* handleConn's RemoteAddr().String() is always defined (repaired acceptStreams) *)
Theorem C18_useraddr_defined : forall (cap : nat) (pre : list event) (cid : N),
  exists s, useraddr (accept (state_after cap pre) cid) = Some s.
Proof.
  intros cap pre cid. rewrite attribution_spec. unfold spec_attr.
  destruct (assoc param cid (firstn cap (carriers_rev pre))); eexists; reflexivity.
Qed.

(* The pinned acceptStreams (v0): for EVERY capacity there is a history in which a ClientID that a
   carrier did present is given a nil net.Addr, on which handleConn calls String(). *)
Theorem C18_v0_forgotten_nil_refuted : forall cap : nat, exists (pre : list event) (cid : N) (p : param),
  In (Carrier cid p) pre /\ useraddr (accept_v0 (state_after cap pre) cid) = None.
Proof.
  intro cap. exists (flood cap), 1%N, (Parsed (repeat 0%N 10 ++ [255; 255; 1; 2; 3; 4]%N)).
  apply v0_forgotten_nil_flood.
Qed.

Example C18_witness_cap1 :
  let a := Parsed (repeat 0 10 ++ [255; 255; 1; 2; 3; 4])%N in
  let b := Parsed (repeat 0 10 ++ [255; 255; 5; 6; 7; 8])%N in
  let evs := [Carrier 1%N a; Carrier 2%N b; Accept 2%N; Accept 1%N] in
  run_v0 1 evs = [AStr ([53; 46; 54; 46; 55; 46; 56; 58; 49]%N); ANil] /\ run 1 evs = [AStr ([53; 46; 54; 46; 55; 46; 56; 58; 49]%N); AStr []].
Proof. split; reflexivity. Qed.

(* ================================================================ the accept loop under every schedule
   Model/ServerAccept.v: acceptSessions accepts sessions (LAccept cid; session index = number of earlier
   accepts) and spawns a goroutine per session, which is scheduled at some later moment (LStart i) - after
   any number of further accepts, carriers (LCarrier) and steps of other sessions, in any order among
   the goroutines - and from then on hands out the session's streams (LStream i).  sched_conns lists every
   connection handed out as (session index, RemoteAddr()).  Shapes: InGoroutine = the code (acceptStreams
   looks up the ClientID of its own conn), AtAcceptOwn = lookup in the loop handed over by value,
   AtAcceptShared = lookup in the loop into a variable shared by all iterations (not the code). *)

(* the code, ALL schedules: a connection of session i carries the address looked up for the ClientID of
   session i (the i-th accepted) in the map as it was when the goroutine of session i started, i.e. the
   sanitised client_ip of the most recent carrier with that ClientID among the last cap carriers then *)
Theorem C18_schedule_attribution : forall (cap : nat) (evs : list alabel) (i : nat) (a : addr),
  In (i, a) (sched_conns InGoroutine cap evs) ->
  exists pre post cid, evs = pre ++ LStart i :: post /\ nth_error (accepted pre) i = Some cid /\
    nth_error (accepted evs) i = Some cid /\
    a = accept (state_after cap (carriers_of pre)) cid /\
    a = spec_attr cap (carriers_rev (carriers_of pre)) cid.
Proof. exact sched_attribution. Qed.

(* never another session's address, for all schedules: it is empty, or what a carrier presented under the
   ClientID of THIS session *)
Theorem C18_schedule_never_foreign : forall (cap : nat) (evs : list alabel) (i : nat) (a : addr),
  In (i, a) (sched_conns InGoroutine cap evs) ->
  exists cid, nth_error (accepted evs) i = Some cid /\
    (a = AStr [] \/ exists p, In (LCarrier cid p) evs /\ a = AStr (sanitise p)).
Proof.
  intros cap evs i a H. destruct (sched_attribution cap evs i a H) as (pre & post & cid & E & _ & N & A & _).
  exists cid. split; [exact N |]. rewrite E, A. apply lookup_never_foreign.
Qed.

(* all connections of one session carry one address, whatever the schedule (every shape) *)
Theorem C18_schedule_address_fixed : forall (sh : shape) (cap : nat) (evs : list alabel) (i : nat) (a b : addr),
  In (i, a) (sched_conns sh cap evs) -> In (i, b) (sched_conns sh cap evs) -> a = b.
Proof.
  intros sh cap evs i a b Ha Hb. unfold sched_conns in *.
  destruct (aconns_final _ _ _ _ _ Ha) as (s & N & L).
  destruct (aconns_final _ _ _ _ _ Hb) as (s' & N' & L').
  rewrite N in N'. inversion N'; subst s'. rewrite L in L'. inversion L'. reflexivity.
Qed.

(* the lookup moved into the accept loop and handed to the goroutine by value: the address is the one of
   the session's ClientID at its accept, whenever its goroutine starts *)
Theorem C18_schedule_attribution_by_value : forall (cap : nat) (evs : list alabel) (i : nat) (a : addr),
  In (i, a) (sched_conns AtAcceptOwn cap evs) ->
  exists pre post cid, evs = pre ++ LAccept cid :: post /\ length (accepted pre) = i /\
    a = accept (state_after cap (carriers_of pre)) cid /\
    a = spec_attr cap (carriers_rev (carriers_of pre)) cid.
Proof. exact sched_attribution_own. Qed.

Theorem C18_schedule_never_foreign_by_value : forall (cap : nat) (evs : list alabel) (i : nat) (a : addr),
  In (i, a) (sched_conns AtAcceptOwn cap evs) ->
  exists cid, nth_error (accepted evs) i = Some cid /\
    (a = AStr [] \/ exists p, In (LCarrier cid p) evs /\ a = AStr (sanitise p)).
Proof.
  intros cap evs i a H. destruct (sched_attribution_own cap evs i a H) as (pre & post & cid & E & Len & A & _).
  exists cid. split.
  - rewrite E, accepted_app. cbn [accepted]. rewrite nth_error_app2 by lia. rewrite Len, Nat.sub_diag. reflexivity.
  - rewrite E, A. apply lookup_never_foreign.
Qed.

(* bursts: if no carrier starts during `burst` (any number of sessions accepted back to back, their
   goroutines started in any order, streams in any order), every connection of a session accepted in
   `burst` carries the address its own ClientID had in the map before the burst *)
Theorem C18_burst_order_irrelevant : forall (cap : nat) (pre burst : list alabel) (i : nat) (a : addr),
  forallb no_carrier burst = true -> length (accepted pre) <= i ->
  In (i, a) (sched_conns InGoroutine cap (pre ++ burst)) ->
  exists cid, nth_error (accepted (pre ++ burst)) i = Some cid /\
    a = accept (state_after cap (carriers_of pre)) cid /\
    a = spec_attr cap (carriers_rev (carriers_of pre)) cid.
Proof. exact sched_burst_order_irrelevant. Qed.

(* the histories of Model/ServerCarrier.v (C18_session_address_fixed etc.) are the schedules in which every
   goroutine starts and hands out its first connection right after its accept *)
Theorem C18_sequential_histories_are_schedules : forall (cap : nat) (evs : list event),
  run_conns cap evs = sched_conns InGoroutine cap (expand 0 evs).
Proof.
  intros cap evs. unfold run_conns, sched_conns, ainit. apply (expand_refines evs _ ANil [] []). reflexivity.
Qed.

(* what the `clientid burst` cases print (brun) are addresses of connections of the machine run on the
   schedule the case stands for *)
Theorem C18_burst_runner_sound : forall (sh : shape) (toks : list btok) (st : astate) (n : nat) (a : addr),
  In a (brun sh st n toks) -> exists i, In (i, a) (aconns sh st (btoks_labels n toks)).
Proof. exact brun_sound. Qed.

(* hypotheses satisfiable, and the theorems tell the shapes apart: clients 1 (1.2.3.4) and 2 (5.6.7.8)
   are accepted back to back and the goroutine of session 0 starts after the second accept.  The code
   and the by-value variant give each session its own address; the shared-variable shape gives session
   0 the address of client 2. *)
Example C18_schedule_witness :
  forallb no_carrier (skipn 2 shared_witness) = true /\
  sched_conns InGoroutine 2 shared_witness = [(0, AStr (sanitise (ip4 1 2 3 4))); (1, AStr (sanitise (ip4 5 6 7 8)))] /\
  sched_conns AtAcceptOwn 2 shared_witness = [(0, AStr (sanitise (ip4 1 2 3 4))); (1, AStr (sanitise (ip4 5 6 7 8)))] /\
  sched_conns AtAcceptShared 2 shared_witness = [(0, AStr (sanitise (ip4 5 6 7 8))); (1, AStr (sanitise (ip4 5 6 7 8)))].
Proof.
  split; [reflexivity |]. split; [| split]; vm_compute; reflexivity.
Qed.

(* a burst of three sessions (one without client_ip) whose goroutines start in reverse order, one of them
   with three streams: as printed by the case runner *)
Example C18_burst_witness :
  let c1 := Carrier 1%N (ip4 1 2 3 4) in let c2 := Carrier 2%N Absent in let c3 := Carrier 3%N (ip4 5 6 7 8) in
  let toks := [BEv c1; BEv c2; BEv c3; BBurst [(1%N, 1, 2); (2%N, 3, 1); (3%N, 1, 0)]] in
  brun InGoroutine (ainit 3) 0 toks =
    [AStr (sanitise (ip4 1 2 3 4)); AStr []; AStr []; AStr []; AStr (sanitise (ip4 5 6 7 8))] /\
  brun AtAcceptShared (ainit 3) 0 toks =
    [AStr (sanitise (ip4 5 6 7 8)); AStr (sanitise (ip4 5 6 7 8)); AStr (sanitise (ip4 5 6 7 8));
     AStr (sanitise (ip4 5 6 7 8)); AStr (sanitise (ip4 5 6 7 8))].
Proof. split; vm_compute; reflexivity. Qed.

(* NOT the code - the shape the theorems above exclude: with the looked-up address in a variable shared
   by the iterations of the accept loop there is a schedule in which a connection of one client carries
   an address that no carrier presented under its ClientID and that a carrier of ANOTHER ClientID did *)
Theorem C18_shared_variable_refuted :
  exists (cap : nat) (evs : list alabel) (i : nat) (a : addr) (cid : N),
    In (i, a) (sched_conns AtAcceptShared cap evs) /\ nth_error (accepted evs) i = Some cid /\
    a <> AStr [] /\ (forall p, In (LCarrier cid p) evs -> a <> AStr (sanitise p)) /\
    (exists cid' p', cid' <> cid /\ In (LCarrier cid' p') evs /\ a = AStr (sanitise p')).
Proof. exact shared_variable_refuted. Qed.

(* ================================================================ the proxy side of the chain: the client_ip on the relay URL
   Model/ProxyClientIP.v: ONE proxy, any number of clients; each client's handler (proxy/lib/snowflake.go
   datachannelHandler) takes the relay URL the broker assigned - or the proxy's default when it assigned none -, sets
   client_ip to the remote address found for THAT client when there is one, and dials.  The handlers run concurrently:
   [prun dflt tr] for EVERY schedule tr of their steps (spawn, parse, set the query, dial), any sessions, with and
   without a known remote address, with and without an assigned relay URL. *)

(* the URL a session is dialled with is a function of the proxy's default relay and of that session ALONE
   ([relay_url_of]), under every schedule and whatever other sessions exist, ran before or run at the same time; and a
   session is dialled at most once *)
Theorem C18_proxy_dial_is_of_its_session : forall (dflt : rurl) (tr : list plabel) (i : nat) (u : rurl),
  In (i, u) (p_dials (prun dflt tr)) ->
  exists s, nth_error (p_handlers (prun dflt tr)) i = Some (s, H_Dialed) /\ u = relay_url_of dflt s.
Proof. exact dial_is_of_its_session. Qed.

Theorem C18_proxy_one_dial_per_session : forall (dflt : rurl) (tr : list plabel), NoDup (map fst (p_dials (prun dflt tr))).
Proof.
  intros dflt tr. apply (pi_once _ _ (prun_inv dflt tr)).
Qed.

(* the handlers are the spawned sessions, in spawn order, whatever the schedule *)
Theorem C18_proxy_handlers_are_spawned : forall (dflt : rurl) (tr : list plabel),
  map fst (p_handlers (prun dflt tr)) = spawned tr.
Proof.
  intros dflt tr. unfold prun.
  assert (G : forall st, map fst (p_handlers (fold_left pstep tr st)) = map fst (p_handlers st) ++ spawned tr).
  { induction tr as [|l tr IH]; intros st; cbn [fold_left spawned]; [rewrite app_nil_r; reflexivity|].
    rewrite IH, pstep_sessions. rewrite <- app_assoc. destruct l; reflexivity. }
  rewrite G. reflexivity.
Qed.

(* the client_ip on a session's dial is that session's remote address; when the proxy knows none, the dial carries
   whatever client_ip the relay URL had by itself (none, for every relay URL in use: the default and the bridge list's
   carry no query) - never the address of another session.  The relay (base) is the session's own, too. *)
Theorem C18_proxy_client_ip_own : forall (dflt : rurl) (tr : list plabel) (i : nat) (u : rurl),
  In (i, u) (p_dials (prun dflt tr)) ->
  exists s pc, nth_error (p_handlers (prun dflt tr)) i = Some (s, pc) /\ ru_base u = ru_base (base_of dflt s) /\
    q_values CLIENT_IP (ru_query u) =
      match s_addr s with Some a => [a] | None => q_values CLIENT_IP (ru_query (base_of dflt s)) end.
Proof.
  intros dflt tr i u Hin. destruct (dial_is_of_its_session dflt tr i u Hin) as [s [Hs ->]].
  exists s, H_Dialed. split; [exact Hs|]. split; [|apply client_ip_of_session].
  unfold relay_url_of. destruct (s_addr s); reflexivity.
Qed.

(* every other parameter of the relay URL goes through unchanged *)
Theorem C18_proxy_other_params_kept : forall (dflt : rurl) (s : session) (k : bytes), beq k CLIENT_IP = false ->
  q_values k (ru_query (relay_url_of dflt s)) = q_values k (ru_query (base_of dflt s)).
Proof.
  intros dflt s k Hk. unfold relay_url_of. destruct (s_addr s) as [a|]; [|reflexivity].
  cbn [set_client_ip ru_query]. apply q_values_set_other.
  intros e He. destruct (beq (fst e) CLIENT_IP) eqn:E; [|reflexivity].
  (* fst e = k and fst e = client_ip would make k = client_ip *)
  exfalso. apply beq_eq in He. apply beq_eq in E. rewrite <- He, E, beq_refl in Hk. discriminate.
Qed.

(* non-vacuity: three clients of one proxy whose handlers run all together (the query steps in reverse order): a client
   with a known address on the default relay, one WITHOUT on the default relay, one with a known address on a relay the
   broker assigned.  Each dial carries its own session's address or none. *)
Example C18_proxy_witness :
  let dflt := mk_rurl [100]%N [] in
  let a1 := [49; 46; 50; 46; 51; 46; 52]%N in let a3 := [53; 46; 54; 46; 55; 46; 56]%N in
  let ss := [mk_session None (Some a1); mk_session None None; mk_session (Some (mk_rurl [117; 49]%N [([120]%N, [49]%N)])) (Some a3)] in
  p_dials (prun dflt (conc_labels ss)) =
    [(0, mk_rurl [100]%N [(CLIENT_IP, a1)]); (1, mk_rurl [100]%N []); (2, mk_rurl [117; 49]%N [([120]%N, [49]%N); (CLIENT_IP, a3)])] /\
  In (1, mk_rurl [100]%N []) (p_dials (prun dflt (conc_labels ss))) /\
  q_values CLIENT_IP (ru_query (mk_rurl [100]%N [])) = [].
Proof. vm_compute. repeat split. right. left. reflexivity. Qed.
