(* C17 — Turbotunnel packet adapters: no surfaced errors, leaks or aliasing.
   Statements with short derivations from the lemmas of
   Proofs/{GoHeap,ClientMap,QueueConn,QueueOut,QueueRetention,SweeperLock,Redial,RedialOverlap,RedialCapacity}Proofs.v.
   Models: Model/GoHeap.v (container/heap), Model/ClientMap.v (clientMapInner, explicit clock),
   Model/QueueConn.v (QueuePacketConn), Model/Redial.v (RedialPacketConn; error channel capacity
   0 = the pinned code, 1 = the repaired code).

   OBSERVED, NOT PROVED: "without aliasing the caller's buffers".  Payloads are values in
   Model/QueueConn.v, so no theorem below can speak about who owns a slice.  The clause is checked on
   the Go code only: the drivers (harness/overlay/zz_verif/turbotunnel/{main,redial,sweep}.go)
   overwrite every buffer they passed to QueueIncoming / WriteTo as soon as the call returns, and
   once more at the end of the case, overwrite every slice they received from an outgoing queue and
   every buffer ReadFrom filled, and then compare what the connection hands out with these value
   models (lib/checks/c17.py: keys queueconn-fifo, sweep-lost, "!aliased-*" answers of the redial
   driver). *)
From Coq Require Import List NArith ZArith Bool Arith Lia Permutation.
From Snow Require Import Model.GoHeap Model.ClientMap Model.QueueConn Model.Redial Model.RedialQueue.
From Snow Require Import Proofs.GoHeapProofs Proofs.ClientMapProofs Proofs.QueueConnProofs Proofs.QueueOutProofs Proofs.QueueRetentionProofs Proofs.RedialProofs Proofs.RedialOverlapProofs Proofs.RedialCapacityProofs Proofs.SweeperLockProofs.
Import ListNotations.

(* ================================================================ container/heap (GoHeap.v) *)
Section Heap.
  Variable A : Type.
  Variable lessA : A -> A -> bool.
  Hypothesis less_irrefl : forall a, lessA a a = false.
  Hypothesis less_trans : forall a b c, lessA a b = true -> lessA b c = true -> lessA a c = true.
  Hypothesis less_negtrans : forall a b c, lessA a b = false -> lessA b c = false -> lessA a c = false.

  Theorem C17_goheap_push : forall l x,
    heap_ok A lessA l -> heap_ok A lessA (lpush lessA x l) /\ Permutation (lpush lessA x l) (x :: l).
  Proof. intros. split; [apply lpush_heap_ok; auto | apply lpush_perm]. Qed.

  Theorem C17_goheap_pop_min : forall l m, heap_ok A lessA l -> nth_error l 0 = Some m ->
    exists l', lpop lessA l = (l', Some m) /\ heap_ok A lessA l' /\ Permutation l (m :: l') /\
               (forall y, In y l -> lessA y m = false).
  Proof. exact (lpop_spec A lessA less_irrefl less_trans less_negtrans). Qed.

  Theorem C17_goheap_remove : forall l i x, heap_ok A lessA l -> nth_error l i = Some x ->
    exists l', lremove lessA l i = (l', Some x) /\ heap_ok A lessA l' /\ Permutation l (x :: l').
  Proof. exact (lremove_spec A lessA less_irrefl less_trans less_negtrans). Qed.

  Theorem C17_goheap_fix : forall l i x, heap_ok A lessA l -> i < length l ->
    heap_ok A lessA (lfix lessA (set_nth i x l) i) /\ Permutation (lfix lessA (set_nth i x l) i) (set_nth i x l).
  Proof. exact (lfix_spec A lessA less_irrefl less_trans less_negtrans). Qed.

  Theorem C17_goheap_init : forall l, heap_ok A lessA (linit lessA l) /\ Permutation (linit lessA l) l.
  Proof. exact (linit_spec A lessA less_irrefl less_trans less_negtrans). Qed.
End Heap.

Example C17_goheap_hyps_satisfiable :
  heap_ok Z Z.ltb [1; 3; 2]%Z /\ nth_error [1; 3; 2]%Z 0 = Some 1%Z /\ lpop Z.ltb [1; 3; 2]%Z = ([2; 3]%Z, Some 1%Z).
Proof.
  split; [|split; reflexivity].
  assert (I: forall a, Z.ltb a a = false) by (intros; apply Z.ltb_irrefl).
  assert (T: forall a b c, Z.ltb a b = true -> Z.ltb b c = true -> Z.ltb a c = true)
    by (intros a b c H1 H2; apply Z.ltb_lt in H1, H2; apply Z.ltb_lt; lia).
  assert (N: forall a b c, Z.ltb a b = false -> Z.ltb b c = false -> Z.ltb a c = false)
    by (intros a b c H1 H2; apply Z.ltb_ge in H1, H2; apply Z.ltb_ge; lia).
  assert (E: heap_ok Z Z.ltb []) by (intros p c a b _ H; destruct p; discriminate).
  change [1; 3; 2]%Z with (lpush Z.ltb 2%Z (lpush Z.ltb 3%Z (lpush Z.ltb 1%Z []))).
  repeat apply (lpush_heap_ok Z Z.ltb I T N). exact E.
Qed.

(* ================================================================ client map (ClientMap.v) *)

(* byAddr a = i <-> byAge[i].addr = a, after every sequence of SendQueue / removeExpired calls
   with arbitrary (also non-monotonic) clock readings *)
Theorem C17_heap_index_consistent : forall ops a i,
  let s := cm_run ops cm_empty in
  amap_get a (byAddr s) = Some i <-> exists r, nth_error (byAge s) i = Some r /\ c_addr r = a.
Proof.
  intros ops a i s. rewrite (cm_inv_idx s (cm_run_inv ops cm_empty cm_inv_empty) a i). unfold addr_at.
  destruct (nth_error (byAge s) i) as [r|]; simpl; split.
  - intro H. inversion H. eauto.
  - intros (r' & H1 & H2). inversion H1. congruence.
  - discriminate.
  - intros (r' & H1 & _). discriminate.
Qed.

(* the two panics of clientmap.go are unreachable (between operations len(byAddr) = len(byAge), the condition
   whose failure is the "inconsistent clientMap" panic of Len, and no address occurs twice), and byAge is a heap
   by LastSeen *)
Theorem C17_clientmap_consistent : forall ops,
  let s := cm_run ops cm_empty in
  length (byAddr s) = length (byAge s) /\ NoDup (map c_addr (byAge s)) /\ heap_ok crec rec_less (byAge s).
Proof.
  intros ops s. pose proof (cm_run_inv ops cm_empty cm_inv_empty) as Hinv. fold s in Hinv.
  split; [apply Hinv|]. split; [apply cm_inv_nodup_addr, Hinv | apply cm_inv_hok, Hinv].
Qed.

(* a client seen within the timeout keeps its record: same queue (identity), same contents *)
Theorem C17_kept_while_seen : forall ops now timeout r,
  let s := cm_run ops cm_empty in
  In r (byAge s) -> (now - c_seen r < timeout)%Z -> In r (byAge (remove_expired now timeout s)).
Proof. intros ops now timeout r. apply expire_kept, cm_run_inv, cm_inv_empty. Qed.

(* a record disappears, or a queue is closed, only when now - last_seen >= timeout (the code's comparison) *)
Theorem C17_not_early : forall ops now timeout,
  let s := cm_run ops cm_empty in
  let s' := remove_expired now timeout s in
  (forall r, In r (byAge s) -> ~ In r (byAge s') -> (now - c_seen r >= timeout)%Z) /\
  (forall e, In e (dead s') -> ~ In e (dead s) ->
      exists r, In r (byAge s) /\ e = (c_qid r, c_q r) /\ (now - c_seen r >= timeout)%Z) /\
  (forall r, In r (byAge s') -> In r (byAge s)).
Proof.
  intros ops now timeout. apply expire_not_early, cm_run_inv, cm_inv_empty.
Qed.

(* the next sweep after the full timeout discards the client and closes its queue *)
Theorem C17_removed_by_next_sweep : forall ops now timeout r,
  let s := cm_run ops cm_empty in
  let s' := remove_expired now timeout s in
  In r (byAge s) -> (now - c_seen r >= timeout)%Z ->
  (forall r', In r' (byAge s') -> c_addr r' <> c_addr r) /\ In (c_qid r, c_q r) (dead s').
Proof.
  intros ops now timeout r. apply expire_removed, cm_run_inv, cm_inv_empty.
Qed.

(* sweeps every `period` (= timeout/2 in NewClientMap): some sweep falls in [timeout, timeout + period)
   after the client was last seen, i.e. removal within 1.5 timeouts nominally.  (Arithmetic only; the
   statement over the model of the sweeper goroutine is C17_ticker_idle_client_removal_window below.) *)
Theorem C17_sweep_within_timeout_plus_period : forall t0 period timeout last_seen : Z,
  (0 < period)%Z -> exists k : Z, (timeout <= t0 + k * period - last_seen < timeout + period)%Z.
Proof.
  intros t0 period timeout ls Hp.
  exists ((ls + timeout - t0 + period - 1) / period)%Z.
  pose proof (next_multiple period (ls + timeout - t0) Hp). lia.
Qed.

Example C17_clientmap_hyps_satisfiable :
  let s := cm_run [CSend 1 0%Z; CSend 2 3%Z; CSend 1 5%Z] cm_empty in
  exists r, In r (byAge s) /\ c_addr r = 2%N /\ (12 - c_seen r < 10)%Z /\
  exists r1, In r1 (byAge s) /\ c_addr r1 = 1%N /\ (15 - c_seen r1 >= 10)%Z /\
  ~ In r (byAge (remove_expired 13 10 s)).
Proof.
  vm_compute. exists (mkrec 2 3 1 []). split; [auto|]. split; [auto|]. split; [reflexivity|].
  exists (mkrec 1 5 0 []). split; [auto|]. split; [auto|]. split; [discriminate|].
  intro H; simpl in H; intuition discriminate.
Qed.

(* ================================================================ queue connection (QueueConn.v) *)

(* incoming side: what ReadFrom returns is, in order, what QueueIncoming accepted (so also first-in
   first-out per client address); nothing accepted is lost or duplicated; payloads are the values
   that were passed in (truncated to the reader's buffer) *)
Theorem C17_queue_fifo_incoming : forall cap timeout ops,
  let '(s', outs) := qrun cap timeout ops qc_empty in
  exists delivered,
    accepted ops outs = delivered ++ recvq s' /\ Forall2 delivered_as delivered (reads ops outs).
Proof.
  intros cap timeout ops. pose proof (recv_fifo cap timeout ops qc_empty) as H.
  destruct (qrun cap timeout ops qc_empty) as [s' outs]. exact H.
Qed.

(* outgoing side: what OutgoingQueue(a) hands out is a prefix, in order, of what WriteTo(_, a)
   accepted; the rest is still queued (histories without sweeps and held receives; the statement for
   ARBITRARY histories is C17_queue_fifo_per_addr_any_history below) *)
Theorem C17_queue_fifo_per_addr : forall cap timeout ops a,
  forallb no_expiry ops = true ->
  let '(s', outs) := qrun cap timeout ops qc_empty in
  written a ops outs = received a ops outs ++ out_q (clients s') a.
Proof.
  intros cap timeout ops a Hne.
  pose proof (outgoing_fifo_per_addr cap timeout ops a qc_empty cm_inv_empty Hne) as H.
  destruct (qrun cap timeout ops qc_empty) as [s' outs]. destruct H as [_ H]. exact H.
Qed.

(* no operation waits: QueueIncoming / WriteTo enqueue at the tail, or drop when the queue is full
   (state otherwise unchanged); both queues stay within queueSize *)
Theorem C17_never_blocks : forall cap timeout ops,
  let s := fst (qrun cap timeout ops qc_empty) in
  length (recvq s) <= cap /\ (forall a, length (out_q (clients s) a) <= cap) /\
  (forall p a, qstep cap timeout s (QIncoming p a) =
      if negb (qclosed s) && (length (recvq s) <? cap)
      then (mkqc (recvq s ++ [(p, a)]) (clients s) (qclosed s), OIncoming true)
      else (s, OIncoming false)) /\
  (forall p a now, qclosed s = false ->
      let '(s', o) := qstep cap timeout s (QWrite p a now) in
      recvq s' = recvq s /\
      out_q (clients s') a = (if length (out_q (clients s) a) <? cap then out_q (clients s) a ++ [p] else out_q (clients s) a) /\
      (exists k, o = OWrote (length p) k (length (out_q (clients s) a) <? cap)) /\
      (forall b, b <> a -> out_q (clients s') b = out_q (clients s) b)).
Proof.
  intros cap timeout ops s.
  assert (Hinv: cm_inv (clients s)) by (apply qrun_inv; exact cm_inv_empty).
  split; [|split; [|split]].
  - apply qrun_bound. simpl. lia.
  - intro a. apply outgoing_bounded; [exact cm_inv_empty | simpl; lia].
  - intros. apply qincoming_spec.
  - intros p a now Hc. pose proof (qwrite_out cap timeout s p a now Hinv Hc) as H.
    destruct (qstep cap timeout s (QWrite p a now)) as [s' o]. tauto.
Qed.

(* after Close every ReadFrom / WriteTo / Close fails and QueueIncoming drops, whatever is queued *)
Theorem C17_after_close_fail : forall cap timeout pre post,
  let '(s1, _) := qrun cap timeout (pre ++ [QClose]) qc_empty in
  let '(s2, rs) := qrun cap timeout post s1 in
  Forall2 fails_closed post rs /\ recvq s2 = recvq s1.
Proof. intros. apply after_close_fail. Qed.

Example C17_queue_hyps_satisfiable :
  snd (qrun 2 10%Z [QIncoming [1%N] 7%N; QIncoming [2%N] 8%N; QIncoming [3%N] 9%N; QRead 4; QWrite [5%N] 7%N 0%Z;
                    QOutRecv 7%N 1%Z; QClose; QRead 4; QWrite [6%N] 7%N 2%Z] qc_empty)
  = [OIncoming true; OIncoming true; OIncoming false; ORead [1%N] 7%N; OWrote 1 0 true;
     ORecv 0 (RcvPkt [5%N]); OCloseOk; OErrClosed; OErrClosed].
Proof. vm_compute. reflexivity. Qed.

(* ================================================================ outgoing queues, arbitrary histories
   (Proofs/QueueRetentionProofs.v).  A history is ANY list of operations: WriteTo (enqueue),
   OutgoingQueue + receive (dequeue), a receive on a channel obtained earlier (QHeldRecv), sweeps of
   the client map at arbitrary instants, QueueIncoming, ReadFrom, Close; clock readings are
   arbitrary integers (also non-monotonic).  [rec_of c a] is the record of address a: last seen,
   the identity of its queue, and the queue's contents in order. *)

(* the exact effect of every operation, after every history, on the record of every address
   ([rec_after]: WriteTo/OutgoingQueue refresh last-seen and keep the queue -- or make a fresh
   empty one when the address has none --, then enqueue at the tail unless full / dequeue at the
   head; a receive on a held channel dequeues from that queue only; a sweep removes the record iff
   now - last_seen >= timeout; everything else leaves it alone) and the answer it gives *)
Theorem C17_queue_step_per_addr : forall cap timeout ops o a,
  let s := fst (qrun cap timeout ops qc_empty) in
  rec_of (clients (fst (qstep cap timeout s o))) a =
    rec_after cap timeout a (next_qid (clients s)) (qclosed s) (rec_of (clients s) a) o /\
  (forall x, out_after cap a (next_qid (clients s)) (qclosed s) (rec_of (clients s) a) o = Some x ->
     snd (qstep cap timeout s o) = x).
Proof.
  intros cap timeout ops o a s.
  destruct (qstep_rec cap timeout s o a (proj1 (reach_inv cap timeout ops))) as (_ & H1 & H2). auto.
Qed.

(* a client seen within the timeout keeps its queue at a sweep: the same queue (identity), the same
   last-seen, THE SAME CONTENTS IN THE SAME ORDER, and the queue is not closed *)
Theorem C17_queue_kept_with_contents : forall cap timeout ops now a r,
  let s := fst (qrun cap timeout ops qc_empty) in
  let s' := fst (qstep cap timeout s (QSweep now)) in
  rec_of (clients s) a = Some r -> (now - c_seen r < timeout)%Z ->
  rec_of (clients s') a = Some r /\ out_q (clients s') a = c_q r /\
  ~ In (c_qid r) (map fst (dead (clients s'))).
Proof.
  intros cap timeout ops now a r s s'. destruct (reach_inv cap timeout ops) as [H1 H2].
  apply (sweep_kept cap timeout s now a r); auto.
Qed.

(* BEING WRITTEN TO COUNTS AS BEING SEEN.  After any history, on an open connection: a client that has a queue and is
   written to at now1 -- whenever its queue was last fetched, e.g. never since, because the client is between two
   carriers -- keeps THE SAME queue (identity), with the packet at its tail when there was room, not closed, at every
   sweep earlier than now1 + timeout.  (WriteTo refreshes last-seen exactly as OutgoingQueue does.) *)
Theorem C17_written_client_kept_at_sweep : forall cap timeout ops a r p now1 now2,
  let s := fst (qrun cap timeout ops qc_empty) in
  let s1 := fst (qstep cap timeout s (QWrite p a now1)) in
  let s2 := fst (qstep cap timeout s1 (QSweep now2)) in
  qclosed s = false -> rec_of (clients s) a = Some r -> (now2 - now1 < timeout)%Z ->
  let q' := if length (c_q r) <? cap then c_q r ++ [p] else c_q r in
  rec_of (clients s2) a = Some (mkrec (c_addr r) now1 (c_qid r) q') /\ out_q (clients s2) a = q' /\
  ~ In (c_qid r) (map fst (dead (clients s2))).
Proof.
  intros cap timeout ops a r p now1 now2 s s1 s2 Hopen Hrec Hlt q'.
  pose proof (C17_queue_step_per_addr cap timeout ops (QWrite p a now1) a) as [Hstep _].
  fold s in Hstep. fold s1 in Hstep. unfold rec_after in Hstep. rewrite Hopen, N.eqb_refl, Hrec in Hstep.
  cbn [touch_rec] in Hstep.
  assert (Hr1 : rec_of (clients s1) a = Some (mkrec (c_addr r) now1 (c_qid r) q')).
  { rewrite Hstep. unfold q', set_q, set_seen. cbn [c_q c_addr c_seen c_qid].
    destruct (length (c_q r) <? cap); reflexivity. }
  assert (Hs1 : s1 = fst (qrun cap timeout (ops ++ [QWrite p a now1]) qc_empty)).
  { rewrite qrun_app. fold s. unfold s1. cbn [qrun]. destruct (qstep cap timeout s (QWrite p a now1)). reflexivity. }
  pose proof (C17_queue_kept_with_contents cap timeout (ops ++ [QWrite p a now1]) now2 a
                (mkrec (c_addr r) now1 (c_qid r) q')) as Hk.
  cbv zeta in Hk. rewrite <- Hs1 in Hk. fold s2 in Hk. apply Hk; [exact Hr1 | exact Hlt].
Qed.

Example C17_written_client_kept_at_sweep_witness :
  let s := fst (qrun 4 10%Z [QOutRecv 7%N 0%Z] qc_empty) in
  qclosed s = false /\ rec_of (clients s) 7%N = Some (mkrec 7%N 0%Z 0 []) /\
  rec_of (clients (fst (qstep 4 10%Z (fst (qstep 4 10%Z s (QWrite [1%N] 7%N 9%Z))) (QSweep 15%Z)))) 7%N
    = Some (mkrec 7%N 9%Z 0 [[1%N]]).
Proof. vm_compute. repeat split; reflexivity. Qed.

(* a sweep removes a record, or closes a queue, only when now - last_seen >= timeout (the code's
   comparison); a record that is not kept unchanged is removed; a sweep creates or alters nothing *)
Theorem C17_queue_not_removed_early : forall cap timeout ops now,
  let s := fst (qrun cap timeout ops qc_empty) in
  let s' := fst (qstep cap timeout s (QSweep now)) in
  (forall a r, rec_of (clients s) a = Some r -> rec_of (clients s') a <> Some r ->
     (now - c_seen r >= timeout)%Z /\ rec_of (clients s') a = None) /\
  (forall e, In e (dead (clients s')) -> ~ In e (dead (clients s)) ->
     exists r, rec_of (clients s) (c_addr r) = Some r /\ e = (c_qid r, c_q r) /\ (now - c_seen r >= timeout)%Z) /\
  (forall a r, rec_of (clients s') a = Some r -> rec_of (clients s) a = Some r).
Proof.
  intros cap timeout ops now s s'. apply (sweep_not_early cap timeout s now). apply (proj1 (reach_inv cap timeout ops)).
Qed.

(* the first sweep at or after last_seen + timeout removes the client and closes its queue; the
   packets still queued stay in the closed channel (the pair in [dead]) and no live queue has that
   identity any more: they are dropped with the queue *)
Theorem C17_queue_removed_by_next_sweep : forall cap timeout ops now a r,
  let s := fst (qrun cap timeout ops qc_empty) in
  let s' := fst (qstep cap timeout s (QSweep now)) in
  rec_of (clients s) a = Some r -> (now - c_seen r >= timeout)%Z ->
  rec_of (clients s') a = None /\ out_q (clients s') a = [] /\
  In (c_qid r, c_q r) (dead (clients s')) /\
  (forall r', In r' (byAge (clients s')) -> c_qid r' <> c_qid r).
Proof.
  intros cap timeout ops now a r s s'. apply (sweep_removed cap timeout s now a r). apply (proj1 (reach_inv cap timeout ops)).
Qed.

(* ... and when the address is used again it gets a NEW queue: identity greater than that of every
   queue ever made (open or closed), empty *)
Theorem C17_new_queue_after_expiry_is_fresh : forall cap timeout ops a now,
  let s := fst (qrun cap timeout ops qc_empty) in
  rec_of (clients s) a = None ->
  let c' := fst (send_queue a now (clients s)) in
  let k := snd (send_queue a now (clients s)) in
  rec_of c' a = Some (mkrec a now k []) /\ k = next_qid (clients s) /\
  (forall r, In r (byAge (clients s)) -> c_qid r < k) /\ (forall e, In e (dead (clients s)) -> fst e < k).
Proof.
  intros cap timeout ops a now s Hnone. destruct (reach_inv cap timeout ops) as [H1 H2].
  apply new_queue_fresh; auto.
Qed.

(* non-vacuity, with non-empty queues: client 7 (seen at 5, one packet left after a receive) is kept by
   the sweep at 14 with its packet; client 8 (seen at 4, one packet) is removed and its queue closed
   with the packet in it; timeout 10 *)
Example C17_retention_hyps_satisfiable :
  let ops := [QWrite [1%N] 7%N 0%Z; QWrite [2%N] 7%N 1%Z; QWrite [9%N] 8%N 4%Z; QOutRecv 7%N 5%Z] in
  let s := fst (qrun 4 10%Z ops qc_empty) in
  let s' := fst (qstep 4 10%Z s (QSweep 14%Z)) in
  rec_of (clients s) 7%N = Some (mkrec 7 5 0 [[2%N]]) /\ (14 - 5 < 10)%Z /\
  rec_of (clients s) 8%N = Some (mkrec 8 4 1 [[9%N]]) /\ (14 - 4 >= 10)%Z /\
  rec_of (clients s') 7%N = Some (mkrec 7 5 0 [[2%N]]) /\ rec_of (clients s') 8%N = None /\
  dead (clients s') = [(1, [[9%N]])] /\
  rec_of (clients (fst (qstep 4 10%Z s' (QSweep 15%Z)))) 7%N = None /\
  snd (send_queue 8%N 20%Z (clients s')) = 2.
Proof. vm_compute. repeat split; try reflexivity; discriminate. Qed.

(* FIRST-IN-FIRST-OUT PER ADDRESS OVER ARBITRARY HISTORIES (sweeps, held receives, Close included).
   [ep_run] is bookkeeping over the observable trace only (Proofs/QueueRetentionProofs.v): for
   address a it keeps, SINCE a's QUEUE WAS (RE)CREATED, e_w = the packets WriteTo(_, a) enqueued
   (drops at capacity are the writes answered `accepted = false`; C17_never_blocks says when) and
   e_r = the packets receivers of that queue took (through OutgoingQueue(a) or a held reference
   to the same queue), e_seen = the clock reading of the last WriteTo/OutgoingQueue for a; a sweep
   at `now` ends the bookkeeping iff now - e_seen >= timeout, every other sweep leaves it alone.
   Then, after every history:
   - if the bookkeeping has an open epoch, a has a queue, it is the one created at the start of
     the epoch (same identity all along, so across every sweep that did not expire a), last seen
     at e_seen, and written = received ++ still queued: what receivers got is, in order, exactly a
     prefix of what was accepted since the queue was created, the rest is still queued in order;
   - otherwise a has no queue.  What was queued when a WAS expired is therefore not delivered to
     any later receiver of OutgoingQueue(a): it went with the closed queue
     (C17_queue_removed_by_next_sweep), and the next epoch starts from an empty fresh queue
     (C17_new_queue_after_expiry_is_fresh). *)
Theorem C17_queue_fifo_per_addr_any_history : forall cap timeout ops a,
  let '(s', outs) := qrun cap timeout ops qc_empty in
  match ep_run timeout a None ops outs with
  | None => rec_of (clients s') a = None /\ out_q (clients s') a = []
  | Some e => exists r, rec_of (clients s') a = Some r /\ c_seen r = e_seen e /\ c_qid r = e_qid e /\
                        e_w e = e_r e ++ out_q (clients s') a
  end.
Proof.
  intros cap timeout ops a.
  assert (H0 : ep_inv a None (clients qc_empty)) by reflexivity.
  destruct (epoch_fifo cap timeout ops a qc_empty None cm_inv_empty H0) as [_ H].
  destruct (qrun cap timeout ops qc_empty) as [s' outs]. simpl in H.
  destruct (ep_run timeout a None ops outs) as [e|]; simpl in H.
  - destruct H as (r & H1 & H2 & H3 & H4). exists r. unfold out_q. rewrite H1. auto.
  - unfold out_q. rewrite H. auto.
Qed.

(* non-vacuity: writes, a sweep that keeps the client (12 - 3 < 10), a receive through OutgoingQueue, a
   held receive on the same queue, a full queue (cap 3) dropping a write; then an expiry (30 - 13 >= 10)
   with one packet still queued, a held receive draining the closed queue, and a new epoch in which only
   what was written after the expiry is delivered *)
Example C17_fifo_any_history_satisfiable :
  let ops1 := [QWrite [1%N] 7%N 0%Z; QWrite [2%N] 7%N 3%Z; QSweep 12%Z; QOutRecv 7%N 13%Z; QWrite [3%N] 7%N 13%Z;
               QWrite [4%N] 7%N 13%Z; QWrite [5%N] 7%N 13%Z; QHeldRecv 0; QSweep 22%Z] in
  let ops2 := ops1 ++ [QSweep 30%Z; QHeldRecv 0; QWrite [6%N] 7%N 31%Z; QOutRecv 7%N 32%Z] in
  ep_run 10%Z 7%N None ops1 (snd (qrun 3 10%Z ops1 qc_empty)) = Some (mkep 13 0 [[1%N]; [2%N]; [3%N]; [4%N]] [[1%N]; [2%N]]) /\
  out_q (clients (fst (qrun 3 10%Z ops1 qc_empty))) 7%N = [[3%N]; [4%N]] /\
  snd (qrun 3 10%Z ops2 qc_empty) =
    [OWrote 1 0 true; OWrote 1 0 true; ONone; ORecv 0 (RcvPkt [1%N]); OWrote 1 0 true; OWrote 1 0 true; OWrote 1 0 false;
     ORecv 0 (RcvPkt [2%N]); ONone; ONone; ORecv 0 (RcvPkt [3%N]); OWrote 1 1 true; ORecv 1 (RcvPkt [6%N])] /\
  ep_run 10%Z 7%N None ops2 (snd (qrun 3 10%Z ops2 qc_empty)) = Some (mkep 32 1 [[6%N]] [[6%N]]) /\
  dead (clients (fst (qrun 3 10%Z ops2 qc_empty))) = [(0, [[4%N]])].
Proof. vm_compute. repeat split; reflexivity. Qed.

(* ---------------------------------------------------------------- the sweeper goroutine of NewClientMap
   for { time.Sleep(period); removeExpired(time.Now(), timeout) } with period = timeout/2, idealised:
   the k-th sweep happens at phase + k*period (k = 1, 2, ...; ANY phase).  [ticked phase period 0 segs]
   is the history in which the i-th segment of (arbitrary) operations is followed by the i-th sweep. *)

(* a client whose record r exists after `length pre` sweeps and was not yet due at the last of them,
   and that is idle from then on (no WriteTo/OutgoingQueue for it, no receive on its queue; anything
   else may happen): there is an n >= 1 -- the first sweep at or after last_seen + timeout, and that
   sweep comes BEFORE last_seen + timeout + period (= 1.5 timeouts for period = timeout/2) -- such that
   after fewer than n further sweeps the client still has the same queue with the same contents (never
   discarded before it has been idle for the full timeout), and after n or more it is gone and its
   queue is closed *)
Theorem C17_ticker_idle_client_removal_window : forall cap timeout phase period pre a r,
  (0 < period)%Z ->
  let k0 := length pre in
  let s := fst (qrun cap timeout (ticked phase period 0 pre) qc_empty) in
  rec_of (clients s) a = Some r ->
  (tick phase period k0 < c_seen r + timeout)%Z ->
  exists n, 1 <= n /\
    (c_seen r + timeout <= tick phase period (k0 + n) < c_seen r + timeout + period)%Z /\
    forall segs, Forall (fun seg => forallb (idle_op a (c_qid r)) seg = true) segs ->
      let s' := fst (qrun cap timeout (ticked phase period 0 (pre ++ segs)) qc_empty) in
      (length segs < n -> rec_of (clients s') a = Some r /\ out_q (clients s') a = c_q r) /\
      (n <= length segs -> rec_of (clients s') a = None /\ In (c_qid r) (map fst (dead (clients s')))).
Proof. exact ticker_idle_client. Qed.

(* non-vacuity: timeout 10, period 5, phase 1 (sweeps at 6, 11, 16, ...); client 7 written at 3 with
   one packet, kept by the sweeps at 6 and 11 (while client 8 is busy), gone at 16 < 3 + 10 + 5 *)
Example C17_ticker_hyps_satisfiable :
  let pre := [[QWrite [1%N] 7%N 3%Z]] in
  let s := fst (qrun 4 10%Z (ticked 1 5 0 pre) qc_empty) in
  let r := mkrec 7 3 0 [[1%N]] in
  rec_of (clients s) 7%N = Some r /\ (tick 1 5 (length pre) < c_seen r + 10)%Z /\
  let segs := [[QWrite [2%N] 8%N 7%Z; QHeldRecv 1]; [QOutRecv 8%N 12%Z]] in
  Forall (fun seg => forallb (idle_op 7%N (c_qid r)) seg = true) segs /\
  rec_of (clients (fst (qrun 4 10%Z (ticked 1 5 0 (pre ++ [[QWrite [2%N] 8%N 7%Z; QHeldRecv 1]])) qc_empty))) 7%N = Some r /\
  rec_of (clients (fst (qrun 4 10%Z (ticked 1 5 0 (pre ++ segs)) qc_empty))) 7%N = None /\
  (3 + 10 <= tick 1 5 (1 + 2) < 3 + 10 + 5)%Z.
Proof.
  vm_compute. split; [reflexivity|]. split; [reflexivity|]. split; [repeat constructor|].
  split; [reflexivity|]. split; [reflexivity|]. split; [discriminate | reflexivity].
Qed.

(* ================================================================ redialing connection (Redial.v) *)
(* `reachable ecap qcap s`: s is reached from the initial state by some trace of the interleaving
   machine (any schedule of the dial loop and the reader/writer goroutines of every carrier, any
   carrier behaviour, any user calls).  ecap = capacity of readErrCh/writeErrCh: 0 = pinned code,
   1 = proposed-fixes/C17-redial-goroutine-leak.diff. *)

(* a user call reports an error only after Close or after dialContext failed (both code versions) *)
Theorem C17_redial_errors_only_after_close_or_dial_failure :
  forall ecap qcap s l e, reachable ecap qcap s -> user_result s l = UErr e ->
    (g_close_called s = true \/ g_dial_failed s = true) /\ e = r_err s /\ e <> ENone /\ r_closed s = true.
Proof. exact redial_errors_only_after_close_or_dial_failure. Qed.

(* at most one carrier is open, and it is the one the dial loop is serving *)
Theorem C17_one_active_carrier :
  forall ecap qcap s, reachable ecap qcap s ->
    (forall k c, nth_error (r_cs s) k = Some c -> c_closed c = false -> r_d s = DExch k \/ r_d s = DClose k) /\
    (forall k1 k2 c1 c2, nth_error (r_cs s) k1 = Some c1 -> nth_error (r_cs s) k2 = Some c2 ->
       c_closed c1 = false -> c_closed c2 = false -> k1 = k2).
Proof.
  intros ecap qcap s H. split.
  - intros. eapply redial_one_active_carrier; eauto.
  - intros. eapply redial_at_most_one_open; eauto.
Qed.

(* "closed" = conn.Close() has RETURNED in the dial loop.  The close count of a carrier changes in one
   step only, LDCloseCarrier: a step of the dial loop itself, taken after exchange returned (DClose k)
   and before the loop goes round (DTop) -- never by another thread, never at another moment.  A
   Close() that takes long is that step scheduled late.  (A loop that closes the finished carrier
   with `go conn.Close()` is not this machine; the driver's carriers whose Close blocks until the
   script releases it tie this reading to the code: "turbotunnel redials", observable oad.) *)
Theorem C17_close_is_dial_loop_step :
  forall ecap qcap s l s' k c c', step ecap qcap s l = Some s' ->
    nth_error (r_cs s) k = Some c -> nth_error (r_cs s') k = Some c' -> c_nclose c' <> c_nclose c ->
    l = LDCloseCarrier /\ r_d s = DClose k /\ r_d s' = DTop /\ c_nclose c' = S (c_nclose c).
Proof.
  intros ecap qcap s l s' k c c' Hs Hn Hn' Hne.
  destruct (step_carrier _ _ _ _ _ _ _ _ Hs Hn Hn') as [[-> _]|Hc]; [congruence|].
  inversion Hc; subst; simpl in Hne; try congruence. auto.
Qed.

(* at the moment dialContext hands out a carrier (any schedule, any behaviour of the carriers, however
   long their Close takes) every carrier obtained earlier is closed -- the number of carriers open at a
   dial is 0 -- and afterwards the new carrier is the only open one *)
Theorem C17_no_open_carrier_at_dial :
  forall ecap qcap s s', reachable ecap qcap s -> step ecap qcap s LDialOk = Some s' ->
    (forall k c, nth_error (r_cs s) k = Some c -> c_closed c = true) /\
    (exists c', nth_error (r_cs s') (length (r_cs s)) = Some c' /\ c_closed c' = false) /\
    (forall k c, nth_error (r_cs s') k = Some c -> c_closed c = false -> k = length (r_cs s)).
Proof. exact redial_no_open_carrier_at_dial. Qed.

(* hypotheses are satisfiable: a second dial after a redial, with the first carrier closed *)
Example C17_dial_after_redial_satisfiable :
  exists s s' c, reachable 1 8 s /\ step 1 8 s LDialOk = Some s' /\
                 nth_error (r_cs s) 0 = Some c /\ c_nclose c = 1 /\ length (r_cs s') = 2.
Proof.
  exists (mkrs false ENone DDial [mkcar RDone WSel (mkch 0 true) ch_new 1] 0 0 false false).
  eexists. exists (mkcar RDone WSel (mkch 0 true) ch_new 1).
  split; [exists [LDTop; LDialOk; LRTopDefault 0; LReadFail 0; LRSendBuf 0; LDRecvR; LDCloseCarrier; LDTop];
          vm_compute; reflexivity|].
  split; [vm_compute; reflexivity|]. split; [reflexivity|]. split; reflexivity.
Qed.

(* every carrier obtained is closed exactly once: never twice, and whenever the dial loop is not
   serving a carrier (in particular when it has returned) every carrier is closed *)
Theorem C17_every_carrier_closed :
  forall ecap qcap s, reachable ecap qcap s ->
    (forall k c, nth_error (r_cs s) k = Some c -> c_nclose c <= 1) /\
    ((r_d s = DDone \/ r_d s = DTop \/ r_d s = DDial) ->
       forall k c, nth_error (r_cs s) k = Some c -> c_closed c = true).
Proof.
  intros ecap qcap s H. split.
  - intros. eapply redial_closed_once; eauto.
  - intros. eapply redial_done_all_closed; eauto.
Qed.

(* repaired code: no goroutine is retained per redial or after Close, under every schedule.
   (1) a goroutine of a closed carrier is never blocked, (2) each of its steps lowers its rank
   (<= 3), so it terminates within 3 own steps; (3) once closed, every non-user step lowers mu, and
   (4) when nothing but user calls can happen, no goroutine is left and every carrier is closed *)
Theorem C17_no_thread_left :
  forall qcap s, reachable 1 qcap s ->
    (forall k c, nth_error (r_cs s) k = Some c -> c_closed c = true ->
       (c_r c = RDone \/ exists l, In l (r_labels k ++ [LReadFail k]) /\ enabled 1 qcap s l = true) /\
       (c_w c = WDone \/ exists l, In l (w_labels k ++ [LWriteFail k]) /\ enabled 1 qcap s l = true)) /\
    (forall k c l s' c', nth_error (r_cs s) k = Some c -> c_closed c = true ->
       step 1 qcap s l = Some s' -> nth_error (r_cs s') k = Some c' ->
       rrank (c_r c') <= rrank (c_r c) /\ wrank (c_w c') <= wrank (c_w c) /\
       (In l (r_labels k ++ [LReadFail k; LReadOk k]) -> rrank (c_r c') < rrank (c_r c)) /\
       (In l (w_labels k ++ [LWriteFail k; LWriteOk k]) -> wrank (c_w c') < wrank (c_w c))) /\
    (r_closed s = true -> forall l s', user_label l = false -> step 1 qcap s l = Some s' -> mu s' < mu s) /\
    (r_closed s = true -> (forall l, user_label l = false -> step 1 qcap s l = None) ->
       threads_left s = 0 /\ r_d s = DDone /\
       (forall k c, nth_error (r_cs s) k = Some c -> c_closed c = true /\ c_r c = RDone /\ c_w c = WDone)).
Proof.
  intros qcap s H. split; [|split; [|split]].
  - intros. eapply redial_v1_closed_carrier_threads_enabled; eauto.
  - intros. eapply redial_v1_closed_carrier_rank_decreases; eauto.
  - intros. eapply redial_v1_closed_measure_decreases; eauto.
  - intros _ Hs. eapply redial_v1_no_thread_left; eauto.
Qed.

(* pinned code (unbuffered error channels): the writer's carrier write fails first, exchange returns,
   the carrier is closed, the reader's read fails and the reader blocks for ever on readErrCh *)
Theorem C17_v0_refuted_leak :
  forall qcap, 0 < qcap -> exists tr s c,
    run_trace 0 qcap tr rs_init = Some s /\ r_closed s = true /\ r_d s = DDone /\
    nth_error (r_cs s) 0 = Some c /\ c_closed c = true /\ c_r c = RSend /\ c_w c = WDone /\
    (forall l s', step 0 qcap s l = Some s' -> s' = s).
Proof. exact redial_v0_refuted_leak. Qed.

(* hypotheses are satisfiable: the same schedule on the repaired code ends clean *)
Example C17_redial_hyps_satisfiable :
  exists s, reachable 1 8 s /\ r_closed s = true /\ r_d s = DDone /\ threads_left s = 0 /\
            exists c, nth_error (r_cs s) 0 = Some c /\ c_closed c = true.
Proof.
  destruct (redial_v1_same_trace_clean 8 ltac:(lia)) as (s & Hrun & Hc & Hd & Ht).
  exists s. split; [eexists; exact Hrun|]. split; auto. split; auto. split; auto.
  destruct (r_cs s) as [|c cs] eqn:E.
  - exfalso. revert Hrun. vm_compute. intro X. inversion X. subst. discriminate.
  - exists c. split; auto.
    assert (R: reachable 1 8 s) by (eexists; exact Hrun).
    apply (redial_done_all_closed 1 8 s R (or_introl Hd) 0 c). rewrite E. reflexivity.
Qed.

(* ================================================================ the redialing connection at the capacity of its queues
   qcap = queueSize (2048 in the code) is a parameter of the machine: LUWrite / LReadOk enqueue only while
   the counter is below qcap and otherwise leave the state as it is (select ... default: drop). *)

(* after ANY history - any number of writes, any schedule, any behaviour of the carriers - in which the
   user has not called Close and no dial has failed: WriteTo answers (len, nil), also when the send queue
   is full, in which case NOTHING changes (the packet is dropped and nothing is signalled); ReadFrom
   returns a packet or blocks; both queues hold at most qcap packets *)
Theorem C17_redial_write_never_errors_before_close_or_dial_failure :
  forall ecap qcap tr s, run_trace ecap qcap tr rs_init = Some s ->
    g_close_called s = false -> g_dial_failed s = false ->
    user_result s LUWrite = UOk /\
    (user_result s LURead = UPacket \/ user_result s LURead = UWouldBlock) /\
    r_sendq s <= qcap /\ r_recvq s <= qcap /\
    exists s', step ecap qcap s LUWrite = Some s' /\
      r_closed s' = false /\ g_close_called s' = false /\ g_dial_failed s' = false /\
      (r_sendq s < qcap -> r_sendq s' = S (r_sendq s)) /\
      (r_sendq s = qcap -> s' = s).
Proof. exact redial_write_never_errors_before_close_or_dial_failure. Qed.

(* the hypotheses are satisfiable at and beyond the capacity, for every n: n writes while nothing drains
   the queue (the first dial has not returned) leave min n qcap packets queued, the connection open and
   the next write answered ok - the 2049th outstanding packet included *)
Theorem C17_redial_writes_fill_then_drop : forall ecap qcap n,
  exists s, run_trace ecap qcap (repeat LUWrite n) rs_init = Some s /\
    r_sendq s = Nat.min n qcap /\ g_close_called s = false /\ g_dial_failed s = false /\
    user_result s LUWrite = UOk.
Proof.
  intros ecap qcap n. destruct (writes_from ecap qcap n rs_init eq_refl (Nat.le_0_l _)) as (s & R & Q & C & G1 & G2 & _).
  exists s. split; [exact R |]. split; [exact Q |]. split; [exact G1 |]. split; [exact G2 |].
  unfold user_result. rewrite C. reflexivity.
Qed.

(* ... and with an active carrier whose WriteTo does not return (one packet with the carrier, qcap queued) *)
Example C17_redial_capacity_with_blocked_carrier :
  exists s, run_trace 1 3 ([LDTop; LDialOk; LUWrite; LWSelPkt 0] ++ repeat LUWrite 6) rs_init = Some s /\
    r_sendq s = 3 /\ g_close_called s = false /\ g_dial_failed s = false /\
    user_result s LUWrite = UOk /\ step 1 3 s LUWrite = Some s.
Proof. exact capacity_with_blocked_carrier. Qed.

Theorem C17_redial_queues_bounded : forall ecap qcap s,
  reachable ecap qcap s -> r_sendq s <= qcap /\ r_recvq s <= qcap.
Proof. exact redial_queues_bounded. Qed.

(* contents (Model/RedialQueue.v): a queue that accepts while it holds fewer than cap packets and drops
   otherwise hands out, in order, exactly what it accepted: taken ++ left = initially queued ++ accepted,
   for every sequence of enqueue / dequeue operations, and never holds more than cap *)
Theorem C17_redial_queue_fifo_of_accepted : forall (A : Type) (cap : nat) (ops : list (bop A)) (q : list A),
  let '(out, acc, q') := bq_exec A cap ops q in out ++ q' = q ++ acc.
Proof. exact bq_fifo. Qed.

Theorem C17_redial_queue_bounded : forall (A : Type) (cap : nat) (ops : list (bop A)) (q : list A),
  length q <= cap -> let '(_, _, q') := bq_exec A cap ops q in length q' <= cap.
Proof. exact bq_bounded. Qed.

Example C17_redial_queue_hyps_satisfiable :
  bq_exec nat 2 [BPush nat 1; BPush nat 2; BPush nat 3; BPop nat; BPush nat 4; BPop nat; BPop nat; BPop nat] [] = ([1; 2; 4], [1; 2; 4], []).
Proof. reflexivity. Qed.

(* these contents are the machine's queues: along every step of the machine of Model/Redial.v the lengths of
   the content queues (ghost_send: enqueue at LUWrite, dequeue at LWSelPkt; ghost_recv: enqueue at LReadOk,
   dequeue at LURead) are its counters r_sendq / r_recvq *)
Theorem C17_redial_contents_refine_counters :
  forall (A : Type) ecap qcap s l s' (sq rq : list A) (x : A),
    step ecap qcap s l = Some s' -> r_sendq s = length sq -> r_recvq s = length rq ->
    r_sendq s' = length (ghost_send A qcap s l sq x) /\ r_recvq s' = length (ghost_recv A qcap s l rq x).
Proof. exact redial_contents_refine_counters. Qed.

Example C17_redial_contents_hyps_satisfiable :
  step 1 2 (mkrs false ENone DDial [] 2 0 false false) LUWrite = Some (mkrs false ENone DDial [] 2 0 false false) /\
  ghost_send nat 2 (mkrs false ENone DDial [] 2 0 false false) LUWrite [7; 8] 9 = [7; 8].
Proof. split; reflexivity. Qed.

(* ---------------------------------------------------------------- the sweeper and the map's lock (Proofs/SweeperLockProofs.v)
   The sweeper takes m.lock for every sweep.  When another goroutine is inside a critical section at a tick, a sweeper that
   WAITS performs that sweep d later (0 <= d <= D); the removal window of C17_ticker_idle_client_removal_window widens by D
   and nothing else changes: the idle client is kept by every sweep before last_seen + timeout, gone after the sweep of the
   first tick at or after it, and that sweep happens before last_seen + timeout + period + D.  Tie: op `sweephold` (in-package,
   real sweeper, the driver holds m.lock around every tick) and the busy-map monitor. *)
Theorem C17_sweeper_waiting_for_lock_removes : forall cap timeout phase period D k0 segs s a r,
  (0 < period)%Z -> cm_inv (clients s) -> rec_of (clients s) a = Some r ->
  Forall (fun x => forallb (idle_op a (c_qid r)) (fst x) = true) segs ->
  Forall (fun x => (0 <= snd x <= D)%Z) segs ->
  (tick phase period k0 < c_seen r + timeout)%Z ->
  exists n, 1 <= n /\
    (c_seen r + timeout <= tick phase period (k0 + n) < c_seen r + timeout + period)%Z /\
    let s' := fst (qrun cap timeout (swept (with_delayed_ticks phase period k0 segs)) s) in
    (n <= length segs ->
       rec_of (clients s') a = None /\ In (c_qid r) (map fst (dead (clients s'))) /\
       exists seg d, nth_error segs (n - 1) = Some (seg, d) /\
                     (c_seen r + timeout <= tick phase period (k0 + n) + d < c_seen r + timeout + period + D)%Z) /\
    (Forall (fun x => (snd x < c_seen r + timeout)%Z) (with_delayed_ticks phase period k0 segs) ->
       rec_of (clients s') a = Some r).
Proof. exact delayed_sweeper_removes. Qed.

(* A sweeper that gives its round up when the lock is busy (TryLock) sweeps nothing at such a tick: with the lock busy at every
   tick the idle client keeps its record and its queue for ever - there is no removal bound at all (seed C17-m14). *)
Theorem C17_sweeper_skipping_rounds_refuted : forall cap timeout (rounds : list (list qop)) s a r,
  cm_inv (clients s) -> rec_of (clients s) a = Some r ->
  Forall (fun seg => forallb (idle_op a (c_qid r)) seg = true) rounds ->
  rec_of (clients (fst (qrun cap timeout (concat rounds) s))) a = Some r.
Proof.
  intros cap timeout rounds s a r Hinv Hrec Hidle. apply idle_run; [exact Hinv|exact Hrec|].
  induction Hidle as [|seg rest Hs _ IH]; [reflexivity|]. cbn [concat]. rewrite forallb_app, Hs, IH. reflexivity.
Qed.

(* non-vacuity: timeout 10, period 5, phase 1; client 7 written at 3; the sweeps of ticks 6, 11, 16 delayed by 2, 0, 3 (D = 3):
   kept at 8 and 11, gone at 19 < 3 + 10 + 5 + 3 *)
Example C17_sweeper_waiting_example :
  let s := fst (qrun 4 10%Z [QWrite [1%N] 7%N 3%Z] qc_empty) in
  let r := mkrec 7 3 0 [[1%N]] in
  let segs := [([QWrite [2%N] 8%N 7%Z], 2%Z); ([], 0%Z); ([QOutRecv 8%N 12%Z], 3%Z)] in
  rec_of (clients s) 7%N = Some r /\
  with_delayed_ticks 1 5 0 segs = [([QWrite [2%N] 8%N 7%Z], 8%Z); ([], 11%Z); ([QOutRecv 8%N 12%Z], 19%Z)] /\
  rec_of (clients (fst (qrun 4 10%Z (swept (with_delayed_ticks 1 5 0 (firstn 2 segs))) s))) 7%N = Some r /\
  rec_of (clients (fst (qrun 4 10%Z (swept (with_delayed_ticks 1 5 0 segs)) s))) 7%N = None.
Proof. vm_compute. repeat split; reflexivity. Qed.
