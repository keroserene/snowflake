(* C07 — no IP address survives the log scrubber (common/safelog).

   The theorems are about the executable model (Model/Regex.v: Go's regexp as a leftmost-first
   backtracking matcher; Model/Scrub.v: Scrub and LogScrubber.Write) instantiated with the patterns in
   Gen/SafelogPatterns.v, which the check regenerates from /repo's source on every run.
     pat_L, pat_A, pat_R : the full pattern is  pat_L (group 1: pat_A) pat_R   (Proofs/C07Proofs.full_shape)
     addr_spec            : hand-written regex of every textual form of an IPv4/IPv6 address (Model/Scrub.v)
     left_ok pre          : pre is empty (beginning of the text handed to Scrub = of the line) or ends with a
                            delimiter byte; right_ok post likewise; a delimiter is any byte other than
                            [0-9A-Za-z_] and ':'  (whitespace, punctuation other than ':', non-ASCII)
     replaced_spans t     : the (start, end) positions of t that Scrub replaces by "[scrubbed]"
     dotted_run pre w     : w is a dotted quad (with or without port) and pre ends with a decimal digit and '.':
                            the occurrence continues a run of dotted numbers such as 1.2.3.4.5.6.7, in which the
                            scrubber takes the first four numbers as the address (C07_r2_dotted_run_refuted)
     colon_ws w post      : w ends with ':' and post starts with a whitespace byte: the pattern's delimiter
                            alternative ":\s" may take the last ':' of h:h:h:h:h:h:h:: (C07_r2_last_colon_survives)
     C07_covers_all       : COVERAGE - outside these two cases the whole occurrence lies inside one replaced span
     C07_v0_*             : the pinned algorithm / pinned patterns (Model/SafelogPinned.v, frozen) violate the property.
     C07_r2_*             : the current patterns (Model/SafelogRound2.v, frozen copy of /repo d0c6152): what the
                            coverage theorem excludes is really not covered.

   Buffer ownership (io.Writer: "Write must not modify the slice data. Implementations must not retain p."):
   the writer theorems are stated over byte VALUES, so by themselves they say nothing about a writer that keeps a
   reference to the caller's slice.  Model/SafelogOwn.v makes the caller's memory explicit: a history is the list of
   (caller's array at the time of the call, length passed), arbitrary between calls; what the writer keeps is bytes it
   owns or a view into the caller's array.  C07_write_no_retention: the copying writer (what /repo does:
   append(ls.buffer, b...)) is the value-level writer on the bytes passed, for EVERY history;
   C07_retaining_writer_refuted: a writer that keeps the pending partial line as a view of the caller's array lets
   an address through when the caller refills its array (io.Copy, bufio.Writer, os/exec).  The no-retention half is
   enforced on the implementation by the tie: the Go driver hands every chunk of every write-splitting case
   (ops write, lwrite, conc) to Write in ONE scratch array that it overwrites after the call returns, and the model op
   `write` executes run_scratch, the same delivery (C07_write_scratch_delivery: equal to run_writes).

   Concurrent writers: LogScrubber.Write holds ls.lock for its whole body, so concurrent Write calls take effect
   one after the other in the order in which they obtain the mutex.  A history of concurrent writers is therefore
   modelled as the serial list ws of Write calls in that order, and the writer theorems quantify over every list
   ws, i.e. over every such order and every splitting.  That the lock really serialises the calls (no data race on
   the buffer) is not proved here; it is checked on the implementation in C20 (race detector) and exercised by the
   `conc` cases of lib/checks/c07.py. *)
From Coq Require Import String List NArith Arith Lia.
From Snow Require Import Lib.Wire Model.Scrub Model.SafelogPinned Model.SafelogOwn Model.ScrubFail Gen.SafelogPatterns.
From Snow Require Import Proofs.RegexProofs Proofs.ScrubProofs Proofs.C07Proofs Proofs.ScrubFailProofs.
From Snow Require Import Proofs.RegexDisjProofs Proofs.ScrubCoverProofs Proofs.C07CoverProofs Proofs.SafelogOwnProofs.
Import ListNotations.
Open Scope string_scope.
Open Scope list_scope.
Notation length := List.length (only parsing).
Notation concat := List.concat (only parsing).

(* generic: the inclusion checker is sound (used by reflection below) *)
Theorem C07_incl_sound : forall r1 r2,
  RegexIncl.incl r1 r2 = true -> forall w, matches r1 w -> matches r2 w.
Proof. exact incl_sound. Qed.

(* every textual form of an address is in the language of the address part of the compiled pattern *)
Theorem C07_spec_included : forall w, matches addr_spec w -> matches pat_A w.
Proof. exact spec_included. Qed.

Theorem C07_spec_included_address_pattern : forall w, matches addr_spec w -> matches address_pattern w.
Proof. exact spec_included_address_pattern. Qed.

(* Scrub's output is the text with the replaced spans substituted by the placeholder ... *)
Theorem C07_scrub_render : forall t, scrub full_patterns t = render t 0 (replaced_spans t).
Proof. exact scrub_render. Qed.

(* the replaced spans lie inside the text, are non-empty, increasing and pairwise disjoint *)
Theorem C07_replaced_spans_wf : forall t, wf_spans 0 (length t) (replaced_spans t).
Proof. exact replaced_spans_wf. Qed.

(* the loop bound of the model is never reached (the Go loop is unbounded) *)
Theorem C07_scrub_fuel_irrelevant : forall t f,
  length t < f -> scrub full_patterns t = scrub_loop f the_full t.
Proof.
  intros t f Hf. rewrite scrub_is_scrub1. unfold scrub1. rewrite the_full_eq.
  apply (scrub_loop_fuel pat_L pat_A pat_R pat_ok); lia.
Qed.

(* ... and every delimited occurrence of an address, anywhere in any text, however many other addresses
   precede it and whatever separates them, is hit by a replaced span *)
Theorem C07_hides_all : forall pre w post,
  matches addr_spec w -> left_ok pre -> right_ok post ->
  exists a b, In (a, b) (replaced_spans (pre ++ w ++ post)) /\
              a < length pre + length w /\ length pre < b.
Proof. exact hides_all. Qed.

(* ---- COVERAGE.  generic: the disjointness checker is sound (used by reflection in Proofs/C07CoverProofs.v) *)
Theorem C07_disj_sound : forall r1 r2,
  RegexDisj.disj r1 r2 = true -> forall w, matches r1 w -> matches r2 w -> False.
Proof. exact disj_sound. Qed.

(* every delimited occurrence of an address that does not continue a dotted run lies INSIDE one replaced
   span - all of it, or all but a final ':' when whitespace follows *)
Theorem C07_covers_all : forall pre w post,
  matches addr_spec w -> left_ok pre -> right_ok post -> ~ dotted_run pre w ->
  exists a b, In (a, b) (replaced_spans (pre ++ w ++ post)) /\
              a <= length pre /\
              (length pre + length w <= b \/ (b + 1 = length pre + length w /\ colon_ws w post)).
Proof. exact covers_all. Qed.

Theorem C07_covers_all_strict : forall pre w post,
  matches addr_spec w -> left_ok pre -> right_ok post -> ~ dotted_run pre w -> ~ colon_ws w post ->
  exists a b, In (a, b) (replaced_spans (pre ++ w ++ post)) /\
              a <= length pre /\ length pre + length w <= b.
Proof.
  intros pre w post Hw Hl Hr Hnd Hnc.
  destruct (covers_all pre w post Hw Hl Hr Hnd) as (a & b & Hin & Ha & [Hb|[_ Hc]]); [|contradiction].
  exists a, b; auto.
Qed.

(* hence the output is: the rendering of a prefix of pre, the placeholder, the rendering of a suffix of post
   (of ':' ++ post in the colon case).  No byte of the address takes part in the output. *)
Theorem C07_address_absent : forall pre w post,
  matches addr_spec w -> left_ok pre -> right_ok post -> ~ dotted_run pre w ->
  exists a b sp1 sp2 rest,
    replaced_spans (pre ++ w ++ post) = sp1 ++ (a, b) :: sp2 /\ a <= length pre /\
    scrub full_patterns (pre ++ w ++ post) = render (firstn a pre) 0 sp1 ++ scrubbed ++ render rest b sp2 /\
    ((length pre + length w <= b /\ rest = skipn (b - (length pre + length w)) post) \/
     (b + 1 = length pre + length w /\ rest = 58%N :: post /\ colon_ws w post)).
Proof. exact address_absent. Qed.

(* common/event (EventOnOfferCreated, EventOnBrokerRendezvous, EventOnSnowflakeConnectionFailed): String() is a
   fixed text followed by Scrub of the error text; no byte of a delimited address of the error text takes part in it.
   (The client hands these strings to tor's log with pt.Log; lib/checks/c07.py builds the error chains of Go's
   net / net/url packages and compares String() with event_string.) *)
Theorem C07_event_string_covered : forall ty pre w post,
  matches addr_spec w -> left_ok pre -> right_ok post -> ~ dotted_run pre w ->
  exists a b sp1 sp2 rest,
    replaced_spans (pre ++ w ++ post) = sp1 ++ (a, b) :: sp2 /\ a <= length pre /\
    event_string full_patterns ty (pre ++ w ++ post) =
      event_prefix ty ++ render (firstn a pre) 0 sp1 ++ scrubbed ++ render rest b sp2 /\
    ((length pre + length w <= b /\ rest = skipn (b - (length pre + length w)) post) \/
     (b + 1 = length pre + length w /\ rest = 58%N :: post /\ colon_ws w post)).
Proof.
  intros ty pre w post Hw Hl Hr Hnd.
  destruct (address_absent pre w post Hw Hl Hr Hnd) as (a & b & sp1 & sp2 & rest & Esp & Ha & Eout & Hrest).
  exists a, b, sp1, sp2, rest. repeat split; auto.
  unfold event_string. rewrite Eout. reflexivity.
Qed.

(* the writer: what reaches the sink depends only on the concatenation of the writes; it is the
   per-line scrubbed image of the complete lines, in order; the rest stays buffered *)
Theorem C07_write_split_invariant : forall ws,
  run_writes (write (scrub full_patterns)) [] ws =
    (map (scrub full_patterns) (fst (split_lines (concat ws))), snd (split_lines (concat ws))).
Proof. exact (write_split_invariant (scrub full_patterns)). Qed.

Theorem C07_write_split_independent : forall ws1 ws2,
  concat ws1 = concat ws2 ->
  run_writes (write (scrub full_patterns)) [] ws1 = run_writes (write (scrub full_patterns)) [] ws2.
Proof. exact (write_split_independent (scrub full_patterns)). Qed.

(* ---- buffer ownership: for every history of calls - whatever the caller's array holds outside the slices passed and
   whatever the caller does to it between the calls - the sink's content and the pending bytes are those of the
   value-level writer on the bytes passed; the writer's state never refers to the caller's memory (it is `Own`) *)
Theorem C07_write_no_retention : forall h,
  run_mem (write_own (scrub full_patterns)) (Own []) h =
    (fst (run_writes (write (scrub full_patterns)) [] (passed h)),
     Own (snd (run_writes (write (scrub full_patterns)) [] (passed h)))).
Proof. exact (write_no_retention (scrub full_patterns)). Qed.

(* ... hence two histories that pass the same stream of bytes, split and placed in memory in any way, are
   indistinguishable *)
Theorem C07_write_values_only : forall h1 h2,
  concat (passed h1) = concat (passed h2) ->
  run_mem (write_own (scrub full_patterns)) (Own []) h1 = run_mem (write_own (scrub full_patterns)) (Own []) h2.
Proof. exact (write_values_only (scrub full_patterns)). Qed.

(* the delivery executed by the tie (one scratch array, overwritten after every call) *)
Theorem C07_write_scratch_delivery : forall ws,
  run_scratch (scrub full_patterns) ws = run_writes (write (scrub full_patterns)) [] ws.
Proof. exact (run_scratch_spec (scrub full_patterns)). Qed.

(* a writer that keeps the pending partial line as a view of the caller's array (no copy when nothing is pending),
   a caller that refills one array of 25 bytes: "up: " | "2001:db8::1 is reachable\n"  ->  "20012001:db8::1 is reachable\n"
   (frozen patterns of Model/SafelogRound2.v; the copying writer on the same history scrubs the address) *)
Theorem C07_retaining_writer_refuted :
  exists h pre w post junk,
    passed h = [pre; w ++ post] /\ (forall m n, In (m, n) h -> length m = 25) /\
    matches addr_spec w /\ left_ok pre /\ right_ok post /\
    fst (run_writes (write sc2) [] (passed h)) = [pre ++ scrubbed ++ post] /\
    fst (run_mem (write_own sc2) (Own []) h) = [pre ++ scrubbed ++ post] /\
    fst (run_mem (write_retain sc2) (Own []) h) = [junk ++ w ++ post].
Proof. exact retaining_writer_refuted. Qed.

Theorem C07_complete_lines : forall ws outs pend,
  run_writes (write (scrub full_patterns)) [] ws = (outs, pend) ->
  exists lines, outs = map (scrub full_patterns) lines /\ Forall is_line lines /\
                concat lines ++ pend = concat ws /\ no_nl pend.
Proof. exact (write_complete_lines (scrub full_patterns)). Qed.

(* writer and scrubber together, for every sequence of Write calls (= every splitting of the stream and
   every order in which concurrent writers obtain the mutex) *)
Theorem C07_end_to_end : forall ws outs pend,
  run_writes (write (scrub full_patterns)) [] ws = (outs, pend) ->
  exists lines,
    outs = map (fun l => render l 0 (replaced_spans l)) lines /\
    Forall is_line lines /\ concat lines ++ pend = concat ws /\ no_nl pend /\
    forall l pre w post, In l lines -> l = pre ++ w ++ post ->
      matches addr_spec w -> left_ok pre -> right_ok post ->
      exists a b, In (a, b) (replaced_spans l) /\ a < length pre + length w /\ length pre < b.
Proof.
  intros ws outs pend H. destruct (written_lines ws outs pend H) as (lines & Ho & Hl & Hc & Hp).
  exists lines. repeat split; auto.
  intros l pre w post _ -> Hw Hlo Hro. apply hides_all; auto.
Qed.

(* ... and with coverage instead of overlap *)
Theorem C07_end_to_end_covered : forall ws outs pend,
  run_writes (write (scrub full_patterns)) [] ws = (outs, pend) ->
  exists lines,
    outs = map (fun l => render l 0 (replaced_spans l)) lines /\
    Forall is_line lines /\ concat lines ++ pend = concat ws /\ no_nl pend /\
    forall l pre w post, In l lines -> l = pre ++ w ++ post ->
      matches addr_spec w -> left_ok pre -> right_ok post -> ~ dotted_run pre w ->
      exists a b, In (a, b) (replaced_spans l) /\ a <= length pre /\
                  (length pre + length w <= b \/ (b + 1 = length pre + length w /\ colon_ws w post)).
Proof.
  intros ws outs pend H. destruct (written_lines ws outs pend H) as (lines & Ho & Hl & Hc & Hp).
  exists lines. repeat split; auto.
  intros l pre w post _ -> Hw Hlo Hro Hnd. apply covers_all; auto.
Qed.

(* a scrubbed line still ends with its newline: every block the sink receives ends with '\n' *)
Theorem C07_block_ends_with_newline : forall l, is_line l ->
  exists body', scrub full_patterns l = body' ++ [NL].
Proof.
  intros l (body & El & _). subst l. rewrite scrub_is_scrub1, the_full_eq.
  apply (scrub1_keeps_nl pat_L pat_A pat_R pat_ok c_nlA).
Qed.

Theorem C07_line_local : forall a b,
  scrub_stream (scrub full_patterns) ((a ++ [NL]) ++ b) =
  scrub_stream (scrub full_patterns) (a ++ [NL]) ++ scrub_stream (scrub full_patterns) b.
Proof. exact (scrub_stream_line_local (scrub full_patterns)). Qed.

(* ---- the pinned code violates the property *)

(* the second of two addresses separated by one delimiter survives, with its context *)
Theorem C07_v0_refuted :
  exists pre w post out_pre,
    matches addr_spec w /\ left_ok pre /\ right_ok post /\
    sc0 (pre ++ w ++ post) = out_pre ++ w ++ post.
Proof.
  exists (bs "1.2.3.4 "), (bs "5.6.7.8"), [10%N], (bs "[scrubbed] ").
  split; [apply spec_word; vm_compute; reflexivity|].
  split; [right; exists (bs "1.2.3.4"), 32%N; split; reflexivity|].
  split; [right; exists 10%N, []; split; reflexivity|].
  vm_compute. reflexivity.
Qed.

(* an accepted spelling outside the pinned pattern is not touched at all *)
Theorem C07_v0_refuted_seven_groups :
  exists w post, matches addr_spec w /\ right_ok post /\ sc0 (w ++ post) = w ++ post.
Proof.
  exists (bs "::a:b:c:d:e:f:abcd"), [10%N].
  split; [apply spec_word; vm_compute; reflexivity|].
  split; [right; exists 10%N, []; split; reflexivity|].
  vm_compute. reflexivity.
Qed.

Theorem C07_v0_spec_not_included : exists w, matches addr_spec w /\ ~ matches pinned_address_pattern w.
Proof.
  exists (bs "[::1:2:3:4:5:6:7]").
  split; [apply spec_word; vm_compute; reflexivity|].
  intros H. apply derivs_correct in H. vm_compute in H. discriminate.
Qed.

(* two lines in one Write: the address at the start of the second line survives *)
Theorem C07_v0_refuted_multiline :
  exists w, matches addr_spec w /\
    fst (run_writes (write_v0 sc0) [] [bs "1.2.3.4" ++ [10%N] ++ w ++ [10%N]]) = [bs "[scrubbed]" ++ [10%N] ++ w ++ [10%N]].
Proof.
  exists (bs "5.6.7.8").
  split; [apply spec_word; vm_compute; reflexivity|].
  vm_compute. reflexivity.
Qed.

(* the same byte stream, split differently into Write calls, gives a different output *)
Theorem C07_v0_split_dependent :
  exists ws1 ws2, concat ws1 = concat ws2 /\
    concat (fst (run_writes (write_v0 sc0) [] ws1)) <> concat (fst (run_writes (write_v0 sc0) [] ws2)).
Proof.
  exists [bs "1.2.3.4" ++ [10%N] ++ bs "5.6.7.8" ++ [10%N]], [bs "1.2.3.4" ++ [10%N]; bs "5.6.7.8" ++ [10%N]].
  split; [reflexivity|]. vm_compute. discriminate.
Qed.

(* ---- the current patterns: the two exclusions of C07_covers_all cannot be dropped *)

(* "1.2.3." "4.5.6.7" " x"  ->  "[scrubbed].5.6.7 x" *)
Theorem C07_r2_dotted_run_refuted :
  exists pre w post,
    matches addr_spec w /\ left_ok pre /\ right_ok post /\ dotted_run pre w /\
    sc2 (pre ++ w ++ post) = scrubbed ++ skipn 1 w ++ post.
Proof.
  exists (bs "1.2.3."), (bs "4.5.6.7"), (bs " x").
  split; [apply spec_word; vm_compute; reflexivity|].
  split; [right; exists (bs "1.2.3"), 46%N; split; reflexivity|].
  split; [right; exists 32%N, (bs "x"); split; reflexivity|].
  split.
  - split.
    + apply matchb_sound; vm_compute; reflexivity.
    + exists (bs "1.2."), 51%N. split; reflexivity.
  - vm_compute. reflexivity.
Qed.

(* "1:2:3:4:5:6:7::" " x"  ->  "[scrubbed]: x" *)
Theorem C07_r2_last_colon_survives :
  exists w post,
    matches addr_spec w /\ right_ok post /\ colon_ws w post /\
    sc2 (w ++ post) = scrubbed ++ [58%N] ++ post.
Proof.
  exists (bs "1:2:3:4:5:6:7::"), (bs " x").
  split; [apply spec_word; vm_compute; reflexivity|].
  split; [right; exists 32%N, (bs "x"); split; reflexivity|].
  split.
  - split; [exists (bs "1:2:3:4:5:6:7:"); reflexivity|exists 32%N, (bs "x"); split; reflexivity].
  - vm_compute. reflexivity.
Qed.

(* ---- the hypotheses of the implications are satisfiable *)

(* a dotted quad after a word ending in '.', and an IPv6 address after a dotted number: both inside the theorem *)
Example C07_covers_all_nonvacuous :
  (exists pre w post, matches addr_spec w /\ left_ok pre /\ right_ok post /\ ~ dotted_run pre w /\
                      ~ colon_ws w post /\ matches v4forms w /\ pre <> [] /\ post <> []) /\
  (exists pre w post, matches addr_spec w /\ left_ok pre /\ right_ok post /\ ~ dotted_run pre w /\
                      colon_ws w post).
Proof.
  split.
  - exists (bs "host."), (bs "1.2.3.4:80"), (bs ".").
    split; [apply spec_word; vm_compute; reflexivity|].
    split; [right; exists (bs "host"), 46%N; split; reflexivity|].
    split; [right; exists 46%N, []; split; reflexivity|].
    split.
    { intros (_ & pre' & d & E & Hd). apply (f_equal (@rev N)) in E. rewrite rev_app_distr in E.
      simpl in E. inversion E; subst. vm_compute in Hd. discriminate. }
    split.
    { intros (_ & z & post' & E & Hz). inversion E; subst. vm_compute in Hz. discriminate. }
    split; [apply matchb_sound; vm_compute; reflexivity|]. split; discriminate.
  - exists (bs "v1.2."), (bs "1:2:3:4:5:6:7::"), (bs " x").
    split; [apply spec_word; vm_compute; reflexivity|].
    split; [right; exists (bs "v1.2"), 46%N; split; reflexivity|].
    split; [right; exists 32%N, (bs "x"); split; reflexivity|].
    split.
    { intros (Hv & _). apply derivs_correct in Hv. vm_compute in Hv. discriminate. }
    split; [exists (bs "1:2:3:4:5:6:7:"); reflexivity|exists 32%N, (bs "x"); split; reflexivity].
Qed.

(* some occurrences inside the excluded class are covered all the same (the exclusion is sufficient, not exact) *)
Example C07_r2_dotted_run_sometimes_covered :
  sc2 (bs "a 1.2.3.4.5.6.7.8 ") = bs "a [scrubbed].[scrubbed] ".
Proof. vm_compute. reflexivity. Qed.

Example C07_event_string_example :
  event_string full_patterns 1 (bs "dial tcp: lookup x.example on [2001:db8::53]:53: no such host") =
  bs "broker failure dial tcp: lookup x.example on [scrubbed]: no such host".
Proof. vm_compute. reflexivity. Qed.

Example C07_disj_nonvacuous : RegexDisj.disj rest_spec (after gA rest_spec) = true.
Proof. exact g_K2. Qed.


Example C07_hides_all_nonvacuous :
  exists pre w post, matches addr_spec w /\ left_ok pre /\ right_ok post /\ pre <> [] /\ post <> [].
Proof.
  exists (bs "x "), (bs "::1"), [32%N].
  split; [apply spec_word; vm_compute; reflexivity|].
  split; [right; exists (bs "x"), 32%N; split; reflexivity|].
  split; [right; exists 32%N, []; split; reflexivity|].
  split; discriminate.
Qed.

(* the repaired algorithm on the inputs of the C07_v0_* witnesses *)
Example C07_fixed_examples :
  sc (bs "1.2.3.4 5.6.7.8" ++ [10%N]) = bs "[scrubbed] [scrubbed]" ++ [10%N] /\
  sc (bs "::a:b:c:d:e:f:abcd" ++ [10%N]) = bs "[scrubbed]" ++ [10%N] /\
  sc (bs "[1:2:3:4:5:6:abcd::]:80 y" ++ [10%N]) = bs "[scrubbed] y" ++ [10%N] /\
  concat (fst (run_writes (write sc) [] [bs "1.2.3.4" ++ [10%N] ++ bs "5.6.7.8" ++ [10%N]])) =
    bs "[scrubbed]" ++ [10%N] ++ bs "[scrubbed]" ++ [10%N].
Proof. vm_compute. repeat split; reflexivity. Qed.

Example C07_split_nonvacuous :
  concat [bs "a 1.2."; bs "3.4" ++ [NL] ++ bs "::1 "; bs "x" ++ [NL]] = concat [bs "a 1.2.3.4" ++ [NL]; bs "::1 x" ++ [NL]] /\
  fst (run_writes (write sc) [] [bs "a 1.2."; bs "3.4" ++ [NL] ++ bs "::1 "; bs "x" ++ [NL]]) =
    [bs "a [scrubbed]" ++ [NL]; bs "[scrubbed] x" ++ [NL]].
Proof. vm_compute. split; reflexivity. Qed.

(* a history whose arrays differ outside the slices passed and are overwritten between the calls *)
Example C07_no_retention_nonvacuous :
  passed [(bs "a 1.2.777", 6); (bs "3.4" ++ [NL] ++ bs "x7", 5)] = [bs "a 1.2."; bs "3.4" ++ [NL] ++ bs "x"] /\
  run_mem (write_own sc) (Own []) [(bs "a 1.2.777", 6); (bs "3.4" ++ [NL] ++ bs "x7", 5)] =
    ([bs "a [scrubbed]" ++ [NL]], Own (bs "x")) /\
  concat (passed [(bs "a 1.2.3.4" ++ [NL] ++ bs "x", 11)]) =
    concat (passed [(bs "a 1.2.777", 6); (bs "3.4" ++ [NL] ++ bs "x7", 5)]).
Proof. vm_compute. repeat split; reflexivity. Qed.

Example C07_incl_nonvacuous : RegexIncl.incl addr_spec pat_A = true.
Proof. exact c_inclA. Qed.

Example C07_lines_nonvacuous : is_line (bs "1.2.3.4" ++ [NL]) /\
  run_writes (write sc) [] [bs "1.2."; bs "3.4" ++ [NL] ++ bs "x"] = ([bs "[scrubbed]" ++ [NL]], bs "x").
Proof.
  split; [exists (bs "1.2.3.4"); split; [reflexivity|vm_compute; intuition discriminate]|].
  vm_compute. reflexivity.
Qed.

(* ---------------------------------------------------------------- a sink that fails (Model/ScrubFail.v)
   LogScrubber.Write leaves its buffer untouched when the sink's Write returns an error: the complete lines are offered again
   with the next Write.  A write is (bytes, ok); the output is what the sink ACCEPTED.  A failing sink only delays: the accepted
   output is that of the merged writes on a sink that never fails, so every theorem above carries over - in particular only
   scrubbed complete lines are ever accepted and nothing is lost.  Tie: op `writef` (a sink whose first call takes k bytes and
   fails; every line reaching the sink afterwards must be the scrubbed form of a complete line of the input). *)
Theorem C07_failing_sink_delays_only : forall ws,
  run_writes_f (scrub full_patterns) [] ws =
  (let (m, c) := merge_writes [] ws in
   let (o, p) := run_writes (write (scrub full_patterns)) [] m in (o, p ++ c)).
Proof. exact (failing_sink_delays_only (scrub full_patterns)). Qed.

Theorem C07_failing_sink_complete_lines : forall ws outs pend,
  run_writes_f (scrub full_patterns) [] ws = (outs, pend) ->
  exists lines, outs = map (scrub full_patterns) lines /\ Forall is_line lines /\
                concat lines ++ pend = concat (map fst ws).
Proof. exact (failing_sink_complete_lines (scrub full_patterns)). Qed.

(* "a 1.2.3.4\n" offered to a failing sink, then "b\n" to a working one: both lines are accepted then, the address scrubbed *)
Example C07_failing_sink_example :
  run_writes_f (scrub full_patterns) [] [(bs "a 1.2.3.4" ++ [10%N], false); (bs "b" ++ [10%N], true)] =
  ([bs "a [scrubbed]" ++ [10%N]; bs "b" ++ [10%N]], []).
Proof. vm_compute. reflexivity. Qed.
