(* C06 — Proxies relay only to bridges inside their accepted pattern.
   Statements with short derivations from the lemmas of Proofs/NameMatcherProofs.v, BrokerGateProofs.v, RelayHistoryProofs.v,
   ProxyRelayProofs.v, ProxyMainProofs.v.
   Models: Model/NameMatcher.v (common/namematcher/matcher.go as written),
           Model/RelayCheck.v  (broker CheckProxyRelayPattern/ProxyPolls decision; proxy runSession decision),
           Model/BrokerGate.v  (the gate in front of the matching machine of Model/Broker.v; the BrokerContext as
                                ProxyPolls sees it: request bodies through the wire decoder of Model/Messages.v,
                                counters, matching core, re-installations),
           Model/ProxyRelay.v  (relay URL string -> check -> string handed to the dialer -> dial target; one
                                SnowflakeProxy over its sessions),
           Model/ProxyMain.v   (main() of the proxy binary: command line -> configuration of that SnowflakeProxy).
   Strings are arbitrary [list N] (all byte strings and more); patterns are arbitrary too
   (with/without ^ and $, empty, ^/$ in the middle). *)
From Coq Require Import List NArith Bool Arith String.
From Snow Require Import Lib.Wire Lib.WireFacts Model.NameMatcher Model.RelayCheck Proofs.NameMatcherProofs.
From Snow Require Import Model.JsonBoundary Model.Messages Model.Broker Model.BrokerGate Proofs.BrokerGateProofs.
From Snow Require Import Proofs.RelayHistoryProofs.
From Snow Require Import Model.ProxyRelay Proofs.ProxyRelayProofs.
From Snow Require Import Model.ProxyMain Proofs.ProxyMainProofs.
Import ListNotations.
Open Scope N_scope.

(* ---- the matcher ---- *)

(* A pattern judged a superset of another accepts every hostname the other accepts. *)
Theorem C06_superset_sound : forall (a b : matcher) (s : bytes),
  is_superset_of a b = true -> is_member b s = true -> is_member a s = true.
Proof. exact superset_sound. Qed.

(* The same at the level of rule strings, for all rule strings. *)
Theorem C06_superset_sound_rules : forall (ra rb s : bytes),
  is_superset_of (new_matcher ra) (new_matcher rb) = true ->
  rule_accepts rb s = true -> rule_accepts ra s = true.
Proof. intros ra rb s. unfold rule_accepts. apply superset_sound. Qed.

(* The judgement is exact: it holds iff the accepted sets are included (so a broker never
   rejects a proxy whose pattern does cover the allowed one). *)
Theorem C06_superset_is_inclusion : forall a b : matcher,
  is_superset_of a b = true <-> (forall s, is_member b s = true -> is_member a s = true).
Proof. exact superset_iff_inclusion. Qed.

(* What a rule accepts: "^x$" exactly x; "x$" (x not starting with ^) every string ending in x. *)
Theorem C06_rule_anchored : forall x s : bytes,
  rule_accepts (CARET :: x ++ [DOLLAR]) s = true <-> s = x.
Proof. intros x s. unfold rule_accepts. rewrite new_matcher_anchored. apply is_member_exact. Qed.

Theorem C06_rule_suffix : forall x s : bytes, starts_with_caret x = false ->
  (rule_accepts (x ++ [DOLLAR]) s = true <-> exists p, s = p ++ x).
Proof. intros x s Hx. unfold rule_accepts. rewrite new_matcher_suffix by exact Hx. apply is_member_suffix. Qed.

(* ---- the broker's decision ---- *)

(* A poll goes on to be registered only if its pattern (for legacy polls: the operator's presumed
   pattern) is judged a superset of the allowed pattern; otherwise it is answered with the
   rejection status.  Equivalently: only if every hostname allowed by the broker is accepted by
   the pattern the poll is judged by. *)
Theorem C06_broker_rejects : forall (cfg : broker_cfg) (pat : option bytes),
  is_superset_of (new_matcher (effective_pattern cfg pat)) (new_matcher (allowed_pattern cfg)) = false ->
  broker_accepts_poll cfg pat = false.
Proof. exact broker_rejects. Qed.

Theorem C06_broker_accepts_iff_inclusion : forall (cfg : broker_cfg) (pat : option bytes),
  broker_accepts_poll cfg pat = true <->
  (forall host, rule_accepts (allowed_pattern cfg) host = true ->
                rule_accepts (effective_pattern cfg pat) host = true).
Proof. exact broker_accepts_iff_inclusion. Qed.

(* Legacy polls (field absent or null) are judged by the presumed pattern, whatever else they carry. *)
Theorem C06_legacy_presumed : forall cfg : broker_cfg,
  broker_accepts_poll cfg None = broker_accepts_poll cfg (Some (presumed_pattern cfg)).
Proof. intro cfg. reflexivity. Qed.

(* ---- the proxy's decision ---- *)

(* The session proceeds towards a relay dial of the broker-supplied URL only if the URL parsed,
   its hostname is a member of the proxy's own pattern, and its scheme is wss unless non-TLS
   relays were explicitly allowed (and conversely). *)
Theorem C06_proxy_never_dials : forall (cfg : proxy_cfg) (raw : bytes) (pu : parsed_url),
  proxy_relay_decision cfg raw pu = DialBrokerURL <->
  raw <> [] /\ exists scheme host, pu = Parsed scheme host
     /\ is_member (new_matcher (relay_pattern cfg)) host = true
     /\ (allow_non_tls cfg = true \/ scheme = WSS).
Proof. exact proxy_dial_broker_iff. Qed.

(* The only other way to proceed: the broker supplied the empty URL; then the operator's own
   configured relay URL is dialled, never anything the broker chose. *)
Theorem C06_proxy_configured_only_on_empty_url : forall (cfg : proxy_cfg) (raw : bytes) (pu : parsed_url),
  proxy_relay_decision cfg raw pu = DialConfigured <-> raw = [] /\ pu <> ParseError.
Proof. exact proxy_dial_configured_iff. Qed.

Theorem C06_proxy_parse_error_refused : forall (cfg : proxy_cfg) (raw : bytes),
  proxy_relay_decision cfg raw ParseError = Refuse.
Proof. reflexivity. Qed.

(* Composition: with an honest broker (poll accepted, bridge hostname inside the allowed pattern,
   wss) the proxy does not refuse — the checks are not satisfied by refusing everything. *)
Theorem C06_honest_broker_not_refused : forall (bcfg : broker_cfg) (pcfg : proxy_cfg) (raw host : bytes),
  broker_accepts_poll bcfg (Some (relay_pattern pcfg)) = true ->
  rule_accepts (allowed_pattern bcfg) host = true ->
  proxy_relay_decision pcfg raw (Parsed WSS host) <> Refuse.
Proof.
  intros bcfg pcfg raw host Hacc Hhost.
  pose proof (proj1 (broker_accepts_iff_inclusion bcfg (Some (relay_pattern pcfg))) Hacc host Hhost) as Hm.
  cbn [effective_pattern] in Hm. unfold rule_accepts in Hm.
  rewrite proxy_relay_decision_eq, Hm, beq_refl, orb_true_r. destruct (beq raw []); discriminate.
Qed.

(* ---- the hypotheses are satisfiable (non-vacuity) ---- *)

Example C06_superset_sound_nonvacuous :
  is_superset_of (new_matcher (bs "torproject.net$")) (new_matcher (bs "^snowflake.torproject.net$")) = true
  /\ is_member (new_matcher (bs "^snowflake.torproject.net$")) (bs "snowflake.torproject.net") = true
  /\ is_superset_of (new_matcher (bs "snowflake.torproject.net$")) (new_matcher (bs "02.snowflake.torproject.net$")) = true
  /\ is_member (new_matcher (bs "02.snowflake.torproject.net$")) (bs "x02.snowflake.torproject.net") = true.
Proof. vm_compute. repeat split. Qed.

Example C06_rule_suffix_nonvacuous : starts_with_caret (bs "snowflake.torproject.net") = false.
Proof. reflexivity. Qed.

Example C06_broker_rejects_nonvacuous :
  let cfg := mk_broker_cfg (bs "snowflake.torproject.net$") (bs "^snowflake.torproject.net$") in
  is_superset_of (new_matcher (effective_pattern cfg (Some (bs "^evil.net$")))) (new_matcher (allowed_pattern cfg)) = false
  /\ broker_accepts_poll cfg None = false                         (* presumed exact pattern does not cover the suffix pattern *)
  /\ broker_accepts_poll cfg (Some (bs "torproject.net$")) = true.
Proof. vm_compute. repeat split. Qed.

Example C06_proxy_decisions_nonvacuous :
  let cfg := mk_proxy_cfg (bs "snowflake.torproject.net$") false in
  proxy_relay_decision cfg (bs "wss://snowflake.torproject.net/") (Parsed (bs "wss") (bs "snowflake.torproject.net")) = DialBrokerURL
  /\ proxy_relay_decision cfg (bs "ws://snowflake.torproject.net/") (Parsed (bs "ws") (bs "snowflake.torproject.net")) = Refuse
  /\ proxy_relay_decision cfg (bs "wss://good@evil.net/") (Parsed (bs "wss") (bs "evil.net")) = Refuse
  /\ proxy_relay_decision cfg [] (Parsed [] []) = DialConfigured.
Proof. vm_compute. repeat split. Qed.

Example C06_honest_broker_nonvacuous :
  let bcfg := mk_broker_cfg (bs "^snowflake.torproject.net$") (bs "") in
  let pcfg := mk_proxy_cfg (bs "snowflake.torproject.net$") false in
  broker_accepts_poll bcfg (Some (relay_pattern pcfg)) = true
  /\ rule_accepts (allowed_pattern bcfg) (bs "snowflake.torproject.net") = true.
Proof. vm_compute. repeat split. Qed.

(* ---- the gate composed with the matching machine (Model/Broker.v): "never gives such a proxy a client" ----
   A proxy poll enters the matching machine only through the relay-pattern gate. A poll whose pattern (for a
   legacy poll: the presumed pattern) is not judged a superset of the allowed pattern is answered with the
   rejection and changes NOTHING: no entry, no heap membership, no id-map binding exists for it, so by C02
   (clients are only ever stored in entries) no client offer can reach it, in any continuation. *)

Theorem C06_rejected_poll_changes_nothing : forall cfg v s sd n pt cl pat,
  broker_accepts_poll cfg pat = false ->
  gstep cfg v s (G_ProxyPoll sd n pt cl pat) = Some (s, Some RejectedPattern).
Proof. intros cfg v s sd n pt cl pat H. cbn [gstep]. rewrite H. reflexivity. Qed.

Theorem C06_registered_only_if_superset : forall cfg v s sd n pt cl pat s',
  gstep cfg v s (G_ProxyPoll sd n pt cl pat) = Some (s', Some Registered) ->
  broker_accepts_poll cfg pat = true /\ List.length (entries s') = S (List.length (entries s)).
Proof.
  intros cfg v s sd n pt cl pat s'.
  cbn [gstep]. destruct (broker_accepts_poll cfg pat); [|discriminate].
  cbn [step option_map]. intros H. injection H as <-. split; [reflexivity|]. cbn. rewrite app_length. cbn. apply Nat.add_1_r.
Qed.

Theorem C06_gated_machine_refines_broker : forall cfg v s g s' r,
  gstep cfg v s g = Some (s', r) -> s' = s \/ exists l, step v s l = Some s'.
Proof. exact gstep_refines. Qed.

(* ---- histories: the decisions do not depend on earlier requests ----
   Model/RelayCheck.v broker_run: one broker context over any sequence of polls (pattern-carrying, legacy) and
   re-installations of the patterns; proxy_run: one proxy over any sequence of broker-supplied relay URLs.
   The correspondence check drives ONE long-lived BrokerContext / SnowflakeProxy through such sequences and
   compares every answer with these runs (ops pollseq, urlseq, urlseqfull). *)

(* The answer to a poll at any position of any history is the decision for that poll alone under the
   patterns then in force ... *)
Theorem C06_broker_history_independent : forall (cfg : broker_cfg) (pre : list broker_event) (pat : option bytes)
                                                (post : list broker_event),
  nth_error (broker_run cfg (pre ++ EvPoll pat :: post)) (List.length pre)
  = Some (Some (broker_accepts_poll (broker_cfg_after cfg pre) pat)).
Proof. exact broker_poll_answer_at. Qed.

(* ... which are those of the latest installation: nothing that happened before it, and no poll answered
   since, has any influence. *)
Theorem C06_broker_decision_follows_latest_install :
  forall (cfg0 : broker_cfg) (before : list broker_event) (c : broker_cfg) (polls : list broker_event)
         (pat : option bytes) (post : list broker_event),
  forallb is_poll polls = true ->
  nth_error (broker_run cfg0 (before ++ EvInstall c :: polls ++ EvPoll pat :: post))
            (List.length before + S (List.length polls))
  = Some (Some (broker_accepts_poll c pat)).
Proof. exact broker_poll_answer_after_install. Qed.

(* With fixed patterns the run of the context is the pointwise image of the single-poll decision. *)
Theorem C06_broker_run_is_map : forall (cfg : broker_cfg) (pats : list (option bytes)),
  broker_run cfg (map EvPoll pats) = map (fun pat => Some (broker_accepts_poll cfg pat)) pats.
Proof. intros cfg pats. induction pats as [|p r IH]; cbn; [reflexivity|]. rewrite IH. reflexivity. Qed.

(* A poll whose (effective) pattern is not a superset of the allowed pattern is rejected after ANY history. *)
Theorem C06_broker_rejects_after_any_history : forall (cfg : broker_cfg) (pre : list broker_event) (pat : option bytes)
                                                      (post : list broker_event),
  let cur := broker_cfg_after cfg pre in
  is_superset_of (new_matcher (effective_pattern cur pat)) (new_matcher (allowed_pattern cur)) = false ->
  nth_error (broker_run cfg (pre ++ EvPoll pat :: post)) (List.length pre) = Some (Some false).
Proof.
  intros cfg pre pat post cur H. rewrite broker_poll_answer_at. fold cur.
  rewrite (broker_rejects cur pat H). reflexivity.
Qed.

(* The same through the matching machine: along any run of the gated machine from any state (any interleaving
   of polls, client offers, answers, timeouts) the reply to each label is a function of that label alone. *)
Theorem C06_gate_replies_history_independent : forall cfg v (gs : list glabel) s s' rs,
  grun cfg v s gs = Some (s', rs) -> rs = map (gate_reply cfg) gs.
Proof. exact grun_replies. Qed.

(* a poll whose pattern is not a superset is answered with the rejection at every point of every run *)
Theorem C06_gate_rejects_at_every_point : forall cfg v s (pre : list glabel) sd n pt cl pat (post : list glabel) s' rs,
  broker_accepts_poll cfg pat = false ->
  grun cfg v s (pre ++ G_ProxyPoll sd n pt cl pat :: post) = Some (s', rs) ->
  nth_error rs (List.length pre) = Some (Some RejectedPattern).
Proof.
  intros cfg v s pre sd n pt cl pat post s' rs Hrej H.
  rewrite (grun_replies _ _ _ _ _ _ H), map_app, nth_error_after by apply map_length. cbn. rewrite Hrej. reflexivity.
Qed.

(* One proxy over any sequence of relay URLs: each decision is the single-URL decision ... *)
Theorem C06_proxy_history_independent : forall (cfg : proxy_cfg) (pre : list relay_offer) (raw : bytes) (pu : parsed_url)
                                               (post : list relay_offer),
  nth_error (proxy_run cfg (pre ++ (raw, pu) :: post)) (List.length pre) = Some (proxy_relay_decision cfg raw pu).
Proof. exact proxy_decision_at. Qed.

Theorem C06_proxy_run_is_map : forall (cfg : proxy_cfg) (offers : list relay_offer),
  proxy_run cfg offers = map (fun o : relay_offer => proxy_relay_decision cfg (fst o) (snd o)) offers.
Proof. exact proxy_run_map. Qed.

(* ... so after any history the broker-supplied URL is dialled only if its hostname passes the proxy's own
   pattern and its scheme is wss unless non-TLS relays were explicitly allowed. *)
Theorem C06_proxy_never_dials_after_any_history : forall (cfg : proxy_cfg) (pre : list relay_offer) (raw : bytes)
                                                         (pu : parsed_url) (post : list relay_offer),
  nth_error (proxy_run cfg (pre ++ (raw, pu) :: post)) (List.length pre) = Some DialBrokerURL ->
  raw <> [] /\ exists scheme host, pu = Parsed scheme host
     /\ is_member (new_matcher (relay_pattern cfg)) host = true
     /\ (allow_non_tls cfg = true \/ scheme = WSS).
Proof.
  intros cfg pre raw pu post H. rewrite proxy_decision_at in H. injection H as H.
  apply proxy_dial_broker_iff. exact H.
Qed.

(* non-vacuity: one context through polls with and without the field and two re-installations (the answer to the
   poll without the field follows the installation in force, nothing else); the same polls through the gate; one
   proxy that refuses a ws:// URL between two wss:// URLs it dials *)
Example C06_broker_history_nonvacuous :
  let cfg := mk_broker_cfg (bs "snowflake.torproject.net$") (bs "snowflake.bamsoftware.com$") in
  let cfg2 := mk_broker_cfg (bs "snowflake.torproject.net$") (bs "torproject.net$") in
  broker_run cfg [EvPoll None; EvPoll (Some (bs "snowflake.bamsoftware.com$")); EvPoll (Some []); EvPoll None;
                  EvInstall cfg2; EvPoll None; EvInstall cfg; EvPoll None]
  = [Some false; Some false; Some true; Some false; None; Some true; None; Some false]
  /\ forallb is_poll [EvPoll (Some []); EvPoll None] = true
  /\ is_superset_of (new_matcher (effective_pattern (broker_cfg_after cfg [EvPoll (Some [])]) None))
                    (new_matcher (allowed_pattern (broker_cfg_after cfg [EvPoll (Some [])]))) = false.
Proof. vm_compute. repeat split. Qed.

Example C06_gate_history_nonvacuous :
  let cfg := mk_broker_cfg (bs "snowflake.torproject.net$") (bs "snowflake.bamsoftware.com$") in
  exists s' , grun cfg V1 (init [(7, 9)])
    [G_ProxyPoll 1 NatUnrestricted 1 0 None; G_ProxyPoll 2 NatUnrestricted 1 0 (Some []);
     G_ProxyPoll 3 NatUnrestricted 1 0 None]
    = Some (s', [Some RejectedPattern; Some Registered; Some RejectedPattern])
  /\ broker_accepts_poll cfg None = false.
Proof. eexists. vm_compute. split; reflexivity. Qed.

Example C06_proxy_history_nonvacuous :
  let cfg := mk_proxy_cfg (bs "snowflake.torproject.net$") false in
  let h := bs "01.snowflake.torproject.net" in
  proxy_run cfg [(bs "wss://01.snowflake.torproject.net/", Parsed (bs "wss") h);
                 (bs "ws://01.snowflake.torproject.net/", Parsed (bs "ws") h);
                 (bs "wss://01.snowflake.torproject.net/", Parsed (bs "wss") h)]
  = [DialBrokerURL; Refuse; DialBrokerURL].
Proof. vm_compute. reflexivity. Qed.

(* ==================================================================================================================
   The broker and the proxy as state machines with the state the code has (Model/BrokerGate.v, Model/ProxyRelay.v).
   The correspondence check runs exactly these machines (Run/NameMatcherRun.v ops gate, bseq, sess; adapters in
   Run/NameMatcherGate.v) against one long-lived BrokerContext / one SnowflakeProxy configured through Start().
   ================================================================================================================== *)

(* ---- broker: request bytes -> DecodeProxyPollRequestWithRelayPrefix -> CheckProxyRelayPattern -> registration ---- *)

(* The decoder reports a poll as relay-pattern aware exactly when the field is present and not null: the option
   handed to the gate is the field, whatever Version (or anything else in the request) says ... *)
Theorem C06_wire_awareness_is_field_presence : forall (v : json) sid ver ty nat n pat q,
  unmarshal poll_req_schema v = Some [VStr sid; VStr ver; VStr ty; VStr nat; VInt n; VPtr pat] ->
  decode_proxy_poll v = Ok q -> poll_pattern q = pat.
Proof. exact poll_pattern_is_field. Qed.

(* ... and the gate's verdict on it is what ProxyPolls computes: CheckProxyRelayPattern(relayPattern, !aware). *)
Theorem C06_wire_verdict_is_gate : forall (cfg : broker_cfg) (r : poll_req),
  broker_accepts_poll cfg (poll_pattern r) = check_proxy_relay_pattern cfg (pq_pattern r) (negb (pq_aware r)).
Proof. exact poll_label_verdict. Qed.

(* INVARIANT: the two patterns of a BrokerContext are written by InstallBridgeListProfile and by no other step
   (polls of any kind, malformed requests, client offers, answers, timeouts). *)
Theorem C06_broker_machine_config_invariant : forall v c ev c' r,
  bstep v c ev = Some (c', r) -> (forall cfg', ev <> B_Install cfg') -> b_cfg c' = b_cfg c.
Proof.
  intros v c ev c' r H N. rewrite (proj2 (bstep_reply_cfg _ _ _ _ _ H)). destruct ev; try reflexivity. exfalso. eapply N. reflexivity.
Qed.

(* Hence: in any run from any context (counters at any value, any proxies registered, any goroutines in flight),
   the reply to an event is the function [breply_of] of that event and of the patterns of the latest installation
   before it — for a poll: BadRequest when the body does not decode, else the verdict of CheckProxyRelayPattern. *)
Theorem C06_broker_machine_history_independent : forall v c pre ev post c' rs,
  brun v c (pre ++ ev :: post) = Some (c', rs) ->
  nth_error rs (List.length pre) = Some (breply_of (bcfg_after (b_cfg c) pre) ev).
Proof.
  intros v c pre ev post c' rs H. rewrite (brun_replies _ _ _ _ _ H), breplies_app.
  rewrite nth_error_app2 by (rewrite breplies_length; apply Nat.le_refl).
  rewrite breplies_length, Nat.sub_diag. reflexivity.
Qed.

(* two contexts that agree on the installed patterns answer every continuation alike *)
Theorem C06_broker_machine_state_irrelevant : forall v c1 c2 evs c1' c2' rs1 rs2,
  b_cfg c1 = b_cfg c2 ->
  brun v c1 evs = Some (c1', rs1) -> brun v c2 evs = Some (c2', rs2) -> rs1 = rs2.
Proof.
  intros v c1 c2 evs c1' c2' rs1 rs2 E H1 H2. rewrite (brun_replies _ _ _ _ _ H1), (brun_replies _ _ _ _ _ H2), E. reflexivity.
Qed.

(* A poll that is not admitted (rejected pattern, or malformed) leaves the matching core exactly as it was. *)
Theorem C06_broker_machine_rejected_changes_nothing : forall v c body c' r,
  bstep v c (B_Poll body) = Some (c', r) -> r <> PollReply Registered -> b_core c' = b_core c.
Proof. exact bstep_rejected_changes_nothing. Qed.

(* "... and never gives such a proxy a client": after ANY history on a broker context started without proxies,
   every entry of the matching core — the only place a client offer is ever put (C02) — was created by a poll
   that decoded and whose pattern (its own; for a poll without the field, the presumed one) was judged a superset
   of the allowed pattern under the installation in force when it arrived. *)
Theorem C06_broker_entries_are_admitted_polls : forall v cfg br evs c' rs,
  brun v (binit cfg br) evs = Some (c', rs) ->
  forall e, In e (entries (b_core c')) ->
  exists pre body post q, evs = pre ++ B_Poll body :: post /\ opt_decode decode_proxy_poll body = Ok q
    /\ sid_tag (pq_sid q) = e_sid e /\ broker_accepts_poll (bcfg_after cfg pre) (poll_pattern q) = true.
Proof.
  intros v cfg br evs c' rs H e He. apply (admitted_sids_sound evs cfg). pose proof (brun_sids _ _ _ _ _ H) as S. cbn in S.
  rewrite <- S. apply in_map. exact He.
Qed.

(* The history-free reading used above (broker_run) is the projection of the machine: its answers are the
   machine's replies to the polls that decode and to the re-installations. *)
Theorem C06_broker_machine_projects_to_run : forall v evs c c' rs,
  brun v c evs = Some (c', rs) ->
  flat_map abs_reply rs = broker_run (b_cfg c) (flat_map abs_event evs).
Proof. exact brun_projects_to_broker_run. Qed.

(* ---- proxy: relay URL string -> runSession check -> datachannelHandler -> websocket dialer ---- *)

(* THE DIALLED HOST IS THE CHECKED HOST.  [redial_preserves lib]: what is assumed of net/url (if a string parses and
   the string printed from that parse, client_ip set, parses again, scheme and host name are the same).  Then, when a
   session whose poll response carries the non-empty relay URL [raw] reaches the dialer and the dialer connects
   (ws_dial = DialTo tls h): h is the host name runSession extracted from raw and found in the proxy's pattern, and
   the connection uses TLS unless non-TLS relays were explicitly allowed. *)
Theorem C06_proxy_dials_checked_host : forall lib c raw ip t tls h,
  redial_preserves lib -> raw <> [] ->
  run_session lib c raw ip = SDial t -> ws_dial lib t = DialTo tls h ->
  exists sch, ul_parse lib raw = Parsed sch h
    /\ is_member (new_matcher (pc_pattern c)) h = true
    /\ (tls = true \/ pc_allow_non_tls c = true)
    /\ (tls = true <-> sch = WSS).
Proof. exact session_dials_checked_host. Qed.

(* The string handed to the dialer is printed from the parse of the very string that was checked (no library
   assumption), or — for an empty relay URL only — from the operator's own RelayURL. *)
Theorem C06_proxy_dial_string : forall lib c raw ip t,
  run_session lib c raw ip = SDial t ->
  (raw <> [] /\ t = ul_redial lib raw ip
   /\ exists sch h, ul_parse lib raw = Parsed sch h /\ is_member (new_matcher (pc_pattern c)) h = true
                    /\ (pc_allow_non_tls c = true \/ sch = WSS))
  \/ (raw = [] /\ t = ul_redial lib (pc_relay_url c) ip).
Proof. exact session_dial_string. Qed.

Theorem C06_proxy_empty_url_dials_configured : forall lib c ip t,
  run_session lib c [] ip = SDial t -> t = ul_redial lib (pc_relay_url c) ip.
Proof. intros lib c ip t H. apply session_dial_string in H. destruct H as [[N _]|[_ H]]; [contradiction|exact H]. Qed.

(* The test reads the pattern and the flag; RelayURL only for an empty relay URL; BrokerURL, NATProbeURL, STUNURL and
   ProxyType never: a broker-supplied URL equal to any configured string is judged like every other URL. *)
Theorem C06_proxy_session_reads_only_check_fields : forall lib c1 c2 raw ip,
  pc_pattern c1 = pc_pattern c2 -> pc_allow_non_tls c1 = pc_allow_non_tls c2 ->
  (raw = [] -> pc_relay_url c1 = pc_relay_url c2) ->
  run_session lib c1 raw ip = run_session lib c2 raw ip.
Proof.
  intros lib c1 c2 raw ip E1 E2 E3. unfold run_session, check_cfg, datachannel_handler. rewrite E1, E2.
  destruct (beq raw []) eqn:B; [|reflexivity]. apply beq_eq in B. rewrite (E3 B). reflexivity.
Qed.

(* INVARIANT: no step of the proxy (sessions, NAT re-tests) writes the configuration Start() left. *)
Theorem C06_proxy_machine_config_invariant : forall lib s ev, ps_conf (fst (pstep lib s ev)) = ps_conf s.
Proof. exact pstep_conf. Qed.

(* Hence from any state and after any history the outcome of a session is [run_session] of the configuration
   and that session's relay URL. *)
Theorem C06_proxy_machine_history_independent : forall lib s pre raw ip post,
  nth_error (snd (prun lib s (pre ++ P_Session raw ip :: post))) (List.length pre)
  = Some (Some (run_session lib (ps_conf s) raw ip)).
Proof. exact prun_outcome_at. Qed.

Theorem C06_proxy_machine_state_irrelevant : forall lib s1 s2 evs,
  ps_conf s1 = ps_conf s2 -> snd (prun lib s1 evs) = snd (prun lib s2 evs).
Proof. intros lib s1 s2 evs E. rewrite !prun_replies, E. reflexivity. Qed.

(* Over the whole life of a proxy: every string it ever hands to the dialer is printed from its own RelayURL, or
   makes the dialer connect (if at all) to a host inside the proxy's pattern, over TLS unless non-TLS was allowed. *)
Theorem C06_proxy_life_dials_sound : forall lib c evs t,
  redial_preserves lib -> In t (ps_dials (fst (prun lib (pinit c) evs))) -> dial_ok lib c t.
Proof. exact proxy_life_dials_sound. Qed.

Theorem C06_proxy_machine_projects_to_run : forall lib evs s,
  zip_abs evs (snd (prun lib s evs)) = proxy_run (check_cfg (ps_conf s)) (flat_map (abs_offer lib) evs).
Proof.
  intros lib evs s. rewrite prun_replies. generalize (ps_conf s). clear s. intros c.
  induction evs as [|ev r IH]; [reflexivity|]. cbn [map zip_abs flat_map].
  rewrite preply_abs, IH, !proxy_run_map, map_app. reflexivity.
Qed.

(* ---- non-vacuity ---- *)

Definition ex_poll_opt (sid ver : string) (pat : option string) : option json :=
  Some (JObj ([(bs "Sid", JStr (bs sid)); (bs "Version", JStr (bs ver)); (bs "Type", JStr (bs "standalone"));
               (bs "NAT", JStr (bs "unknown")); (bs "Clients", JNum (bs "0"))]
              ++ match pat with Some p => [(bs "AcceptedRelayPattern", JStr (bs p))] | None => [] end)).
Definition ex_poll (sid ver pat : string) : option json := ex_poll_opt sid ver (Some pat).
Definition ex_poll0 (sid ver : string) : option json := ex_poll_opt sid ver None.

(* one broker context (allowed: snowflake.torproject.net$, presumed pattern covering it): an explicit pattern that
   does not cover the allowed one is rejected also when the poll announces version 1.2 or 1.0; a poll without the
   field is judged by the presumed pattern; a malformed one is a bad request; the rejected polls leave no entry;
   after the presumed pattern is re-installed to one that does not cover, the poll without the field is rejected *)
Example C06_broker_machine_nonvacuous :
  let cfg := mk_broker_cfg (bs "snowflake.torproject.net$") (bs "torproject.net$") in
  let cfg2 := mk_broker_cfg (bs "snowflake.torproject.net$") (bs "snowflake.bamsoftware.com$") in
  exists c', brun V1 (binit cfg [(7, 9)])
    [B_Poll (ex_poll "s1" "1.2" "x.snowflake.torproject.net$"); B_Poll (ex_poll "s2" "1.0" "x.snowflake.torproject.net$");
     B_Poll (ex_poll0 "s3" "1.2"); B_Poll (ex_poll "s4" "1.0" "net$"); B_Poll (ex_poll "s5" "2.0" "net$");
     B_Poll None; B_Install cfg2; B_Poll (ex_poll0 "s6" "1.3"); B_Poll (ex_poll "s7" "1.3" "net$")]
    = Some (c', [PollReply RejectedPattern; PollReply RejectedPattern; PollReply Registered; PollReply Registered;
                 BadRequest; BadRequest; Installed; PollReply RejectedPattern; PollReply Registered])
  /\ map e_sid (entries (b_core c')) = [sid_tag (bs "s3"); sid_tag (bs "s4"); sid_tag (bs "s7")]
  /\ b_metrics c' = mk_bmetrics 4 2 3
  /\ b_cfg c' = cfg2.
Proof. eexists. vm_compute. repeat split. Qed.

Example C06_wire_awareness_nonvacuous :
  exists q, opt_decode decode_proxy_poll (ex_poll "s1" "1.2" "x$") = Ok q /\ poll_pattern q = Some (bs "x$")
  /\ exists q', opt_decode decode_proxy_poll (ex_poll0 "s1" "1.3") = Ok q' /\ poll_pattern q' = None.
Proof. eexists. split; [vm_compute; reflexivity|]. split; [reflexivity|]. eexists. split; [vm_compute; reflexivity|reflexivity]. Qed.

(* a library instance that keeps the contract, a proxy configured as Start() leaves it when nothing is given, and a
   life with: the broker-supplied URL equal to the proxy's own RelayURL (refused: its host is outside the pattern),
   a good wss URL (dialled, TLS, checked host), the same over ws (refused), the empty URL (own relay dialled) *)
Definition ex_table : list (bytes * parsed_url) :=
  [(bs "wss://snowflake.bamsoftware.com/", Parsed (bs "wss") (bs "snowflake.bamsoftware.com"));
   (redial_token (bs "wss://snowflake.bamsoftware.com/") [], Parsed (bs "wss") (bs "snowflake.bamsoftware.com"));
   (bs "wss://snowflake.torproject.net/", Parsed (bs "wss") (bs "snowflake.torproject.net"));
   (redial_token (bs "wss://snowflake.torproject.net/") [], Parsed (bs "wss") (bs "snowflake.torproject.net"));
   (bs "ws://snowflake.torproject.net/", Parsed (bs "ws") (bs "snowflake.torproject.net"));
   (redial_token (bs "ws://snowflake.torproject.net/") [], Parsed (bs "ws") (bs "snowflake.torproject.net"));
   ([], Parsed [] [])].
Definition ex_conf : proxy_conf :=
  mk_proxy_conf (bs "wss://snowflake.bamsoftware.com/") (bs "snowflake.torproject.net$") false
                (bs "https://snowflake-broker.torproject.net/") (bs "https://snowflake-broker.torproject.net:8443/probe")
                (bs "stun:stun.stunprotocol.org:3478") (bs "standalone").

Example C06_proxy_library_contract_nonvacuous : redial_preserves (table_lib ex_table).
Proof. apply table_lib_preserves. vm_compute. reflexivity. Qed.

Example C06_proxy_machine_nonvacuous :
  let lib := table_lib ex_table in
  let good := bs "wss://snowflake.torproject.net/" in
  snd (prun lib (pinit ex_conf)
         [P_Session (pc_relay_url ex_conf) []; P_Session good []; P_NatProbe (bs "restricted");
          P_Session (bs "ws://snowflake.torproject.net/") []; P_Session [] []; P_Session good []])
  = [Some SRefused; Some (SDial (redial_token good [])); None; Some SRefused;
     Some (SDial (redial_token (pc_relay_url ex_conf) [])); Some (SDial (redial_token good []))]
  /\ ws_dial lib (redial_token good []) = DialTo true (bs "snowflake.torproject.net")
  /\ good <> [].
Proof. vm_compute. repeat split. discriminate. Qed.

(* ==================================================================================================================
   The proxy BINARY: from the command line of /repo/proxy/main.go to the configuration its sessions run under
   (Model/ProxyMain.v: the struct literal of main(), the defaulting and the configuration checks of Start()).
   The correspondence check runs the real main() in-process, one process per command line, against a stub broker
   (Run/NameMatcherRun.v op mainrun, adapter in Run/NameMatcherMain.v; harness/overlay/proxy/zz_verif_c06_main_test.go).
   ================================================================================================================== *)

(* AllowNonTLSRelay of the proxy that main() starts is the -allow-non-tls-relay flag, nothing else: not -relay (whatever
   its scheme), not the pattern, not any other flag, not Start(). *)
Theorem C06_main_allow_non_tls_is_the_flag : forall f : proxy_flags,
  pc_allow_non_tls (proxy_config_of_flags f) = fl_allow_non_tls f.
Proof. exact main_allow_is_flag. Qed.

(* RelayDomainNamePattern is the -allowed-relay-hostname-pattern flag (snowflake.torproject.net$ when not given). *)
Theorem C06_main_pattern_is_the_flag : forall f : proxy_flags,
  pc_pattern (proxy_config_of_flags f) = flag_or DEFAULT_RELAY_PATTERN (fl_pattern f).
Proof. exact main_pattern_is_flag. Qed.

(* Two command lines that agree on those two flags run the same relay URL test. *)
Theorem C06_main_check_reads_two_flags : forall f1 f2 : proxy_flags,
  fl_pattern f1 = fl_pattern f2 -> fl_allow_non_tls f1 = fl_allow_non_tls f2 ->
  check_cfg (proxy_config_of_flags f1) = check_cfg (proxy_config_of_flags f2).
Proof. intros f1 f2 H1 H2. rewrite !main_check_cfg, H1, H2. reflexivity. Qed.

(* C06_proxy_never_dials read on the command line. *)
Theorem C06_main_never_dials : forall (f : proxy_flags) (raw : bytes) (pu : parsed_url),
  proxy_relay_decision (check_cfg (proxy_config_of_flags f)) raw pu = DialBrokerURL <->
  raw <> [] /\ exists scheme host, pu = Parsed scheme host
     /\ is_member (new_matcher (flag_or DEFAULT_RELAY_PATTERN (fl_pattern f))) host = true
     /\ (fl_allow_non_tls f = true \/ scheme = WSS).
Proof. intros f raw pu. rewrite main_check_cfg. apply proxy_dial_broker_iff. Qed.

(* END TO END: a proxy started WITHOUT -allow-non-tls-relay hands a broker-supplied relay URL to the dialer only when it
   is a wss URL whose host is inside the pattern flag — whatever its other flags ... *)
Theorem C06_main_without_flag_session : forall lib (f : proxy_flags) c raw ip t,
  proxy_main lib f = Some c -> fl_allow_non_tls f = false -> raw <> [] ->
  run_session lib c raw ip = SDial t ->
  t = ul_redial lib raw ip /\
  exists h, ul_parse lib raw = Parsed WSS h
            /\ is_member (new_matcher (flag_or DEFAULT_RELAY_PATTERN (fl_pattern f))) h = true.
Proof.
  intros lib f c raw ip t Hm Hf Hne R. apply proxy_main_some in Hm. subst c.
  destruct (session_dial_string _ _ _ _ _ R) as [(_ & Ht & sch & h & Hp & M & A)|[He _]]; [|contradiction].
  split; [exact Ht|]. exists h. rewrite main_pattern_is_flag in M. rewrite main_allow_is_flag, Hf in A.
  destruct A as [A|A]; [discriminate|]. subst sch. split; assumption.
Qed.

(* ... and over the whole life of the process never makes the dialer connect without TLS, or to a host outside the
   pattern flag, except by a string printed from the operator's own -relay URL (dialled when the broker supplies no
   relay URL; its scheme is the operator's business). *)
Theorem C06_main_without_flag_never_dials_non_tls : forall lib (f : proxy_flags) evs st outs t,
  redial_preserves lib ->
  fl_allow_non_tls f = false ->
  proxy_main_run lib f evs = Some (st, outs) ->
  In t (ps_dials st) ->
  (exists ip, t = ul_redial lib (or_default DEFAULT_RELAY_URL (flag_or DEFAULT_RELAY_URL (fl_relay f))) ip)
  \/ (forall tls h, ws_dial lib t = DialTo tls h ->
        tls = true /\ is_member (new_matcher (flag_or DEFAULT_RELAY_PATTERN (fl_pattern f))) h = true).
Proof. exact main_life_without_flag. Qed.

(* Every session of the process is judged under the one configuration of the command line. *)
Theorem C06_main_history_independent : forall lib (f : proxy_flags) pre raw ip post st outs,
  proxy_main_run lib f (pre ++ P_Session raw ip :: post) = Some (st, outs) ->
  nth_error outs (List.length pre) = Some (Some (run_session lib (proxy_config_of_flags f) raw ip)).
Proof.
  intros lib f pre raw ip post st outs Hr. unfold proxy_main_run in Hr.
  destruct (proxy_main lib f) as [c|] eqn:Hm; [|discriminate]. inversion Hr as [Hp]. clear Hr.
  apply proxy_main_some in Hm. subst c.
  pose proof (prun_outcome_at lib (pinit (proxy_config_of_flags f)) pre raw ip post) as H.
  rewrite Hp in H. exact H.
Qed.

(* A process that reached its first poll has a pattern that ends in $ and a RelayURL that parses. *)
Theorem C06_main_started_config_checked : forall lib (f : proxy_flags) c,
  proxy_main lib f = Some c ->
  is_valid_rule (pc_pattern c) = true /\ ul_parse lib (pc_relay_url c) <> ParseError.
Proof.
  intros lib f c H. unfold proxy_main in H.
  destruct (start_ok lib (proxy_config_of_flags f)) eqn:E; [|discriminate]. inversion H; subst c. clear H.
  unfold start_ok in E. apply andb_true_iff in E. destruct E as [E E4]. apply andb_true_iff in E. destruct E as [_ E3].
  split; [exact E4|]. unfold parses in E3. destruct (ul_parse lib (pc_relay_url (proxy_config_of_flags f))); [discriminate|discriminate].
Qed.

(* non-vacuity: the operator relays to a bridge of their own over plain WebSocket and does NOT pass
   -allow-non-tls-relay: the process starts; a broker-supplied ws:// URL inside the pattern is refused (also one equal
   to the operator's own -relay URL), the wss:// one is dialled, the empty one dials the operator's relay *)
Definition ex_main_flags (allow : bool) : proxy_flags :=
  mk_proxy_flags (Some (bs "ws://snowflake.torproject.net:8080/")) None allow (Some (bs "http://127.0.0.1:8000/")) None
                 0 false None false false None None.
Definition ex_main_table : list (bytes * parsed_url) :=
  [(bs "ws://snowflake.torproject.net:8080/", Parsed (bs "ws") (bs "snowflake.torproject.net"));
   (redial_token (bs "ws://snowflake.torproject.net:8080/") [], Parsed (bs "ws") (bs "snowflake.torproject.net"));
   (bs "wss://snowflake.torproject.net/", Parsed (bs "wss") (bs "snowflake.torproject.net"));
   (redial_token (bs "wss://snowflake.torproject.net/") [], Parsed (bs "wss") (bs "snowflake.torproject.net"));
   (bs "http://127.0.0.1:8000/", Parsed (bs "http") (bs "127.0.0.1"));
   (DEFAULT_STUN_URL, Parsed (bs "stun") []);
   ([], Parsed [] [])].

Example C06_main_nonvacuous :
  let lib := table_lib ex_main_table in
  let own := bs "ws://snowflake.torproject.net:8080/" in
  let good := bs "wss://snowflake.torproject.net/" in
  redial_preserves lib
  /\ fl_allow_non_tls (ex_main_flags false) = false
  /\ (exists st, proxy_main_run lib (ex_main_flags false) [P_Session own []; P_Session good []; P_Session [] []]
                 = Some (st, [Some SRefused; Some (SDial (redial_token good [])); Some (SDial (redial_token own []))])
                 /\ ps_dials st = [redial_token own []; redial_token good []])
  /\ (exists st, proxy_main_run lib (ex_main_flags true) [P_Session own []]
                 = Some (st, [Some (SDial (redial_token own []))]))
  /\ proxy_main lib (mk_proxy_flags None (Some (bs "snowflake.torproject.net")) false None None 0 false None false false None None) = None.
Proof.
  cbv zeta. split; [apply table_lib_preserves; vm_compute; reflexivity|].
  split; [reflexivity|]. split; [eexists; vm_compute; split; reflexivity|].
  split; [eexists; vm_compute; reflexivity|vm_compute; reflexivity].
Qed.
