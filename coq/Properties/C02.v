(* C02 — The broker never cross-wires offers, answers or bridges.
   Statements over the interleaving machine of Model/Broker.v: [reachable v br s] = s is reached from
   the empty broker with bridge list br by ANY finite sequence of labels (arrivals of proxy polls,
   client polls and proxy answers with any sids / offers / answers / fingerprints, timer firings,
   select choices, rendezvous), for both protocol versions. An entry is one registered proxy poll;
   the client that popped it is stored inside it, so "the poll that was handed that client's offer"
   is the entry holding the client. Proofs: Proofs/BrokerLocal.v (one step, seen from one entry), BrokerProofs.v and
   BrokerSteps.v (the invariant), BrokerThms.v, BrokerHist.v (histories), BrokerLate.v (finished exchanges). The last
   two groups are over other models: the bridge-list file (Model/BrokerBridgeList.v) and the client poll on the wire
   (Model/Messages.v, Proofs/MessagesProofs.v). *)
From Coq Require Import List NArith ZArith Bool Lia.
From Snow Require Import Model.Broker Proofs.BrokerLocal Proofs.BrokerProofs Proofs.BrokerSteps Proofs.BrokerThms Proofs.BrokerHist.
From Snow Require Import Proofs.BrokerLate.
Import ListNotations.
Open Scope N_scope.

(* Whenever a client is given an answer a, an answer request carrying exactly a was made under the
   session id of the very poll that received this client's offer; and what that poll returned (if it
   returned a match) is this client's offer. *)
Theorem C02_answer_routing : forall v br s p e c a,
  reachable v br s -> nth_error (entries s) p = Some e -> e_cl e = Some c -> client_answered c a ->
  (exists aid, In (aid, e_sid e, a) (answer_log s)) /\
  (forall m, e_w e = W_Done (PMatch m) -> m_offer m = c_offer c).
Proof.
  intros v br s p e c a R Hp Hc Ha. pose proof (reachable_inv v br s R) as I. split.
  - exact (inv_posted v s I p e a Hp (answered_posted v br s p e c a R Hp Hc Ha)).
  - intros m Hw. destruct (inv_entries v s I p e Hp) as [_ [[_ [Hm2 _]] _]].
    destruct (Hm2 m Hw) as [c0 [Hc0 [Ho _]]]. congruence.
Qed.

(* The same over histories, at full strength: the answer a client is given was carried by an answer request OF THE
   HISTORY (label L_Answer sid a at some position), made under the session id of the poll holding this client, and
   at the moment that request was made its session-id lookup resolved to this very poll (entry p) - not merely to
   some poll registered under an equal id at some other time. *)
Theorem C02_answer_resolved_to_this_poll : forall v br ls s p e c a,
  run v (init br) ls = Some s -> nth_error (entries s) p = Some e -> e_cl e = Some c -> client_answered c a ->
  exists pre post s1, ls = pre ++ L_Answer (e_sid e) a :: post /\ run v (init br) pre = Some s1 /\
                      lookup (e_sid e) (idmap s1) = Some p.
Proof. exact answer_resolved_to_this_poll. Qed.

(* ---- what a finished exchange leaves behind. A LATE answer - posted after the client's 10 s timer made its select
   commit to the timeout, but looked up before the client's final critical section removed the session id - is
   ACCEPTED into the poll's answer channel (C02_late_answer_example: the proxy is told 'success'). It is never
   delivered: [finished e] = the exchange of this poll is over (in no heap; its client has left the select, or it
   expired unmatched); [told e] = the response chosen for its client. ---- *)

(* Along ANY continuation (any number of further polls, clients, answers, timer firings) of a reachable state in which
   poll p's client has timed out: nobody ever receives from p's answer channel (no L_CTakeAnswer p / L_RvAnswer p
   occurs), and that client's response is and stays 'timed out'. *)
Theorem C02_late_answer_dies_with_its_poll : forall v br ls s s' p e c,
  reachable v br s -> nth_error (entries s) p = Some e -> e_cl e = Some c ->
  (c_pc c = C_Cleanup CTimedOut \/ c_pc c = C_Done CTimedOut) ->
  run v s ls = Some s' ->
  ~ In (L_CTakeAnswer p) ls /\ ~ In (L_RvAnswer p) ls /\
  exists e' c', nth_error (entries s') p = Some e' /\ e_cl e' = Some c' /\
                (c_pc c' = C_Cleanup CTimedOut \/ c_pc c' = C_Done CTimedOut).
Proof.
  intros v br ls s s' p e c R Hp Hc Hpc H.
  destruct (reachable_client_left_finished v br s p e c CTimedOut R Hp Hc Hpc) as [Hf Ht].
  destruct (finished_forever v ls s s' p e H Hp Hf) as [N1 [N2 [e' [Hp' [Hf' Ht']]]]].
  split; [exact N1|]. split; [exact N2|]. rewrite Ht in Ht'. unfold told in Ht'.
  destruct (e_cl e') as [c'|] eqn:Hc'; [|discriminate]. exists e', c'. split; [exact Hp'|]. split; [exact Hc'|].
  destruct (c_pc c') as [| |r|r]; try discriminate; injection Ht' as ->; [left|right]; reflexivity.
Qed.

(* the general form: once an exchange is over (client answered or timed out, or the poll expired unmatched - possibly
   with an early answer still in its channel), from ANY state, its channel is never received from again and what its
   client was told never changes *)
Theorem C02_finished_exchange_is_inert : forall v ls s s' p e,
  run v s ls = Some s' -> nth_error (entries s) p = Some e -> finished e = true ->
  ~ In (L_CTakeAnswer p) ls /\ ~ In (L_RvAnswer p) ls /\
  exists e', nth_error (entries s') p = Some e' /\ finished e' = true /\ told e' = told e.
Proof. exact finished_forever. Qed.

Theorem C02_client_left_is_finished : forall v br s p e c r,
  reachable v br s -> nth_error (entries s) p = Some e -> e_cl e = Some c ->
  (c_pc c = C_Cleanup r \/ c_pc c = C_Done r) -> finished e = true /\ told e = Some r.
Proof. exact reachable_client_left_finished. Qed.

Theorem C02_expired_poll_is_finished : forall v br s p e,
  reachable v br s -> nth_error (entries s) p = Some e -> e_cl e = None -> e_w e = W_Done PNoMatch -> finished e = true.
Proof. exact reachable_expired_finished. Qed.

(* ... and the late answer cannot reach the client of a LATER poll q by any other way either: if every answer request of
   the history that carried a resolved, when it was made, to some other poll (the one whose client had gone) or to
   nothing, the client of q is never given a. (Contrapositive of C02_answer_resolved_to_this_poll, spelled out.) *)
Theorem C02_late_answer_never_delivered_later : forall v br ls s q e c a,
  run v (init br) ls = Some s -> nth_error (entries s) q = Some e -> e_cl e = Some c ->
  (forall pre post s1 sd, ls = pre ++ L_Answer sd a :: post -> run v (init br) pre = Some s1 ->
                          lookup sd (idmap s1) <> Some q) ->
  ~ client_answered c a.
Proof.
  intros v br ls s q e c a H Hq Hc Hno Ha.
  destruct (answer_resolved_to_this_poll v br ls s q e c a H Hq Hc Ha) as [pre [post [s1 [E [Hr Hl]]]]].
  exact (Hno pre post s1 (e_sid e) E Hr Hl).
Qed.

(* non-vacuity: poll 0 (sid 1) is handed client 0's offer; the client's timer fires and its select commits to the
   timeout; THEN answer 500 is looked up (still registered), sent and accepted (done_answers: ok = true); the client
   deregisters. Two further exchanges follow (sids 2, 3) with their own answers 502, 503: each client receives its
   own; answer 500 is still in poll 0's channel at the end and client 0 was told 'timed out'. *)
Example C02_late_answer_example :
  exists s e0 c0 e1 c1 e2 c2,
    run V1 (init [(7, 9)])
      [L_Poll 1 NatUnrestricted 1 0; L_Client NatRestricted (Some 7) 100 (Some 0%nat); L_RvOffer 0; L_RvForward 0;
       L_FireC 0; L_CTake 0; L_Answer 1 500; L_AnswerPut 0; L_CCleanup 0;
       L_Poll 2 NatUnrestricted 1 0; L_Client NatUnknown (Some 7) 101 (Some 1%nat); L_RvOffer 1; L_RvForward 1;
       L_Answer 2 502; L_AnswerPut 1; L_CTakeAnswer 1; L_CCleanup 1;
       L_Poll 3 NatUnrestricted 1 0; L_Client NatRestricted (Some 7) 102 (Some 2%nat); L_RvOffer 2; L_RvForward 2;
       L_Answer 3 503; L_AnswerPut 2; L_CTakeAnswer 2; L_CCleanup 2] = Some s /\
    map (fun '(_, sd, a, ok) => (sd, a, ok)) (done_answers s) = [(3, 503, true); (2, 502, true); (1, 500, true)] /\
    nth_error (entries s) 0 = Some e0 /\ e_cl e0 = Some c0 /\ c_pc c0 = C_Done CTimedOut /\ e_buf e0 = Some 500 /\
    finished e0 = true /\
    nth_error (entries s) 1 = Some e1 /\ e_cl e1 = Some c1 /\ c_pc c1 = C_Done (CAnswer 502) /\
    nth_error (entries s) 2 = Some e2 /\ e_cl e2 = Some c2 /\ c_pc c2 = C_Done (CAnswer 503) /\
    quiescent s = true.
Proof. do 7 eexists. vm_compute. repeat split. Qed.

(* Each proxy poll receives at most one offer: in any history (from any state) no poll occurs in two accepted client
   matches - once popped, a poll never returns to the pool (C03_left_pool_forever). *)
Theorem C02_poll_gets_at_most_one_offer : forall v s0 pre mid post n1 f1 o1 n2 f2 o2 p q s,
  run v s0 (pre ++ L_Client n1 f1 o1 (Some p) :: mid ++ L_Client n2 f2 o2 (Some q) :: post) = Some s -> p <> q.
Proof.
  intros v s0 pre mid post n1 f1 o1 n2 f2 o2 p q s H Heq. subst q.
  rewrite run_app in H. destruct (run v s0 pre) as [s1|]; [|discriminate].
  cbn [run] in H. destruct (step v s1 (L_Client n1 f1 o1 (Some p))) as [s2|] eqn:E1; [|discriminate].
  rewrite run_app in H. destruct (run v s2 mid) as [s3|] eqn:Em; [|discriminate].
  cbn [run] in H. destruct (step v s3 (L_Client n2 f2 o2 (Some p))) as [s4|] eqn:E2; [|discriminate].
  destruct (client_match_pops v s1 n1 f1 o1 p s2 E1) as [_ [e2 [Hp2 Hh2]]].
  destruct (run_left_pool v mid s2 s3 p e2 Em Hp2 Hh2) as [e3 [Hp3 Hh3]].
  destruct (client_match_pops v s3 n2 f2 o2 p s4 E2) as [[e3' [Hp3' Hh3']] _]. congruence.
Qed.

(* Each offer is handed to at most one poll (a client sits in at most one entry); each poll holds at
   most one client and returns at most one response by construction of [entry]. *)
Theorem C02_offer_once : forall v br s p q e1 e2 c1 c2,
  reachable v br s -> nth_error (entries s) p = Some e1 -> nth_error (entries s) q = Some e2 ->
  e_cl e1 = Some c1 -> e_cl e2 = Some c2 -> c_id c1 = c_id c2 -> p = q.
Proof. intros v br s p q e1 e2 c1 c2 R. apply (inv_cids v s (reachable_inv v br s R)). Qed.

(* ---- bridges. The bridge list can be replaced at any step (label L_Install = LoadBridgeInfo; [bridges s] is the
   list current in s, the ghost [br_hist s] every list installed so far, newest first). A client label carries
   the fingerprint field as sent (None = empty); [fp_of] is the defaulting of DecodeClientPollRequest. The client
   record remembers (ghost) the URL [c_url] that the list current at its request configured for its fingerprint
   and the number [c_epoch] of lists installed until then. ---- *)

(* the ghost history means what it says *)
Theorem C02_install_history : forall v s l s', step v s l = Some s' ->
  bridges s' = (match l with L_Install br => br | _ => bridges s end) /\
  br_hist s' = (match l with L_Install br => br :: br_hist s | _ => br_hist s end).
Proof. exact step_hist. Qed.

(* An accepted client request is checked against the list installed at the time of the request: the client is
   recorded with the fingerprint it named (the default bridge if it named none) and the URL this list configures. *)
Theorem C02_client_checked : forall v s n ofp o p s',
  step v s (L_Client n ofp o (Some p)) = Some s' ->
  exists e c, nth_error (entries s') p = Some e /\ e_cl e = Some c /\ c_fp c = fp_of ofp /\ c_offer c = o /\
    c_nat c = n /\ lookup (fp_of ofp) (bridges s) = Some (c_url c) /\ c_epoch c = List.length (br_hist s) /\
    bridges s' = bridges s.
Proof.
  intros v s n ofp o p s' H. destruct (client_step_inv v s n ofp o p s' H) as (e & u & _ & Hl & _ & _ & Hp').
  eexists. eexists. split; [exact Hp'|]. cbn. repeat split; [exact Hl | exact (proj1 (step_hist v s _ s' H))].
Qed.

(* The current list is the newest installed one (the head of the ghost history) ... *)
Theorem C02_current_list_is_newest : forall v br s, reachable v br s -> nth_error (br_hist s) 0 = Some (bridges s).
Proof. exact current_list_is_newest. Qed.

(* ... and what the positions of the history mean: in any state s' reached from a reachable state s the history is
   the lists installed since s (newest first) followed by the history of s, so position
   [length (br_hist s') - length (br_hist s)] holds the list that was current in s, and the positions up to it hold
   exactly that list and the lists installed after s. Take for s the state of a client's request
   (C02_client_checked: c_epoch c = length (br_hist s)). *)
Theorem C02_lists_since : forall v br s ls s', reachable v br s -> run v s ls = Some s' ->
  exists newer, br_hist s' = newer ++ br_hist s /\
    List.length newer = (List.length (br_hist s') - List.length (br_hist s))%nat /\
    nth_error (br_hist s') (List.length newer) = Some (bridges s).
Proof.
  intros v br s ls s' R H. destruct (run_hist_suffix v ls s s' H) as [newer Hn]. exists newer.
  split; [exact Hn|]. split.
  - rewrite Hn, app_length. lia.
  - rewrite Hn, nth_error_app2 by lia. rewrite Nat.sub_diag. apply (current_list_is_newest v br s R).
Qed.

(* A match response carries the offer and NAT type of the client that claimed this poll, and a relay URL that a list
   installed NOT BEFORE the client's request configures for the fingerprint that client named: the list the URL
   was looked up in sits at a position i <= length (br_hist s) - c_epoch c of the history, i.e. it is the list that
   was current at the client's request or one installed after it - never an older one (the stale URL). The list at
   that very position is the one the client was checked against (it configures c_url c), and when no list was
   installed in between (c_epoch c = length (br_hist s)) the URL handed out is that URL. The handler looks the URL
   up when it replies, hence "or later": see C02_reinstall_between_request_and_forward. *)
Theorem C02_relay_url_not_older_than_request : forall v br s p e m,
  reachable v br s -> nth_error (entries s) p = Some e -> e_w e = W_Done (PMatch m) ->
  exists c, e_cl e = Some c /\ m_offer m = c_offer c /\ m_nat m = c_nat c /\
    (c_epoch c <= List.length (br_hist s))%nat /\
    (exists b0, nth_error (br_hist s) (List.length (br_hist s) - c_epoch c) = Some b0 /\
                lookup (c_fp c) b0 = Some (c_url c)) /\
    (exists i b, (i <= List.length (br_hist s) - c_epoch c)%nat /\ nth_error (br_hist s) i = Some b /\
                 lookup (c_fp c) b = Some (m_url m)) /\
    (c_epoch c = List.length (br_hist s) -> m_url m = c_url c).
Proof. exact match_response_since_request. Qed.

(* The same over histories, with no reference to the ghost fields: in any history from the empty broker, a poll that
   returned a match m was handed it by a step L_RvForward p OF THE HISTORY; the URL is what the list current at that
   step configures for the fingerprint the client named; that client's accepted request L_Client n ofp o (Some p) comes
   EARLIER in the history (and was accepted against the list current then: its fingerprint was in it); offer and NAT
   type are the request's. So the list the URL is taken from is the one current at the request or one installed after
   it (C02_lists_since applied to sreq and the run up to sfwd), never one replaced before the request. *)
Theorem C02_relay_url_history : forall v br ls s p e m,
  run v (init br) ls = Some s -> nth_error (entries s) p = Some e -> e_w e = W_Done (PMatch m) ->
  exists pre n ofp o mid post sreq sfwd,
    ls = pre ++ L_Client n ofp o (Some p) :: mid ++ L_RvForward p :: post /\
    run v (init br) pre = Some sreq /\
    run v (init br) (pre ++ L_Client n ofp o (Some p) :: mid) = Some sfwd /\
    m_offer m = o /\ m_nat m = n /\
    lookup (fp_of ofp) (bridges sreq) <> None /\
    lookup (fp_of ofp) (bridges sfwd) = Some (m_url m).
Proof.
  intros v br ls s p e m H Hp Hw.
  destruct (traced_run v br ls s H p e Hp) as [_ TB].
  destruct (TB m Hw) as (sfwd & e1 & c & (pre2 & post2 & E & R) & He1 & Hc1 & Ho & Hn & Hl).
  destruct (traced_run v br pre2 sfwd R p e1 He1) as [TA _].
  destruct (TA c Hc1) as (n & ofp & o & sreq & (pre & mid & E2 & R2) & A1 & A2 & A3 & A4).
  exists pre, n, ofp, o, mid, post2, sreq, sfwd.
  split; [rewrite E, E2, <- app_assoc; reflexivity|]. split; [exact R2|]. split; [rewrite <- E2; exact R|].
  split; [congruence|]. split; [congruence|]. split; [rewrite A4; discriminate|]. rewrite <- A1. exact Hl.
Qed.

(* A weaker corollary: some installed list configures the URL. Its first existential
   ranges over the whole history, so alone it would allow a URL from a list older than the request once any list was
   installed after it; C02_relay_url_not_older_than_request excludes that. *)
Theorem C02_relay_url : forall v br s p e m,
  reachable v br s -> nth_error (entries s) p = Some e -> e_w e = W_Done (PMatch m) ->
  exists c, e_cl e = Some c /\ m_offer m = c_offer c /\ m_nat m = c_nat c /\
    (exists b, In b (br_hist s) /\ lookup (c_fp c) b = Some (m_url m)) /\
    (exists b, In b (br_hist s) /\ lookup (c_fp c) b = Some (c_url c)) /\
    (m_url m = c_url c \/ (c_epoch c < List.length (br_hist s))%nat).
Proof. exact match_response. Qed.

(* With the list installed once and for all (what the broker binary does: main installs it before serving) this
   is simply: the relay URL configured for the fingerprint the client named. *)
Theorem C02_relay_url_static : forall v br s p e m,
  reachable v br s -> br_hist s = [br] -> nth_error (entries s) p = Some e -> e_w e = W_Done (PMatch m) ->
  exists c, e_cl e = Some c /\ m_offer m = c_offer c /\ m_nat m = c_nat c /\ lookup (c_fp c) br = Some (m_url m).
Proof.
  intros v br s p e m R Hh Hp Hw.
  destruct (match_response v br s p e m R Hp Hw) as [c [Hc [Ho [Hn [[b [Hb Hl]] _]]]]].
  exists c. repeat split; try assumption. rewrite Hh in Hb. destruct Hb as [<-|[]]. exact Hl.
Qed.

(* The proxy handler's own bridge lookup can fail (the poll is answered with an error and the client's offer is
   lost) only if a list was installed after the client's request. *)
Theorem C02_proxy_error_only_after_reinstall : forall v br s p e,
  reachable v br s -> nth_error (entries s) p = Some e -> e_w e = W_Done PError ->
  exists c, e_cl e = Some c /\ (c_epoch c < List.length (br_hist s))%nat.
Proof.
  intros v br s p e R Hp Hw.
  destruct (inv_entries v s (reachable_inv v br s R) p e Hp) as [_ [[_ [_ He]] _]]. apply He. exact Hw.
Qed.

(* A client naming a fingerprint absent from the list installed at the time of its request is never matched:
   no entry changes. *)
Theorem C02_unknown_bridge : forall v s n ofp o ch s',
  step v s (L_Client n ofp o ch) = Some s' -> lookup (fp_of ofp) (bridges s) = None ->
  ch = None /\ entries s' = entries s /\ idmap s' = idmap s /\
  done_clients s' = (next_cid s, n, fp_of ofp, o, CBadFingerprint) :: done_clients s.
Proof.
  intros v s n ofp o ch s' H Hfp. cbn [step] in H. rewrite Hfp in H. destruct ch; [discriminate|].
  injection H as <-. repeat split.
Qed.

(* A client that names no bridge is treated exactly as one naming the default bridge: by C02_client_checked it is
   matched only if the installed list has the default fingerprint and the proxy is told that bridge's URL; by
   C02_unknown_bridge it is refused when an installed list replaced the built-in default bridge. *)
Theorem C02_default_bridge : forall v s n o ch,
  step v s (L_Client n None o ch) = step v s (L_Client n (Some default_fp) o ch).
Proof. intros v s n o ch. reflexivity. Qed.

(* The invariant behind these statements holds in every reachable state of both versions. *)
Theorem C02_invariant : forall v br s, reachable v br s -> Inv v s.
Proof. exact reachable_inv. Qed.

(* non-vacuity: a run with two polls, two clients and two answers in which both clients are answered *)
Example C02_example :
  exists s, run V1 (init [(7, 9); (8, 10)])
    [L_Poll 1 NatUnrestricted 1 0; L_Poll 2 NatRestricted 1 3;
     L_Client NatRestricted (Some 7) 100 (Some 0%nat); L_Client NatUnrestricted (Some 8) 101 (Some 1%nat);
     L_RvOffer 1; L_RvOffer 0; L_RvForward 0; L_RvForward 1;
     L_Answer 2 502; L_Answer 1 501; L_AnswerPut 0; L_AnswerPut 1;
     L_CTakeAnswer 0; L_CTakeAnswer 1; L_CCleanup 1; L_CCleanup 0] = Some s /\
  quiescent s = true /\
  (exists e c, nth_error (entries s) 0 = Some e /\ e_cl e = Some c /\ client_answered c 501) /\
  (exists e c, nth_error (entries s) 1 = Some e /\ e_cl e = Some c /\ client_answered c 502).
Proof.
  eexists. split; [vm_compute; reflexivity|]. split; [vm_compute; reflexivity|].
  split; eexists; eexists; (split; [vm_compute; reflexivity|]); (split; [reflexivity|]); right; reflexivity.
Qed.

(* non-vacuity of the bridge statements: (1) a client naming no bridge is matched on the built-in list and its proxy
   is told the default bridge's URL; after an installed list replaced the default bridge it is refused;
   (2) C02_reinstall_witness: a list installed between a client's request and the proxy handler's reply decides the
   URL the proxy is told (10 instead of 9), or makes the handler fail. *)
Example C02_default_bridge_example :
  (exists s e m, run V1 (init builtin_bridges)
     [L_Poll 1 NatUnrestricted 1 0; L_Client NatRestricted None 100 (Some 0%nat); L_RvOffer 0; L_RvForward 0] = Some s /\
     nth_error (entries s) 0 = Some e /\ e_w e = W_Done (PMatch m) /\ m_url m = default_url) /\
  (exists s, run V1 (init builtin_bridges)
     [L_Install [(7, 9)]; L_Poll 1 NatUnrestricted 1 0; L_Client NatRestricted None 100 None] = Some s /\
     done_clients s = [(0%nat, NatRestricted, default_fp, 100, CBadFingerprint)]).
Proof. split; [eexists; eexists; eexists|eexists]; vm_compute; repeat split. Qed.

Example C02_reinstall_witness :
  (exists s e c m, run V1 (init [(7, 9)])
     [L_Poll 1 NatUnrestricted 1 0; L_Client NatRestricted (Some 7) 100 (Some 0%nat); L_Install [(7, 10)];
      L_RvOffer 0; L_RvForward 0] = Some s /\
     nth_error (entries s) 0 = Some e /\ e_cl e = Some c /\ e_w e = W_Done (PMatch m) /\
     c_url c = 9 /\ m_url m = 10 /\ (c_epoch c < List.length (br_hist s))%nat) /\
  (exists s e, run V1 (init [(7, 9)])
     [L_Poll 1 NatUnrestricted 1 0; L_Client NatRestricted (Some 7) 100 (Some 0%nat); L_Install [(8, 10)];
      L_RvOffer 0; L_RvForward 0] = Some s /\
     nth_error (entries s) 0 = Some e /\ e_w e = W_Done PError).
Proof.
  split.
  - eexists; eexists; eexists; eexists. vm_compute. repeat split. apply le_n.
  - eexists; eexists. vm_compute. repeat split.
Qed.

(* non-vacuity of C02_relay_url_not_older_than_request with installations on both sides of the request: the list
   [(7,8)] is replaced by [(7,9)] BEFORE the client's request (epoch 2), and by [(7,10)] and then [(7,11)] between
   the request and the forward. History, newest first: [(7,11)]; [(7,10)]; [(7,9)]; [(7,8)]. The list at the request
   sits at position 4 - 2 = 2 and configures c_url = 9; the URL handed out is 11, from position 0 <= 2; the older
   list at position 3 (URL 8, the stale one) is out of range although it, too, is "an installed list" and the
   disjunct c_epoch c < length of C02_relay_url holds. The run also has the shape C02_relay_url_history finds:
   pre = [L_Install; L_Poll], the request, mid = [L_Install; L_RvOffer; L_Install], the forward. *)
Example C02_reinstall_between_request_and_forward :
  exists s e c m, run V1 (init [(7, 8)])
     [L_Install [(7, 9)]; L_Poll 1 NatUnrestricted 1 0; L_Client NatRestricted (Some 7) 100 (Some 0%nat);
      L_Install [(7, 10)]; L_RvOffer 0; L_Install [(7, 11)]; L_RvForward 0] = Some s /\
     nth_error (entries s) 0 = Some e /\ e_cl e = Some c /\ e_w e = W_Done (PMatch m) /\
     br_hist s = [[(7, 11)]; [(7, 10)]; [(7, 9)]; [(7, 8)]] /\ c_epoch c = 2%nat /\
     nth_error (br_hist s) (List.length (br_hist s) - c_epoch c) = Some [(7, 9)] /\ c_url c = 9 /\
     m_url m = 11 /\ nth_error (br_hist s) 0 = Some [(7, 11)] /\
     nth_error (br_hist s) 3 = Some [(7, 8)] /\ lookup (c_fp c) [(7, 8)] = Some 8 /\ m_url m <> 8.
Proof. eexists; eexists; eexists; eexists. vm_compute. repeat split. intro H. vm_compute in H. discriminate H. Qed.

(* non-vacuity of the history statements: the run of C02_example has the shape required by
   C02_poll_gets_at_most_one_offer (two accepted matches, polls 0 and 1) and contains the answer requests that
   C02_answer_resolved_to_this_poll finds *)
Example C02_history_example :
  [L_Poll 1 NatUnrestricted 1 0; L_Poll 2 NatRestricted 1 3;
   L_Client NatRestricted (Some 7) 100 (Some 0%nat); L_Client NatUnrestricted (Some 8) 101 (Some 1%nat);
   L_RvOffer 1; L_RvOffer 0; L_RvForward 0; L_RvForward 1; L_Answer 2 502; L_Answer 1 501] =
  [L_Poll 1 NatUnrestricted 1 0; L_Poll 2 NatRestricted 1 3] ++ L_Client NatRestricted (Some 7) 100 (Some 0%nat) ::
  [] ++ L_Client NatUnrestricted (Some 8) 101 (Some 1%nat) ::
  [L_RvOffer 1; L_RvOffer 0; L_RvForward 0; L_RvForward 1; L_Answer 2 502; L_Answer 1 501].
Proof. reflexivity. Qed.

(* ---- The bridge list FILE (broker/bridge-list.go LoadBridgeInfo; Model/BrokerBridgeList.v, run against the real loader
   on generated file texts by `broker bload` and by the J installations of the scenarios).
   The lists the theorems above quantify over come out of this loader. Every line is decoded on its own into a fresh
   record, so the entry filed for a bridge is a function of ITS line alone: [entry_of_line l] mentions nothing but l, and
   in the map loaded from ANY file that contains l - whatever precedes it, whatever follows it under other
   fingerprints - the bridge of l has exactly the address of l. *)
From Snow Require Import Model.BrokerBridgeList.

Theorem C02_bridge_list_records_independent : forall pre l post m f u,
  load (pre ++ l :: post) = Some m -> entry_of_line l = Some (f, u) ->
  (forall l', In l' post -> names f l' = false) ->
  lookup f m = Some u.
Proof. exact records_independent. Qed.

(* ... conversely every entry of the loaded map is the entry of one of the lines, *)
Theorem C02_bridge_list_entries_come_from_lines : forall ls m f u, load ls = Some m -> lookup f m = Some u ->
  exists l, In l ls /\ entry_of_line l = Some (f, u).
Proof. exact load_sound. Qed.

(* ... a line whose record has no address member holding a string (absent, or null) files the EMPTY address, *)
Theorem C02_bridge_list_missing_address_is_empty : forall ms f u,
  (forall s, ~ In (KAddr, JStr s) ms) -> entry_of_line (Some ms) = Some (f, u) -> u = EMPTY.
Proof. exact missing_address_is_empty. Qed.

(* ... and the load fails (the list installed before stays in force) exactly when some line does not decode. *)
Theorem C02_bridge_list_load_fails_iff : forall ls, load ls = None <-> exists l, In l ls /\ entry_of_line l = None.
Proof. exact load_fails_iff. Qed.

(* non-vacuity, and what the theorem excludes: bridge 7 has a complete record, bridge 9 a record without address.
   The loader files the empty address for 9; a loader that decodes every line into ONE shared record (a streaming
   decoder whose target is declared outside the loop) files bridge 7's address for it. *)
Example C02_bridge_list_example :
  let a := Some [(KName, JStr 3); (KAddr, JStr 5); (KFp true, JStr 7)] in
  let b := Some [(KFp true, JStr 9); (KAddr, JNull)] in
  entry_of_line b = Some (9, EMPTY) /\
  (exists m, load ([a] ++ b :: []) = Some m /\ lookup 9 m = Some EMPTY /\ lookup 7 m = Some 5) /\
  (exists m, load_shared [a; b] = Some m /\ lookup 9 m = Some 5) /\
  load [a; None; b] = None /\ load [a; Some [(KAddr, JStr 5)]] = None /\ load [a; Some [(KFp true, JStr 9); (KUnknown, JStr 1)]] = None.
Proof. repeat split; try (eexists; repeat split); reflexivity. Qed.

(* The default bridge on the wire (C12's decoder composed with the matching machine): a client poll whose JSON has no
   fingerprint field decodes to the default fingerprint, i.e. to what [fp_of None] stands for. *)
(* imported here and not at the head of the file: MessagesProofs has a [step_spec] and an [entry_ok] of its own *)
From Coq Require Import String.
From Snow Require Import Model.Messages Proofs.MessagesProofs.

Theorem C02_wire_default_bridge : forall v o n f,
  decode_client_poll_body v = Ok (o, n, f) -> absent "fingerprint"%string v -> f = DEFAULT_FINGERPRINT.
Proof.
  intros v o n f Hd Ha. destruct defaults as [_ [_ [_ [_ [_ [_ [_ Hf]]]]]]]. exact (Hf v o n f Hd Ha).
Qed.
