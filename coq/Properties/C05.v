(* C05 — The server binds packets to sessions by ClientID; sessions never mix (carrier layer).
   Statements over Model/CarrierLayer.v: any number of carriers, any interleaving of upstream byte
   arrivals in any fragmentation, closes at any point, packets written by KCP to any ClientID, write loops
   taking packets, reads by KCP — [srun ops] for EVERY op sequence.

   Second sentence of the property ("a session that moves between carriers — sequentially, overlapping, or after a
   gap shorter than the one-minute retention — surfaces as exactly one accepted connection whose byte stream
   continues"): section "moving sessions" below, over Model/CarrierTimed.v = this carrier layer composed with C17's
   client-map model (explicit clock, queue identities, expiry) and with the DEMULTIPLEXING of kcp-go's listener
   (sessions keyed by RemoteAddr().String() = the ClientID). What is proved: (up) for EVERY schedule, timed or not,
   what KCP reads under one ClientID is an in-order merge of the packets decoded from each carrier's own bytes and
   makes exactly ONE accepted connection which is input all of it in order — time plays no role upstream;
   (down) if at every sweep the session was seen less than the retention ago, it has ONE queue for its whole life,
   nothing WriteTo accepted for it is lost, and its carriers together are written exactly a prefix, in order, of what
   was accepted; a queue identity is tied to one ClientID for ever, with or without expiries; (boundary) a sweep
   removes the record iff last-seen is at least the retention old (the sweeper runs every half retention, C17:
   between retention and 1.5 retentions either may have happened), the queued packets are then lost and the next
   touch makes a queue with a never-used identity. NOTE what the code does beyond the retention: the accepted
   connection is NOT affected (kcp-go's session table does not depend on the client map); only queued downstream
   packets are dropped (KCP retransmits them) and an idle attached carrier is closed. KCP's ARQ and smux above the
   demultiplexing ("whose byte stream continues" as bytes) remain libraries: observed through the real Accept path
   by lib/checks/c05.py (op move) and by C01's rig, hypothesis in C01. *)
From Coq Require Import List NArith ZArith Bool Arith Lia.
From Snow Require Import Lib.Wire Model.Encap Model.CarrierLayer Proofs.CarrierProofs Proofs.CarrierOnceProofs Proofs.CarrierFragProofs.
From Snow Require Import Proofs.CarrierMultiProofs Proofs.PacketPathMultiProofs.
From Snow Require Import Model.ClientMap Proofs.QueueOutProofs Model.CarrierTimed Proofs.CarrierTimedProofs Proofs.CarrierQueueProofs.
From Snow Require Import Model.CarrierFail Proofs.CarrierFailProofs.
Import ListNotations.
Open Scope N_scope.

(* Upstream: every packet the server hands to KCP under ClientID a was extracted, as a whole data chunk,
   from the stream of a carrier that presented the token and exactly that ClientID. *)
Theorem C05_upstream_tag : forall ops p a,
  In (p, a) (delivered (srun ops) ++ recvq (srun ops)) ->
  exists i k, nth_error (carriers (srun ops)) i = Some k /\ k_cid k = a /\ In p (k_up k) /\ ~ pre_open k.
Proof. intros ops. apply (si_up _ (srun_inv ops)). Qed.

(* Downstream: whatever a carrier was written was addressed (by WriteTo) to the ClientID that carrier
   presented; the queued packets of a ClientID likewise. *)
Theorem C05_downstream_only_same_id : forall ops i k p,
  nth_error (carriers (srun ops)) i = Some k -> In p (k_down k) -> In (k_cid k, p) (accepted (srun ops)).
Proof. intros ops. apply (si_down _ (srun_inv ops)). Qed.

Theorem C05_queued_only_same_id : forall ops c p,
  In p (q_lookup c (sendqs (srun ops))) -> In (c, p) (accepted (srun ops)).
Proof. intros ops. apply (si_queue _ (srun_inv ops)). Qed.

(* ... and the bytes on the wire of that carrier decode, under ANY reader fragmentation (C09), to exactly
   those packets in order: no truncated, merged or foreign packet. *)
Theorem C05_downstream_wire : forall ops i k sc,
  nth_error (carriers (srun ops)) i = Some k -> read_stream (k_wire k) sc = (k_down k, EOF).
Proof.
  intros ops i k sc Hk. apply wire_decodes. apply (si_wire _ (srun_inv ops) i k Hk).
Qed.

(* Exactly once and in order, across any number of carriers of a session: for every ClientID c the packets
   accepted by WriteTo for c are, IN ORDER, the packets consumed from c's queue so far followed by those still
   queued; each consumed packet went to exactly ONE carrier (the one recorded in the log; or was lost because
   WriteData failed, which closes that carrier), what carrier i was written is exactly the log entries owned
   by i, and an owning carrier presented token and the queue's ClientID. *)
Theorem C05_downstream_exactly_once_in_order : forall ops c,
  acc_for c (accepted (srun ops)) = cons_for c (consumed (srun ops)) ++ q_lookup c (sendqs (srun ops)).
Proof. intros ops. apply (oi_fifo _ (srun_oinv ops)). Qed.

Theorem C05_carrier_gets_its_log_entries : forall ops i k,
  nth_error (carriers (srun ops)) i = Some k -> k_down k = down_of i (consumed (srun ops)).
Proof. intros ops. apply (oi_down _ (srun_oinv ops)). Qed.

Theorem C05_consumer_presented_the_clientid : forall ops i c p,
  In (Some i, c, p) (consumed (srun ops)) ->
  exists k, nth_error (carriers (srun ops)) i = Some k /\ k_cid k = c /\ ~ pre_open k.
Proof. intros ops. apply (oi_owner _ (srun_oinv ops)). Qed.

(* A carrier that has not (yet) presented token and ClientID has no effect at all ... *)
Theorem C05_no_token_no_effect : forall ops i k,
  nth_error (carriers (srun ops)) i = Some k -> pre_open k ->
  k_up k = [] /\ k_down k = [] /\ k_wire k = [].
Proof. intros ops. apply (si_pre _ (srun_inv ops)). Qed.

(* ... a wrong token closes it on the spot, with nothing queued ... *)
Theorem C05_wrong_token_rejected : forall f k,
  k_state k = K_Token -> (8 <= length (k_buf k))%nat -> beq (firstn 8 (k_buf k)) TOKEN = false ->
  exists k', pump (S f) k = (k', []) /\ k_state k' = K_Dead /\
             k_up k' = k_up k /\ k_down k' = k_down k /\ k_wire k' = k_wire k.
Proof.
  intros f k Hs Hl Hb. rewrite pump_S, Hs.
  destruct (Nat.ltb_spec (length (k_buf k)) 8) as [Hlt|_]; [lia|]. rewrite Hb.
  eexists. split; [reflexivity|]. repeat split.
Qed.

(* ... and a closed carrier never does anything again. *)
Theorem C05_closed_stays_closed : forall s i k o,
  nth_error (carriers s) i = Some k -> k_state k = K_Dead ->
  exists k', nth_error (carriers (sstep s o)) i = Some k' /\ k_state k' = K_Dead /\
             k_up k' = k_up k /\ k_down k' = k_down k /\ k_wire k' = k_wire k.
Proof. intros s i k o Hk Hd. destruct (dead_stays s i k o Hk Hd) as (k' & A & B & C & D & E & _). exists k'. auto. Qed.

(* The read loop's result does not depend on how the carrier's bytes are split into arrivals: pumping
   b1 and then b2 queues the same packets, leaves the same residue and reaches the same open/closed state
   as pumping b1 ++ b2 at once (a cut stream therefore yields whole chunks only: C09_truncation_prefix). *)
Theorem C05_fragmentation_independent : forall f1 b1 b2, (length b1 < f1)%nat ->
  open_pump (S (length (b1 ++ b2))) (b1 ++ b2) =
  let '(ps1, t1, d1) := open_pump f1 b1 in
  if d1 then (ps1, [], true)
  else let '(ps2, t2, d2) := open_pump (S (length (t1 ++ b2))) (t1 ++ b2) in (ps1 ++ ps2, t2, d2).
Proof. exact open_pump_app. Qed.

(* At the level of the whole server state and in every phase (token, ClientID, chunks): any number of
   consecutive arrivals on a carrier leave the server in exactly the state of ONE arrival of their
   concatenation — same carriers, same queued packets under the same ClientIDs, same everything. *)
Theorem C05_arrivals_concatenate : forall s i b1 b2,
  sstep (sstep s (S_Recv i b1)) (S_Recv i b2) = sstep s (S_Recv i (b1 ++ b2)).
Proof. exact recv_split. Qed.

Theorem C05_arrivals_concatenate_many : forall pieces s i b,
  fold_left (fun st x => sstep st (S_Recv i x)) pieces (sstep s (S_Recv i b)) = sstep s (S_Recv i (b ++ concat pieces)).
Proof.
  induction pieces as [|x pieces IH]; intros s i b; cbn [fold_left concat].
  - rewrite app_nil_r. reflexivity.
  - rewrite C05_arrivals_concatenate, IH, app_assoc. reflexivity.
Qed.

Theorem C05_pump_is_open_pump : forall fuel k, k_state k = K_Open ->
  let '(ps, t, dd) := open_pump fuel (k_buf k) in
  exists k', pump fuel k = (k', ps) /\ k_buf k' = t /\ k_state k' = (if dd then K_Dead else K_Open) /\ k_cid k' = k_cid k.
Proof. exact pump_is_open_pump. Qed.

(* non-vacuity: two sessions, one carrier each, upstream packets tagged correctly, downstream routed *)
Example C05_example :
  let c1 := [1;2;3;4;5;6;7;8] in let c2 := [9;9;9;9;9;9;9;9] in
  let s := srun [S_New; S_New; S_Recv 0 (TOKEN ++ c1 ++ [130; 65; 66]); S_Recv 1 (TOKEN ++ c2 ++ [129]); S_Recv 1 [67];
                 S_WriteTo c2 [70]; S_WriteTo c1 [71]; S_Send 0; S_Send 1] in
  recvq s = [([65; 66], c1); ([67], c2)] /\
  (exists k, nth_error (carriers s) 0 = Some k /\ k_down k = [[71]] /\ k_wire k = [129; 71]) /\
  (exists k, nth_error (carriers s) 1 = Some k /\ k_down k = [[70]]).
Proof. vm_compute. repeat split; eexists; repeat split. Qed.

(* non-vacuity of C05_no_token_no_effect / C05_wrong_token_rejected: a carrier whose first 8 bytes differ from the
   token in one bit, followed by a ClientID and a well-formed data chunk, while a packet is waiting for that very
   ClientID: the hypotheses of the rejection theorem hold of it, it ends up closed, nothing was queued upstream,
   nothing was written to it, the waiting packet stays queued *)
Example C05_bad_token_example :
  let bad := [18; 147; 96; 93; 39; 129; 117; 244] in
  let c1 := [1;2;3;4;5;6;7;8] in
  let k := with_buf (bad ++ c1 ++ [130; 65; 66]) new_carrier in
  (k_state k = K_Token /\ (8 <= length (k_buf k))%nat /\ beq (firstn 8 (k_buf k)) TOKEN = false) /\
  let s := srun [S_WriteTo c1 [70]; S_New; S_Recv 0 (bad ++ c1 ++ [130; 65; 66]); S_Send 0; S_Recv 0 [129; 67]] in
  recvq s = [] /\ delivered s = [] /\ q_lookup c1 (sendqs s) = [[70]] /\
  exists k', nth_error (carriers s) 0 = Some k' /\ k_state k' = K_Dead /\ k_up k' = [] /\ k_down k' = [] /\ k_wire k' = [].
Proof. vm_compute. repeat split; [repeat constructor|]. eexists. repeat split. Qed.

(* a carrier that never gets as far as a complete token + ClientID (pre-open) has no effect either *)
Example C05_short_header_example :
  let s := srun [S_WriteTo [1;2;3;4;5;6;7;8] [70]; S_New; S_Recv 0 (TOKEN ++ [1;2;3;4;5;6;7]); S_Send 0] in
  exists k, nth_error (carriers s) 0 = Some k /\ pre_open k /\ k_up k = [] /\ k_wire k = [] /\ recvq s = [].
Proof. vm_compute. eexists. split; [reflexivity|]. split; [right; reflexivity|]. repeat split. Qed.

(* ====================================================================================== moving sessions *)

(* ---- upstream, any number of carriers of a session (and of other sessions), any interleaving, cuts, overlaps *)

(* What carrier i queued is EXACTLY what the one-carrier read loop (token, ClientID, chunks) decodes from a prefix of
   the bytes sent on it — all of them while it is alive, what it had read when it was closed otherwise. *)
Theorem C05_carrier_packets_decoded : forall ops i k,
  nth_error (carriers (srun ops)) i = Some k ->
  exists n, (n <= length (sent_on i ops))%nat /\
    (k_state k <> K_Dead -> n = length (sent_on i ops)) /\
    let s := firstn n (sent_on i ops) in
    k_up k = snd (pump (S (S (S (length s)))) (with_buf s new_carrier)) /\
    k_cid k = k_cid (fst (pump (S (S (S (length s)))) (with_buf s new_carrier))).
Proof. exact carrier_up_decoded. Qed.

(* The time-ordered log of everything the read loops handed to QueueIncoming: restricted to one carrier it is that
   carrier's decoded sequence; every entry carries the ClientID its carrier presented. *)
Theorem C05_offered_per_carrier : forall ops i k,
  nth_error (carriers (srun ops)) i = Some k -> pkts_of (filter (from_carrier i) (offered ops)) = k_up k.
Proof. exact offered_per_carrier. Qed.

Theorem C05_offered_tagged_by_presented_id : forall ops i c p,
  In (i, c, p) (offered ops) ->
  exists k, nth_error (carriers (srun ops)) i = Some k /\ k_cid k = c /\ ~ pre_open k /\ In p (k_up k).
Proof. exact offered_tagged_by_presented_id. Qed.

(* What KCP has read or can still read is an in-order subsequence of that log (the bounded queue drops when full),
   and the whole log when at most queueSize packets were offered: per ClientID, an order-preserving merge of its
   carriers' decoded sequences. *)
Theorem C05_queue_is_subsequence_of_offered : forall ops,
  subseq (surfaced (srun ops)) (map tag_of (offered ops)).
Proof. exact queue_is_subsequence_of_offered. Qed.

Theorem C05_queue_is_offered_when_room : forall ops,
  (length (offered ops) <= QUEUE_SIZE)%nat -> surfaced (srun ops) = map tag_of (offered ops).
Proof. exact queue_is_offered_when_room. Qed.

Theorem C05_session_packets_in_order : forall ops c,
  subseq (map fst (filter (tagged c) (surfaced (srun ops)))) (pkts_of (filter (entry_cid c) (offered ops))).
Proof. exact session_packets_in_order. Qed.

(* ---- exactly one accepted connection *)

(* kcp-go's listener, whatever else it reads: the datagrams read under ClientID [key] that are long enough to be looked
   at, all carrying conversation id [conv], make exactly ONE accepted connection (none if there is no such datagram);
   it stays live and its KCP is input exactly those datagrams in the order they were read. *)
Theorem C05_one_accepted_connection : forall key conv read,
  (forall x, In x read -> from_key key x = true -> exists sn, conv_sn (dgram x) = Some (conv, sn)) ->
  filter (of_key key) (listener_view read) = one_session key conv (map dgram (filter (from_key key) read)).
Proof. exact one_accepted_connection. Qed.

(* THE PREMISE "all datagrams under the ClientID carry one conversation id" is a premise about the CLIENT, and it is
   needed: client/lib/snowflake.go newSession draws one ClientID (turbotunnel.NewClientID) and makes exactly ONE KCP
   conversation (kcp.NewConn2, which draws the conversation id once) over the one RedialPacketConn whose dialContext
   sends that ClientID, so every datagram of the session carries the same conv. A peer that does otherwise gets what
   kcp-go's listener does, and the model says what that is: for ANY history satisfying the premise with at least one
   datagram of [key] looked at, one more datagram under the same ClientID with ANOTHER conversation id and sn = 0 closes
   the accepted connection and makes a second one (Listener.packetInput: `else if sn == 0 { s.Close(); s = nil }`). So
   without the premise "exactly one accepted connection" is false, whatever conversation id one names (second theorem).
   (A datagram of another conversation with sn <> 0 is dropped by the listener and changes nothing: [l_input].)
   Observed on the real kcp-go listener by lib/checks/c05.py (move case kind two-conversations-one-clientid). *)
Theorem C05_two_convs_two_connections : forall key conv conv2 read x2,
  (forall x, In x read -> from_key key x = true -> exists sn, conv_sn (dgram x) = Some (conv, sn)) ->
  filter (from_key key) read <> [] ->
  snd x2 = key -> long_enough x2 = true -> conv_sn (dgram x2) = Some (conv2, 0) -> conv2 <> conv ->
  filter (of_key key) (listener_view (read ++ [x2])) =
    [{| l_key := key; l_conv := conv; l_in := map dgram (filter (from_key key) read); l_live := false |};
     {| l_key := key; l_conv := conv2; l_in := [dgram x2]; l_live := true |}].
Proof. exact second_conv_second_connection. Qed.

Theorem C05_same_conv_premise_is_needed : forall key conv conv2 read x2 conv',
  (forall x, In x read -> from_key key x = true -> exists sn, conv_sn (dgram x) = Some (conv, sn)) ->
  filter (from_key key) read <> [] ->
  snd x2 = key -> long_enough x2 = true -> conv_sn (dgram x2) = Some (conv2, 0) -> conv2 <> conv ->
  filter (of_key key) (listener_view (read ++ [x2])) <>
    one_session key conv' (map dgram (filter (from_key key) (read ++ [x2]))).
Proof.
  intros key conv conv2 read x2 conv' Hc Hne Hk Hl Hc2 Hdiff.
  rewrite (second_conv_second_connection key conv conv2 read x2 Hc Hne Hk Hl Hc2 Hdiff).
  unfold one_session. destruct (map dgram (filter (from_key key) (read ++ [x2]))); discriminate.
Qed.

(* Time plays no role upstream: the timed server is, on the carriers' upstream view, the receive queue and what KCP
   reads, the untimed server on the same arrivals and closes (plus a close where a write loop ended). *)
Theorem C05_timed_upstream_is_untimed : forall timeout ops,
  usim (trun timeout ops) (srun (untimes timeout tinit ops)).
Proof. exact trun_upstream_is_srun. Qed.

(* Together: for EVERY timed schedule — carriers of the session arriving and leaving at any instants, overlapping or
   after idle gaps of ANY length, expiries or not — the session is one accepted connection whose KCP is input, in
   order, what was read under its ClientID, and that is an in-order merge of what its carriers decoded. *)
Theorem C05_moving_session_one_connection : forall timeout ops cid conv,
  let t := trun timeout ops in
  let sops := untimes timeout tinit ops in
  (forall x, In x (tdelivered t) -> from_key cid x = true -> exists sn, conv_sn (dgram x) = Some (conv, sn)) ->
  filter (of_key cid) (listener_view (tdelivered t)) = one_session cid conv (map dgram (filter (from_key cid) (tdelivered t))) /\
  tdelivered t ++ trecvq t = surfaced (srun sops) /\
  subseq (map fst (filter (tagged cid) (tdelivered t ++ trecvq t))) (pkts_of (filter (entry_cid cid) (offered sops))).
Proof.
  intros timeout ops cid conv t sops H. split; [apply one_accepted_connection; exact H|].
  destruct (trun_upstream_is_srun timeout ops) as [_ [Hq Hd]]. fold t in Hq, Hd. fold sops in Hq, Hd.
  assert (E : tdelivered t ++ trecvq t = surfaced (srun sops)) by (unfold surfaced; rewrite Hq, Hd; reflexivity).
  split; [exact E|]. rewrite E. apply session_packets_in_order.
Qed.

(* ---- downstream with retention *)

(* A queue identity belongs to ONE ClientID (key) for ever: the key WriteTo put packets into it for, the key of every
   carrier whose write loop held it or was written a packet taken from it, the key of its record — whatever expired in
   between. In particular a packet a carrier was written was taken from a queue of the carrier's own ClientID. *)
Theorem C05_timed_queue_has_one_owner : forall timeout ops q b b',
  tied (trun timeout ops) q b -> tied (trun timeout ops) q b' -> b = b'.
Proof. intros timeout ops. apply (g_own _ (trun_ginv timeout ops)). Qed.

Theorem C05_timed_downstream_only_same_id : forall timeout ops o b q p b' p',
  In (o, b, q, p) (tcons (trun timeout ops)) -> In (b', q, p') (tacc (trun timeout ops)) -> b = b'.
Proof.
  intros timeout ops o b q p b' p' H H'. apply (g_own _ (trun_ginv timeout ops) q).
  - right. left. exists o, p. exact H.
  - left. exists p'. exact H'.
Qed.

(* ... and for every timed schedule, expiries or not: whatever carrier i was written was accepted by WriteTo for the very
   ClientID (key) that carrier presented (the first sentence of the property, downstream, in the timed model). *)
Theorem C05_timed_downstream_written_was_accepted : forall timeout ops i k p,
  nth_error (tcar (trun timeout ops)) i = Some k -> In p (k_down k) ->
  exists q, In (key_of k, q, p) (tacc (trun timeout ops)).
Proof. exact timed_downstream_only_same_id. Qed.

(* The session within the retention: if no sweep ever finds the session's record idle for the timeout, then all the
   queue identities ever tied to the session are its one live queue, and what WriteTo accepted for it is, in order,
   what its carriers (any number, sequential or overlapping, across idle gaps) were written or lost with a failed
   write, followed by what is still queued: nothing is dropped on the move. *)
Theorem C05_session_within_retention : forall timeout a ops,
  fresh_from timeout a tinit ops ->
  let t := trun timeout ops in
  (forall q, tied t q a -> live (tcm t) q a) /\
  acc_key a (tacc t) = cons_key a (tcons t) ++ out_q (tcm t) a.
Proof. intros timeout a ops H. destruct (trun_kinv timeout a ops H) as [K1 K2]. split; assumption. Qed.

(* A schedule-level sufficient condition: all clock readings of the schedule lie in a window shorter than the retention
   (whatever the carriers do inside it: sequential, overlapping, idle gaps up to just under the retention) — then the
   hypothesis above holds for EVERY session, so no session loses a queued packet or a carrier to an expiry. *)
Theorem C05_window_below_retention_is_fresh : forall timeout t0 a ops,
  Forall (in_window timeout t0) ops -> fresh_from timeout a tinit ops.
Proof. intros timeout t0 a ops. apply window_is_fresh_from_start. Qed.

Theorem C05_session_one_queue : forall timeout a ops q q',
  fresh_from timeout a tinit ops -> tied (trun timeout ops) q a -> tied (trun timeout ops) q' a -> q = q'.
Proof. intros timeout a ops q q' H. apply one_queue, trun_kinv, H. Qed.

(* ... and no carrier of the session is ever closed because its queue expired under it *)
Theorem C05_session_never_closed_by_expiry : forall timeout a ops i k q,
  fresh_from timeout a tinit ops ->
  nth_error (tcar (trun timeout ops)) i = Some k -> nth_error (theld (trun timeout ops)) i = Some (Some q) -> key_of k = a ->
  snd (q_recv q (tcm (trun timeout ops))) <> RcvClosed.
Proof. intros timeout a ops i k q H. apply never_closed_under_carrier; [apply trun_ginv | apply trun_kinv; exact H]. Qed.

(* The boundary, exactly as the code compares: a sweep keeps the record iff it was seen less than the timeout ago;
   otherwise the queue is closed with what was left in it. (NewClientMap sweeps every timeout/2: some sweep falls
   within [timeout, 1.5 timeout) after last-seen, C17_sweep_within_timeout_plus_period.) *)
Theorem C05_retention_boundary : forall timeout ops now a r,
  let t := trun timeout ops in
  rec_of (tcm t) a = Some r ->
  let t' := tstep timeout t (T_Sweep now) in
  ((now - c_seen r < timeout)%Z -> rec_of (tcm t') a = Some r) /\
  ((now - c_seen r >= timeout)%Z -> rec_of (tcm t') a = None /\ In (c_qid r, c_q r) (dead (tcm t'))).
Proof. intros timeout ops now a r t. apply sweep_boundary. apply trun_ginv. Qed.

Theorem C05_touch_refreshes_last_seen : forall timeout ops cid p now,
  exists r, rec_of (tcm (tstep timeout (trun timeout ops) (T_WriteTo cid p now))) (cid_key cid) = Some r /\ c_seen r = now.
Proof. intros timeout ops cid p now. apply writeto_touches. apply trun_ginv. Qed.

(* After an expiry the session gets a NEW queue: an identity that no queue, carrier or log entry ever had. *)
Theorem C05_new_queue_after_expiry : forall timeout ops cid p now,
  let t := trun timeout ops in
  rec_of (tcm t) (cid_key cid) = None ->
  let t' := tstep timeout t (T_WriteTo cid p now) in
  exists r, rec_of (tcm t') (cid_key cid) = Some r /\ c_qid r = next_qid (tcm t) /\ c_seen r = now /\ c_q r = [p] /\
            (forall q b, tied t q b -> (q < c_qid r)%nat) /\
            tacc t' = tacc t ++ [(cid_key cid, c_qid r, p)].
Proof. intros timeout ops cid p now t. apply new_incarnation. apply trun_ginv. Qed.

(* non-vacuity: a session (ClientID c1, conversation 7) moves from carrier 0 to carrier 1 across an idle gap of
   59.999 s with the sweeper running in between and at its end; a packet written during the gap waits and is delivered
   to the new carrier; the listener has one connection, input both datagrams in order. *)
Definition c05_dgram (conv sn : N) : bytes := [conv;0;0;0; 81;0;128;0; 0;0;0;0; sn;0;0;0; 0;0;0;0; 0;0;0;0].
Definition c05_moving : list top :=
  let c1 := [1;2;3;4;5;6;7;8] in
  [T_New; T_Recv 0 (TOKEN ++ c1 ++ [152] ++ c05_dgram 7 0) 0; T_WriteTo c1 [70] 5; T_Send 0 5; T_Close 0;
   T_WriteTo c1 [71] 10; T_Sweep 30000; T_Sweep 60009;
   T_New; T_Recv 1 (TOKEN ++ c1) 60009; T_Recv 1 ([152] ++ c05_dgram 7 1) 60010; T_Send 1 60010; T_Send 1 60011;
   T_ReadFrom; T_ReadFrom].

Example C05_moving_session_example :
  let c1 := [1;2;3;4;5;6;7;8] in
  let t := trun 60000 c05_moving in
  fresh_from 60000 (cid_key c1) tinit c05_moving /\
  (forall x, In x (tdelivered t) -> from_key c1 x = true -> exists sn, conv_sn (dgram x) = Some (7, sn)) /\
  listener_view (tdelivered t) = [{| l_key := c1; l_conv := 7; l_in := [c05_dgram 7 0; c05_dgram 7 1]; l_live := true |}] /\
  tcons t = [(Some 0%nat, cid_key c1, 0%nat, [70]); (Some 1%nat, cid_key c1, 0%nat, [71])] /\
  dead (tcm t) = [].
Proof.
  cbn zeta. split; [apply fresh_fromb_iff; vm_compute; reflexivity|]. split.
  - intros x Hin _. vm_compute in Hin. destruct Hin as [<-|[<-|[]]]; vm_compute; eexists; reflexivity.
  - vm_compute. repeat split.
Qed.

(* non-vacuity of C05_two_convs_two_connections, concrete bytes: ClientID c1 sends two datagrams of conversation 7
   (sn 0, 1), a datagram of another ClientID is read in between, then c1 sends conversation 9 with sn = 0: two accepted
   connections under c1, the first closed with its two datagrams, the second live; the other ClientID keeps its own.
   With sn = 1 instead, the datagram of conversation 9 is dropped and c1 keeps its one connection. *)
Example C05_two_convs_two_connections_example :
  let c1 := [1;2;3;4;5;6;7;8] in let c2 := [9;9;9;9;9;9;9;9] in
  let read := [(c05_dgram 7 0, c1); (c05_dgram 5 0, c2); (c05_dgram 7 1, c1)] in
  (forall x, In x read -> from_key c1 x = true -> exists sn, conv_sn (dgram x) = Some (7, sn)) /\
  filter (from_key c1) read <> [] /\ long_enough (c05_dgram 9 0, c1) = true /\
  conv_sn (dgram (c05_dgram 9 0, c1)) = Some (9, 0) /\
  listener_view (read ++ [(c05_dgram 9 0, c1)]) =
    [{| l_key := c1; l_conv := 7; l_in := [c05_dgram 7 0; c05_dgram 7 1]; l_live := false |};
     {| l_key := c2; l_conv := 5; l_in := [c05_dgram 5 0]; l_live := true |};
     {| l_key := c1; l_conv := 9; l_in := [c05_dgram 9 0]; l_live := true |}] /\
  listener_view (read ++ [(c05_dgram 9 1, c1)]) =
    [{| l_key := c1; l_conv := 7; l_in := [c05_dgram 7 0; c05_dgram 7 1]; l_live := true |};
     {| l_key := c2; l_conv := 5; l_in := [c05_dgram 5 0]; l_live := true |}].
Proof.
  cbn zeta. split.
  - intros x Hin Hf. destruct Hin as [<-|[<-|[<-|[]]]]; try (vm_compute; eexists; reflexivity). vm_compute in Hf. discriminate.
  - split; [vm_compute; discriminate|]. vm_compute. repeat split.
Qed.

(* the hypothesis of C05_window_below_retention_is_fresh is satisfiable: a schedule with an idle gap of 59.9 s *)
Example C05_window_example :
  Forall (in_window 60000 100) [T_New; T_Recv 0 (TOKEN ++ [1;2;3;4;5;6;7;8]) 100; T_WriteTo [1;2;3;4;5;6;7;8] [70] 101; T_Close 0;
                                T_Sweep 30100; T_Sweep 60000; T_New; T_Recv 1 (TOKEN ++ [1;2;3;4;5;6;7;8]) 60050; T_Send 1 60099].
Proof. repeat constructor; cbn; lia. Qed.

(* ... and beyond the retention: the same session with the sweeper finding the record idle for exactly the timeout:
   the waiting packet is lost with the closed queue, the new carrier gets a new queue (identity 1) and is written
   only what is written afterwards — and the listener still has ONE connection. *)
Definition c05_expired : list top :=
  let c1 := [1;2;3;4;5;6;7;8] in
  [T_New; T_Recv 0 (TOKEN ++ c1 ++ [152] ++ c05_dgram 7 0) 0; T_WriteTo c1 [70] 5; T_Send 0 5; T_Close 0;
   T_WriteTo c1 [71] 10; T_Sweep 60010;
   T_New; T_Recv 1 (TOKEN ++ c1 ++ [152] ++ c05_dgram 7 1) 60011; T_Send 1 60011; T_WriteTo c1 [72] 60012; T_Send 1 60012;
   T_ReadFrom; T_ReadFrom].

Example C05_expired_session_example :
  let c1 := [1;2;3;4;5;6;7;8] in
  let t := trun 60000 c05_expired in
  ~ fresh_from 60000 (cid_key c1) tinit c05_expired /\
  dead (tcm t) = [(0%nat, [[71]])] /\
  tcons t = [(Some 0%nat, cid_key c1, 0%nat, [70]); (Some 1%nat, cid_key c1, 1%nat, [72])] /\
  listener_view (tdelivered t) = [{| l_key := c1; l_conv := 7; l_in := [c05_dgram 7 0; c05_dgram 7 1]; l_live := true |}].
Proof.
  cbn zeta. split.
  - intros H. apply fresh_fromb_iff in H. vm_compute in H. discriminate.
  - vm_compute. repeat split.
Qed.

(* ====================================================================================== a failing downstream write

   Model/CarrierFail.v: the carrier layer with one more operation, [F_SendFail i n] = carrier i's write loop takes the
   next packet of its ClientID, n bytes of its frame reach the connection, the Write reports an error (the peer is gone,
   the proxy was killed, ...).  [frun ops] for EVERY sequence of carrier-layer operations and failing writes, at any
   point, on any carriers, any number of them.  Does the operation add anything?  The STATE it reaches (packet off the
   queue, logged as lost, carrier dead) is the one S_Send reaches when WriteData itself refuses a packet, which the
   theorems above already quantify over; what it adds is (1) that state for ORDINARY packets, i.e. at every point of
   every history, (2) the bytes of the failed frame that did reach the wire, and (3) the explicit frame statement that
   the step touches no other carrier - the clause a buffer that survives the failure (recycled, shared) would break. *)

(* conservative: without failing writes it is the machine of all the theorems above *)
Theorem C05_fail_machine_is_conservative : forall ops, frun (map F_Op ops) = {| f_s := srun ops; f_tail := [] |}.
Proof.
  intros ops. unfold frun, srun.
  assert (G : forall s, fold_left fstep (map F_Op ops) {| f_s := s; f_tail := [] |} = {| f_s := fold_left sstep ops s; f_tail := [] |}).
  { induction ops as [|o ops IH]; intros s; cbn [map fold_left]; [reflexivity|]. cbn [fstep f_s f_tail]. apply IH. }
  apply G.
Qed.

(* the isolation and exactly-once statements hold of the machine with failing writes *)
Theorem C05_fail_upstream_tag : forall ops p a,
  In (p, a) (delivered (f_s (frun ops)) ++ recvq (f_s (frun ops))) ->
  exists i k, nth_error (carriers (f_s (frun ops))) i = Some k /\ k_cid k = a /\ In p (k_up k) /\ ~ pre_open k.
Proof. intros ops. apply (si_up _ (proj1 (frun_inv ops))). Qed.

Theorem C05_fail_downstream_only_same_id : forall ops i k p,
  nth_error (carriers (f_s (frun ops))) i = Some k -> In p (k_down k) -> In (k_cid k, p) (accepted (f_s (frun ops))).
Proof. intros ops. apply (si_down _ (proj1 (frun_inv ops))). Qed.

Theorem C05_fail_downstream_exactly_once_in_order : forall ops c,
  acc_for c (accepted (f_s (frun ops))) = cons_for c (consumed (f_s (frun ops))) ++ q_lookup c (sendqs (f_s (frun ops))).
Proof. intros ops. apply (oi_fifo _ (proj2 (frun_inv ops))). Qed.

(* what a carrier was written (whole packets) is exactly its own log entries: a packet logged as lost - the failed
   write - is in NO carrier's *)
Theorem C05_fail_carrier_gets_its_log_entries : forall ops i k,
  nth_error (carriers (f_s (frun ops))) i = Some k -> k_down k = down_of i (consumed (f_s (frun ops))).
Proof. intros ops. apply (oi_down _ (proj2 (frun_inv ops))). Qed.

(* the step itself: the carrier was open and had a packet p queued for its ClientID; afterwards p has left the queue
   and is logged as lost, the carrier is dead, and EVERY carrier (this one included) has been written exactly the
   packets and whole frames it had been written before; no other queue, nothing upstream changes *)
Theorem C05_write_failure_reaches_no_carrier : forall s i n s' t, fail_send s i n = (s', Some t) ->
  exists k p q', nth_error (carriers s) i = Some k /\ k_state k = K_Open /\ q_lookup (k_cid k) (sendqs s) = p :: q' /\
    t = (match write_data p with Some w => firstn n w | None => [] end) /\
    consumed s' = consumed s ++ [(None, k_cid k, p)] /\
    q_lookup (k_cid k) (sendqs s') = q' /\
    (forall c, beq c (k_cid k) = false -> q_lookup c (sendqs s') = q_lookup c (sendqs s)) /\
    accepted s' = accepted s /\ recvq s' = recvq s /\ delivered s' = delivered s /\
    length (carriers s') = length (carriers s) /\
    (forall j kj, nth_error (carriers s) j = Some kj ->
       exists kj', nth_error (carriers s') j = Some kj' /\ k_down kj' = k_down kj /\ k_wire kj' = k_wire kj /\
                   k_up kj' = k_up kj /\ k_cid kj' = k_cid kj /\
                   k_state kj' = (if Nat.eqb j i then K_Dead else k_state kj)).
Proof. exact fail_send_frame. Qed.

(* all the bytes a carrier was ever written: the frames of the packets it was written (which decode, under any reader
   fragmentation, to exactly those packets: wire_decodes / C05_downstream_wire), followed by nothing - or, on a carrier
   that died of a failed write, by a prefix of the frame of ONE more packet that WriteTo accepted for the ClientID that
   very carrier presented (and that is logged as lost).  Never a byte of another session's packet. *)
Theorem C05_fail_wire : forall ops i k,
  nth_error (carriers (f_s (frun ops))) i = Some k ->
  exists (w t : bytes), wire_of (k_down k) = Some w /\ full_wire (frun ops) i k = w ++ t /\
    (t = [] \/
     (k_state k = K_Dead /\ exists p n, In (k_cid k, p) (accepted (f_s (frun ops))) /\
                                        In (None, k_cid k, p) (consumed (f_s (frun ops))) /\
                                        t = (match write_data p with Some wp => firstn n wp | None => [] end))).
Proof. exact full_wire_spec. Qed.

(* non-vacuity: session A's carrier dies of a write that failed after 2 bytes while two packets were queued for A;
   then session B's carrier is written B's packet and nothing else; A's next carrier gets A's second packet; the
   failed packet is in nobody's wire *)
Example C05_fail_example :
  let a := [1;2;3;4;5;6;7;8] in let b := [9;9;9;9;9;9;9;9] in
  let s := frun [F_Op S_New; F_Op (S_Recv 0 (TOKEN ++ a)); F_Op (S_WriteTo a [70; 71; 72]); F_Op (S_WriteTo a [80]);
                 F_SendFail 0 2;
                 F_Op S_New; F_Op (S_Recv 1 (TOKEN ++ b)); F_Op (S_WriteTo b [90]); F_Op (S_Send 1);
                 F_Op S_New; F_Op (S_Recv 2 (TOKEN ++ a)); F_Op (S_Send 2); F_Op (S_Send 0)] in
  f_tail s = [(0%nat, [131; 70])] /\ consumed (f_s s) = [(None, a, [70; 71; 72]); (Some 1%nat, b, [90]); (Some 2%nat, a, [80])] /\
  (exists k, nth_error (carriers (f_s s)) 0 = Some k /\ k_state k = K_Dead /\ full_wire s 0 k = [131; 70]) /\
  (exists k, nth_error (carriers (f_s s)) 1 = Some k /\ full_wire s 1 k = [129; 90]) /\
  (exists k, nth_error (carriers (f_s s)) 2 = Some k /\ full_wire s 2 k = [129; 80]) /\
  fail_send (f_s (frun [F_Op S_New; F_Op (S_Recv 0 (TOKEN ++ a)); F_Op (S_WriteTo a [70; 71; 72])])) 0 2
    = (f_s (frun [F_Op S_New; F_Op (S_Recv 0 (TOKEN ++ a)); F_Op (S_WriteTo a [70; 71; 72]); F_SendFail 0 2]), Some [131; 70]).
Proof. vm_compute. repeat split; eexists; repeat split. Qed.
