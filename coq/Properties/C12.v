(* C12 — Broker messages round-trip and invalid ones are rejected.
   Model: Model/JsonBoundary.v (Go's typed unmarshalling over a JSON value) + Model/Messages.v; for "never a panic",
   Model/MessagesPanic.v (the same decoders with every partial operation of the Go code a step that may panic).
   Vocabulary (Proofs/MessagesProofs.v):
     fstr v "F" / fint / fptr   the message's value for field F: its last occurrence (keys compared
                                after case folding) that is a string / integer literal / string-or-null
     well_typed sc v            v is an object (or null) and every entry whose key folds to a field
                                name of schema sc carries null or a value of that field's JSON kind
                                (int fields: an integer literal within int64)
     valid_nat n                n is "", "unknown", "restricted" or "unrestricted"
     fingerprint_valid fp       fp is the hex encoding of 20 or 32 bytes
   encoding/json's byte-level parser/printer are Section variables of the *_bytes theorems. *)
From Coq Require Import List NArith ZArith Bool String.
From Snow Require Import Lib.Wire Lib.WireFacts Model.JsonBoundary Model.Messages Proofs.MessagesProofs.
From Snow Require Import Model.MessagesPanic Proofs.MessagesPanicProofs.
Import ListNotations.
Open Scope N_scope.

(* ---- Go's single pass over the object is the per-field reading used below (any schema
   whose folded field names are distinct, which holds for the six message structs) *)
Theorem C12_unmarshal_is_per_field_reading : forall sc v, nodup_folds sc ->
  unmarshal sc v =
  if typed_okb sc v then Some (map (fun fd => fieldval (snd fd) (hits (fst fd) (entries v))) sc) else None.
Proof. exact unmarshal_eq. Qed.

Theorem C12_well_typed_reading : forall sc v, typed_okb sc v = true <-> well_typed sc v.
Proof. exact typed_okb_iff. Qed.

(* ---- round trips: for ALL field values (any byte strings, any int64 count) *)
Theorem C12_roundtrip_proxy_poll : forall sid ty nat n pat,
  sid <> [] -> valid_nat nat -> int64 n ->
  decode_proxy_poll (encode_proxy_poll sid ty nat n pat) =
  Ok {| pq_sid := sid; pq_type := norm_type ty; pq_nat := nat_default nat; pq_clients := n;
        pq_pattern := pat; pq_aware := true |}.
Proof.
  intros sid ty nat n pat Hs Hn Hi.
  rewrite decode_proxy_poll_eq. unfold poll_req_acceptb, poll_req_of. eval_enc.
  rewrite (parse_print_int n Hi), (beq_nil_false sid Hs), (proj2 (valid_natb_iff nat) Hn). reflexivity.
Qed.

Theorem C12_roundtrip_proxy_poll_legacy : forall sid ty nat n,
  sid <> [] -> valid_nat nat -> int64 n ->
  decode_proxy_poll_legacy (encode_proxy_poll_legacy sid ty nat n) = Ok (sid, norm_type ty, nat_default nat, n).
Proof.
  intros sid ty nat n Hs Hn Hi. unfold decode_proxy_poll_legacy, encode_proxy_poll_legacy.
  rewrite (C12_roundtrip_proxy_poll sid ty nat n [] Hs Hn Hi). reflexivity.
Qed.

Theorem C12_roundtrip_poll_response : forall offer success nat relay reason,
  decode_poll_response (encode_poll_response offer success nat relay reason) =
  if success then (if beq offer [] then Err else Ok (offer, nat_default nat, relay))
  else if beq reason NO_MATCH then Ok ([], NAT_UNKNOWN, []) else Err.
Proof.
  intros offer success nat relay reason. rewrite decode_poll_response_eq. unfold poll_resp_acceptb, poll_resp_of.
  destruct success; unfold encode_poll_response; eval_enc.
  - destruct (beq offer []); reflexivity.
  - destruct (beq reason NO_MATCH) eqn:E.
    + apply beq_eq in E. subst reason. reflexivity.
    + destruct (beq reason []); [reflexivity|]. destruct (beq reason CLIENT_MATCH); reflexivity.
Qed.

(* The failure reason of a proxy poll response is a field of the message: the Go decoder hands it to the caller as the
   text of the error it returns (together with the NAT type and relay URL).  decode_poll_response_reason is
   decode_poll_response with that error class split off; the reason comes back byte for byte. *)
Theorem C12_poll_response_reason_refines : forall v,
  decode_poll_response v = match decode_poll_response_reason v with PROk r => Ok r | _ => Err end.
Proof. exact poll_response_reason_refines. Qed.

Theorem C12_roundtrip_poll_response_reason : forall offer nat relay reason,
  reason <> [] -> reason <> CLIENT_MATCH -> reason <> NO_MATCH ->
  decode_poll_response_reason (encode_poll_response offer false nat relay reason) = PRReason reason NAT_UNKNOWN [].
Proof.
  intros offer nat relay reason H0 H1 H2. rewrite decode_poll_response_reason_eq.
  unfold poll_resp_acceptb, encode_poll_response; eval_enc.
  rewrite (beq_nil_false _ H0), (proj2 (beq_neq _ _) H1), (proj2 (beq_neq _ _) H2). reflexivity.
Qed.

Theorem C12_poll_response_reason_is_status : forall v s n u,
  decode_poll_response_reason v = PRReason s n u ->
  s = fstr v "Status" /\ n = nat_default (fstr v "NAT") /\ u = fstr v "RelayURL" /\
  s <> [] /\ s <> CLIENT_MATCH /\ s <> NO_MATCH.
Proof.
  intros v s n u. rewrite decode_poll_response_reason_eq. unfold poll_resp_acceptb.
  destruct (typed_okb poll_resp_schema v); cbn [andb]; [|discriminate].
  destruct (beq (fstr v "Status") []) eqn:S0; cbn [negb andb]; [discriminate|]. apply beq_neq in S0.
  destruct (beq (fstr v "Status") CLIENT_MATCH) eqn:S1; cbn [negb]; [destruct (negb _); discriminate|]. apply beq_neq in S1.
  destruct (beq (fstr v "Status") NO_MATCH) eqn:S2; [discriminate|]. apply beq_neq in S2.
  intros H. injection H as <- <- <-. repeat split; assumption.
Qed.

Example C12_poll_response_reason_example :
  decode_poll_response_reason (encode_poll_response [] false [] [] (bs "broker is 100% busy")) =
  PRReason (bs "broker is 100% busy") NAT_UNKNOWN [].
Proof. vm_compute. reflexivity. Qed.

Theorem C12_roundtrip_answer_request : forall answer sid,
  answer <> [] -> sid <> [] ->
  decode_answer_request (encode_answer_request answer sid) = Ok (answer, sid).
Proof.
  intros answer sid Ha Hs. rewrite decode_answer_request_eq. unfold answer_req_acceptb. eval_enc.
  rewrite (beq_nil_false _ Ha), (beq_nil_false _ Hs). reflexivity.
Qed.

Theorem C12_roundtrip_answer_response : forall b, decode_answer_response (encode_answer_response b) = Ok b.
Proof. intros []; reflexivity. Qed.

Theorem C12_roundtrip_client_poll_request : forall offer nat fp,
  offer <> [] -> valid_nat nat -> fingerprint_valid (fp_default fp) ->
  decode_client_poll_body (encode_client_poll offer nat fp) = Ok (offer, nat_default nat, fp_default fp).
Proof. exact roundtrip_client_poll_body. Qed.

Theorem C12_roundtrip_client_poll_response : forall answer error,
  answer <> [] \/ error <> [] ->
  decode_client_response (encode_client_response answer error) = Ok (answer, error).
Proof.
  intros answer error H. rewrite decode_client_response_eq. unfold encode_client_response, omitempty.
  destruct (beq answer []) eqn:Ea; destruct (beq error []) eqn:Ee.
  - apply beq_eq in Ea, Ee. subst. destruct H as [H|H]; contradiction H; reflexivity.
  - apply beq_eq in Ea. subst answer. unfold jstr_field. eval_enc. rewrite Ee. reflexivity.
  - apply beq_eq in Ee. subst error. unfold jstr_field. eval_enc. rewrite Ea. reflexivity.
  - unfold jstr_field. eval_enc. rewrite Ea, Ee. reflexivity.
Qed.

(* byte level, over the library: parse (print v) = Some v for the printable values *)
Theorem C12_roundtrip_bytes : forall (parse : bytes -> option json) (print : json -> bytes) (printable : json -> Prop),
  (forall v, printable v -> parse (print v) = Some v) ->
  forall (A : Type) (d : json -> result A) v r, printable v -> d v = r -> opt_decode d (parse (print v)) = r.
Proof. exact roundtrip_bytes. Qed.

Theorem C12_roundtrip_client_poll_request_bytes :
  forall (parse : bytes -> option json) (print : json -> bytes) (printable : json -> Prop),
  (forall v, printable v -> parse (print v) = Some v) ->
  forall offer nat fp, printable (encode_client_poll offer nat fp) ->
  offer <> [] -> valid_nat nat -> fingerprint_valid (fp_default fp) ->
  decode_client_poll parse (encode_client_poll_bytes print offer nat fp) = Ok (offer, nat_default nat, fp_default fp).
Proof. exact roundtrip_client_poll_bytes. Qed.

Theorem C12_int_field_roundtrip : forall z, int64 z -> parse_int64 (print_int z) = Some z.
Proof. exact parse_print_int. Qed.

(* ---- documented defaults *)
Theorem C12_defaults :
  (forall v r, decode_proxy_poll v = Ok r -> absent "NAT" v -> pq_nat r = NAT_UNKNOWN) /\
  (forall v r, decode_proxy_poll v = Ok r -> known_type (fstr v "Type") = false -> pq_type r = PROXY_UNKNOWN) /\
  (forall v r, decode_proxy_poll v = Ok r -> known_type (fstr v "Type") = true -> pq_type r = fstr v "Type") /\
  (forall v r, decode_proxy_poll v = Ok r -> absent "AcceptedRelayPattern" v -> pq_aware r = false /\ pq_pattern r = []) /\
  (forall v r p, decode_proxy_poll v = Ok r -> fptr v "AcceptedRelayPattern" = Some p -> pq_aware r = true /\ pq_pattern r = p) /\
  (forall v o n u, decode_poll_response v = Ok (o, n, u) -> absent "NAT" v -> n = NAT_UNKNOWN) /\
  (forall v o n f, decode_client_poll_body v = Ok (o, n, f) -> absent "nat" v -> n = NAT_UNKNOWN) /\
  (forall v o n f, decode_client_poll_body v = Ok (o, n, f) -> absent "fingerprint" v -> f = DEFAULT_FINGERPRINT).
Proof. exact defaults. Qed.

(* ---- rejection: for EVERY JSON value, Err exactly for the protocol's reasons; accepted
   values decode to the message's fields *)
Theorem C12_reject_iff_proxy_poll : forall v,
  decode_proxy_poll v = Err <->
  ~ well_typed poll_req_schema v \/ before_dot (fstr v "Version") <> bs "1" \/ fstr v "Sid" = []
  \/ ~ valid_nat (fstr v "NAT").
Proof.
  intros v. rewrite decode_proxy_poll_eq, if_err. unfold poll_req_acceptb.
  rewrite !andb_false_iff, negb_false_iff, beq_eq. unfold major_ok.
  rewrite <- typed_okb_iff, <- valid_natb_iff, beq_neq, !not_true_iff_false. tauto.
Qed.

Theorem C12_accept_proxy_poll : forall v r, decode_proxy_poll v = Ok r ->
  r = {| pq_sid := fstr v "Sid"; pq_type := norm_type (fstr v "Type"); pq_nat := nat_default (fstr v "NAT");
         pq_clients := fint v "Clients";
         pq_pattern := match fptr v "AcceptedRelayPattern" with Some p => p | None => [] end;
         pq_aware := match fptr v "AcceptedRelayPattern" with Some _ => true | None => false end |}.
Proof. exact accept_proxy_poll. Qed.

Theorem C12_reject_iff_proxy_poll_legacy : forall v,
  decode_proxy_poll_legacy v = Err <->
  decode_proxy_poll v = Err \/ exists r, decode_proxy_poll v = Ok r /\ pq_pattern r <> [].
Proof.
  intros v. unfold decode_proxy_poll_legacy. destruct (decode_proxy_poll v) as [r|]; [|split; auto].
  rewrite if_err, beq_neq. split; [eauto|]. intros [H|(r' & [= <-] & N)]; [discriminate | exact N].
Qed.

Theorem C12_reject_iff_poll_response : forall v,
  decode_poll_response v = Err <->
  ~ well_typed poll_resp_schema v \/ fstr v "Status" = []
  \/ (fstr v "Status" = CLIENT_MATCH /\ fstr v "Offer" = [])
  \/ (fstr v "Status" <> CLIENT_MATCH /\ fstr v "Status" <> NO_MATCH).
Proof.
  intros v. rewrite decode_poll_response_eq, if_err. unfold poll_resp_acceptb.
  rewrite !andb_false_iff, negb_false_iff, beq_eq, <- typed_okb_iff, not_true_iff_false.
  destruct (beq (fstr v "Status") CLIENT_MATCH) eqn:S1; [apply beq_eq in S1 | apply beq_neq in S1].
  - rewrite negb_false_iff, beq_eq. tauto.
  - rewrite beq_neq. tauto.
Qed.

Theorem C12_accept_poll_response : forall v r, decode_poll_response v = Ok r ->
  r = ((if beq (fstr v "Status") CLIENT_MATCH then fstr v "Offer" else []),
       nat_default (fstr v "NAT"), fstr v "RelayURL").
Proof. exact accept_poll_response. Qed.

Theorem C12_reject_iff_poll_response_legacy : forall v,
  decode_poll_response_legacy v = Err <->
  decode_poll_response v = Err \/ exists o n u, decode_poll_response v = Ok (o, n, u) /\ u <> [].
Proof.
  intros v. unfold decode_poll_response_legacy. destruct (decode_poll_response v) as [[[o n] u]|]; [|split; auto].
  rewrite if_err, beq_neq. split; [eauto 6|]. intros [H|(o' & n' & u' & [= <- <- <-] & N)]; [discriminate | exact N].
Qed.

Theorem C12_reject_iff_answer_request : forall v,
  decode_answer_request v = Err <->
  ~ well_typed answer_req_schema v \/ before_dot (fstr v "Version") <> bs "1" \/ fstr v "Sid" = []
  \/ fstr v "Answer" = [].
Proof.
  intros v. rewrite decode_answer_request_eq, if_err. unfold answer_req_acceptb.
  rewrite !andb_false_iff, negb_false_iff, orb_true_iff, !beq_eq. unfold major_ok.
  rewrite <- typed_okb_iff, beq_neq, !not_true_iff_false. tauto.
Qed.

Theorem C12_accept_answer_request : forall v r, decode_answer_request v = Ok r -> r = (fstr v "Answer", fstr v "Sid").
Proof. intros v r. rewrite decode_answer_request_eq. destruct (answer_req_acceptb v); congruence. Qed.

Theorem C12_reject_iff_answer_response : forall v,
  decode_answer_response v = Err <-> ~ well_typed answer_resp_schema v \/ fstr v "Status" = [].
Proof.
  intros v. rewrite decode_answer_response_eq, if_err.
  rewrite andb_false_iff, negb_false_iff, beq_eq, <- typed_okb_iff, not_true_iff_false. tauto.
Qed.

Theorem C12_accept_answer_response : forall v b, decode_answer_response v = Ok b ->
  (b = true <-> fstr v "Status" = SUCCESS).
Proof.
  intros v b. rewrite decode_answer_response_eq.
  destruct (typed_okb answer_resp_schema v && negb (beq (fstr v "Status") [])); [|discriminate].
  intros H. injection H as <-. apply beq_eq.
Qed.

Theorem C12_reject_iff_client_poll_request : forall (parse : bytes -> option json) data,
  decode_client_poll parse data = Err <->
  ~ In 10 data
  \/ exists ver body, split_nl data = Some (ver, body) /\
       (ver <> CLIENT_VERSION \/ parse body = None \/
        exists v, parse body = Some v /\
          (~ well_typed client_req_schema v \/ fstr v "offer" = []
           \/ ~ fingerprint_valid (fp_default (fstr v "fingerprint")) \/ ~ valid_nat (fstr v "nat"))).
Proof. exact reject_iff_client_poll. Qed.

Theorem C12_split_version_line : forall l a b, split_nl l = Some (a, b) -> l = a ++ 10 :: b /\ ~ In 10 a.
Proof. exact split_nl_some. Qed.

Theorem C12_accept_client_poll_request : forall (parse : bytes -> option json) data r,
  decode_client_poll parse data = Ok r ->
  exists body v, data = CLIENT_VERSION ++ 10 :: body /\ parse body = Some v /\
    r = (fstr v "offer", nat_default (fstr v "nat"), fp_default (fstr v "fingerprint")).
Proof.
  intros parse data r H. destruct (client_poll_accept parse data r H) as (body & v & D & P & E).
  exists body, v. split; [assumption|]. split; [assumption|]. apply accept_client_poll_body. assumption.
Qed.

Theorem C12_reject_iff_client_poll_response : forall v,
  decode_client_response v = Err <->
  ~ well_typed client_resp_schema v \/ (fstr v "answer" = [] /\ fstr v "error" = []).
Proof.
  intros v. rewrite decode_client_response_eq, if_err.
  rewrite andb_false_iff, negb_false_iff, andb_true_iff, !beq_eq, <- typed_okb_iff, not_true_iff_false. tauto.
Qed.

Theorem C12_accept_client_poll_response : forall v r, decode_client_response v = Ok r -> r = (fstr v "answer", fstr v "error").
Proof.
  intros v r. rewrite decode_client_response_eq.
  destruct (typed_okb client_resp_schema v && negb (beq (fstr v "error") [] && beq (fstr v "answer") [])); congruence.
Qed.

(* every decoder over bytes: Err iff the library refuses the bytes or the value is rejected *)
Theorem C12_reject_iff_bytes : forall (parse : bytes -> option json) (A : Type) (d : json -> result A) data,
  opt_decode d (parse data) = Err <-> parse data = None \/ exists v, parse data = Some v /\ d v = Err.
Proof. exact reject_iff_bytes. Qed.

(* ---- "return an error, never a panic".  Model/MessagesPanic.v: the decoders at the granularity at which
   the Go code can panic - parts[0] / parts[1] after bytes.SplitN, strings.Split(v, ".")[0], the dereference
   *message.AcceptedRelayPattern, (and reading a struct field at its static type, a model artefact) are steps
   that yield [DPanic]; [CODE] = the two checks as written, [GO] = executable models of the two library calls
   (tied to the real ones by the ops vsplit / nsplit).  For EVERY byte string, through the library parser
   (None = not one valid JSON text), none of the eight exported decoders reaches DPanic.
   encoding/json's own panic freedom is observed on every case, not proved. *)
Theorem C12_decoders_never_panic : forall (parse : bytes -> option json) (data : bytes) (w : dwhy),
  opt_decode_g decode_proxy_poll_code (parse data) <> DPanic w                 (* DecodeProxyPollRequestWithRelayPrefix *)
  /\ opt_decode_g decode_proxy_poll_legacy_code (parse data) <> DPanic w       (* DecodeProxyPollRequest *)
  /\ opt_decode_g decode_poll_response_g (parse data) <> DPanic w              (* DecodePollResponseWithRelayURL *)
  /\ opt_decode_g decode_poll_response_legacy_g (parse data) <> DPanic w       (* DecodePollResponse *)
  /\ opt_decode_g decode_answer_request_code (parse data) <> DPanic w          (* DecodeAnswerRequest *)
  /\ opt_decode_g decode_answer_response_g (parse data) <> DPanic w            (* DecodeAnswerResponse *)
  /\ decode_client_poll_code parse data <> DPanic w                            (* DecodeClientPollRequest *)
  /\ opt_decode_g decode_client_response_g (parse data) <> DPanic w.           (* DecodeClientPollResponse *)
Proof. intros parse data. apply decoders_never_panic_lib. apply GO_split_ok. Qed.

(* the same for any library whose Split returns at least one element (all the code needs of strings.Split;
   of bytes.SplitN it needs nothing: `len(parts) < 2` covers every slice) *)
Theorem C12_decoders_never_panic_any_library : forall (L : libs), (forall s, l_split L s <> []) ->
  forall (parse : bytes -> option json) (data : bytes), never_panics L parse data.
Proof. exact decoders_never_panic_lib. Qed.

Example C12_any_library_nonvacuous : (forall s, l_split GO s <> []) /\ (forall s, l_split (mkLibs (fun s => [s]) (fun _ => [])) s <> []).
Proof. split; [exact GO_split_ok | intros s; discriminate]. Qed.

(* the executable models of the two library calls are the library's specification *)
Theorem C12_split_spec : forall s : bytes,
  nth_error (split_dot s) 0 = Some (before_dot s)
  /\ List.length (split_dot s) = S (count_dots s)
  /\ join [46] (split_dot s) = s
  /\ Forall (fun p => ~ In 46 p) (split_dot s).
Proof. intros s. split; [apply split_dot_head | apply split_dot_spec]. Qed.

Theorem C12_splitn_spec : forall data : bytes,
  (splitn_nl data = [data] /\ ~ In 10 data)
  \/ exists a b, splitn_nl data = [a; b] /\ data = a ++ 10 :: b /\ ~ In 10 a.
Proof.
  intros data. unfold splitn_nl. destruct (split_nl data) as [[a b]|] eqn:E.
  - right. exists a, b. split; [reflexivity|]. apply split_nl_some. exact E.
  - left. split; [reflexivity|]. apply split_nl_none. exact E.
Qed.

(* refinement: the fine decoders return exactly what the decoders of Model/Messages.v return, so every
   theorem above (round trips, defaults, reject_iff, accept) is a theorem about them *)
Theorem C12_decoders_refine : forall (parse : bytes -> option json) (data : bytes),
  opt_decode_g decode_proxy_poll_code (parse data) = DVal (opt_decode decode_proxy_poll (parse data))
  /\ opt_decode_g decode_proxy_poll_legacy_code (parse data) = DVal (opt_decode decode_proxy_poll_legacy (parse data))
  /\ opt_decode_g decode_poll_response_g (parse data) = DVal (opt_decode decode_poll_response (parse data))
  /\ opt_decode_g decode_poll_response_legacy_g (parse data) = DVal (opt_decode decode_poll_response_legacy (parse data))
  /\ opt_decode_g decode_answer_request_code (parse data) = DVal (opt_decode decode_answer_request (parse data))
  /\ opt_decode_g decode_answer_response_g (parse data) = DVal (opt_decode decode_answer_response (parse data))
  /\ decode_client_poll_code parse data = DVal (decode_client_poll parse data)
  /\ opt_decode_g decode_client_response_g (parse data) = DVal (opt_decode decode_client_response (parse data)).
Proof.
  intros parse data.
  repeat split; try apply opt_decode_refines;
    [ apply proxy_poll_refines | apply proxy_poll_legacy_refines | apply poll_response_refines
    | apply poll_response_legacy_refines | apply answer_request_refines | apply answer_response_refines
    | apply client_poll_refines | apply client_response_refines ].
Qed.

Theorem C12_decoders_refine_values :
  (forall v, decode_proxy_poll_code v = DVal (decode_proxy_poll v))
  /\ (forall v, decode_proxy_poll_legacy_code v = DVal (decode_proxy_poll_legacy v))
  /\ (forall v, decode_poll_response_g v = DVal (decode_poll_response v))
  /\ (forall v, decode_poll_response_legacy_g v = DVal (decode_poll_response_legacy v))
  /\ (forall v, decode_answer_request_code v = DVal (decode_answer_request v))
  /\ (forall v, decode_answer_response_g v = DVal (decode_answer_response v))
  /\ (forall v, decode_client_poll_body_g v = DVal (decode_client_poll_body v))
  /\ (forall v, decode_client_response_g v = DVal (decode_client_response v)).
Proof.
  repeat split; [apply proxy_poll_refines | apply proxy_poll_legacy_refines | apply poll_response_refines
                | apply poll_response_legacy_refines | apply answer_request_refines | apply answer_response_refines
                | apply client_poll_body_refines | apply client_response_refines].
Qed.

(* each check the code makes is the reason its step is safe: without it there is an input on which the
   function panics, which the code as written answers with an error / a value *)
Theorem C12_len_guard_needed : forall parse : bytes -> option json,
  decode_client_poll_g (mkGuards false true) GO parse (bs "1.0") = DPanic WIndex
  /\ decode_client_poll_code parse (bs "1.0") = DVal Err.
Proof. intros parse. split; reflexivity. Qed.

Theorem C12_nil_guard_needed :
  let v := JObj [(bs "Sid", JStr (bs "x")); (bs "Version", JStr (bs "1.2"))] in
  decode_proxy_poll_g (mkGuards true false) GO v = DPanic WNilDeref
  /\ decode_proxy_poll_code v =
     DVal (Ok {| pq_sid := bs "x"; pq_type := bs "unknown"; pq_nat := bs "unknown"; pq_clients := 0%Z;
                 pq_pattern := []; pq_aware := false |}).
Proof. split; vm_compute; reflexivity. Qed.

(* strings.Split(message.Version, ".")[0] has no check: it rests on the library (C12_split_spec); and
   `len(parts) < 2` is enough even for a SplitN that returned an empty slice *)
Theorem C12_split_contract_needed :
  let L := mkLibs (fun _ => []) splitn_nl in
  decode_proxy_poll_g CODE L (JObj [(bs "Sid", JStr (bs "x")); (bs "Version", JStr (bs "1.2"))]) = DPanic WIndex
  /\ decode_answer_request_g L (JObj []) = DPanic WIndex.
Proof. split; vm_compute; reflexivity. Qed.

Theorem C12_len_guard_suffices :
  decode_client_poll_g CODE (mkLibs split_dot (fun _ => [])) (fun _ => None) [] = DVal Err
  /\ decode_client_poll_g (mkGuards false true) (mkLibs split_dot (fun _ => [])) (fun _ => None) [] = DPanic WIndex.
Proof. split; reflexivity. Qed.

(* encoders: the only partial operation is the pointer receiver of EncodeClientPollRequest (every call site
   in the repository passes the address of a struct literal); EncodePollResponse on a nil receiver marshals null *)
Theorem C12_encoders_never_panic :
  (forall offer nat fp, encode_client_poll_g (Some (offer, nat, fp)) = DVal (Ok (encode_client_poll offer nat fp)))
  /\ (forall resp w, encode_client_response_g resp <> DPanic w).
Proof. split; [exact encode_client_poll_safe | intros resp w; apply not_panic; apply encode_client_response_safe]. Qed.

Theorem C12_encode_nil_receiver :
  encode_client_poll_g None = DPanic WNilDeref /\ encode_client_response_g None = DVal (Ok JNull).
Proof. split; reflexivity. Qed.

(* ---- non-vacuity *)
Definition ex_poll : json :=
  JObj [(bs "Sid", JStr (bs "x")); (bs "version", JStr (bs "1.3")); (bs "Sid", JNull); (bs "clients", JNum (bs "8"))].

Example ex_poll_accepted :
  decode_proxy_poll ex_poll =
  Ok {| pq_sid := bs "x"; pq_type := bs "unknown"; pq_nat := bs "unknown"; pq_clients := 8%Z; pq_pattern := []; pq_aware := false |}.
Proof. vm_compute. reflexivity. Qed.
Example ex_poll_defaults_hyps : absent "NAT" ex_poll /\ absent "AcceptedRelayPattern" ex_poll /\ known_type (fstr ex_poll "Type") = false.
Proof.
  repeat split; try (intros key x [H|[H|[H|[H|[]]]]]; injection H as <- <-; vm_compute; discriminate).
Qed.
Example ex_poll_pattern :
  let v := JObj [(bs "Sid", JStr (bs "x")); (bs "Version", JStr (bs "1")); (bs "acceptedrelaypattern", JStr (bs "^a$"))] in
  fptr v "AcceptedRelayPattern" = Some (bs "^a$") /\ exists r, decode_proxy_poll v = Ok r.
Proof. split; [vm_compute; reflexivity | eexists; vm_compute; reflexivity]. Qed.
Example ex_poll_response_no_nat :
  let v := JObj [(bs "Status", JStr (bs "client match")); (bs "Offer", JStr (bs "o"))] in
  absent "NAT" v /\ decode_poll_response v = Ok (bs "o", bs "unknown", []).
Proof.
  split; [|vm_compute; reflexivity].
  intros key x [H|[H|[]]]; injection H as <- <-; vm_compute; discriminate.
Qed.
Example ex_client_body_defaults :
  let v := JObj [(bs "offer", JStr (bs "o"))] in
  absent "nat" v /\ absent "fingerprint" v /\ decode_client_poll_body v = Ok (bs "o", bs "unknown", DEFAULT_FINGERPRINT).
Proof.
  repeat split; try (intros key x [H|[]]; injection H as <- <-; vm_compute; discriminate).
Qed.
Example ex_poll_rejected : decode_proxy_poll (JObj [(bs "Sid", JStr (bs "x")); (bs "Version", JStr (bs "10.0"))]) = Err.
Proof. vm_compute. reflexivity. Qed.
Example ex_roundtrip_hyps : bs "sid" <> [] /\ valid_nat (bs "restricted") /\ int64 (-9223372036854775808)%Z
  /\ fingerprint_valid (fp_default []) /\ (bs "a" <> [] \/ (@nil N) <> []).
Proof.
  repeat split; try discriminate.
  - right; right; left; reflexivity.
  - apply fingerprint_ok_iff. vm_compute. reflexivity.
  - left. discriminate.
Qed.
Example ex_client_poll :
  decode_client_poll (fun _ => Some (JObj [(bs "offer", JStr (bs "o")); (bs "fingerprint", JStr (bs "00"))])) (bs "1.0" ++ 10 :: bs "{}") = Err
  /\ decode_client_poll (fun _ => Some (JObj [(bs "offer", JStr (bs "o"))])) (bs "1.0" ++ 10 :: bs "{}")
     = Ok (bs "o", bs "unknown", DEFAULT_FINGERPRINT).
Proof. split; vm_compute; reflexivity. Qed.
Example ex_nodup : nodup_folds poll_req_schema /\ nodup_folds poll_resp_schema /\ nodup_folds answer_req_schema
  /\ nodup_folds answer_resp_schema /\ nodup_folds client_req_schema /\ nodup_folds client_resp_schema.
Proof.
  repeat split; [apply nodup_poll_req | apply nodup_poll_resp | apply nodup_answer_req | apply nodup_answer_resp
                | apply nodup_client_req | apply nodup_client_resp].
Qed.
