(* C19 — published broker counts are rounded up to 8 and never too low; unique addresses; distinct-IP journal.
   Models: Model/Round8.v, Model/Metrics.v, Model/Journal.v, Model/BrokerJournal.v, Model/JournalConc.v.
   Proofs: Proofs/Round8Proofs.v, MetricsProofs.v, MetricsGeoProofs.v, JournalProofs.v, BrokerJournalProofs.v,
           JournalConcProofs.v. *)
From Coq Require Import List NArith ZArith Bool Lia.
From Snow Require Import Lib.Wire Model.Round8 Model.Metrics Model.Journal Model.BrokerJournal Model.JournalConc.
From Snow Require Import Proofs.Round8Proofs Proofs.MetricsProofs Proofs.MetricsGeoProofs Proofs.JournalProofs Proofs.BrokerJournalProofs
  Proofs.JournalConcProofs.
Import ListNotations.

(* ---- binCount (float64 exact below 2^53: stated limitation, floats are not modelled) ---- *)
Theorem C19_bin_spec : forall n : N, (n <= bin n /\ bin n < n + 8 /\ N.divide 8 (bin n))%N.
Proof. exact bin_spec. Qed.

Theorem C19_bin_unique : forall n v : N, (n <= v -> v < n + 8 -> N.divide 8 v -> v = bin n)%N.
Proof. intros n v H1 H2 [z ->]. destruct (bin_char n) as [q [-> H]]. lia. Qed.

(* ---- roundedCounter.Inc, sequential: after n Incs (total, value) = (n, bin n) ---- *)
Theorem C19_inc_seq : forall n : nat, incs n rc0 = (N.of_nat n, bin (N.of_nat n)).
Proof. exact inc_seq_from_zero. Qed.

(* ---- the pinned Inc (atomic add; plain reads; atomic add) under interleaving: REFUTED ---- *)
(* two threads: 10 Incs completed, published value 24 > bin 10 = 16 *)
Theorem C19_inc_conc_refuted :
  exists sched, let s := run0 sched init0 in
    quiescent0 2 s = true /\ done0 s = 10%nat /\ total0 s = 10%N /\ value0 s = 24%N /\ bin 10 = 16%N.
Proof. exists sched_overshoot. vm_compute. repeat split; reflexivity. Qed.

(* nine threads: 9 Incs completed, published value 8 < 9: lower than the truth, and it stays so *)
Theorem C19_inc_conc_refuted_low :
  exists sched, let s := run0 sched init0 in
    quiescent0 9 s = true /\ done0 s = 9%nat /\ total0 s = 9%N /\ value0 s = 8%N.
Proof. exists sched_undershoot. vm_compute. repeat split; reflexivity. Qed.

(* ---- the repaired Inc/Write (one mutex), every schedule of any number of threads ---- *)
(* whatever a scrape (Write) can read is bin(number of completed Incs), and then no Inc is in flight *)
Theorem C19_inc_conc : forall (sched : list nat) (v : N),
  observer (runr sched initr) = Some v ->
  v = bin (N.of_nat (doner (runr sched initr))) /\ startedr (runr sched initr) = doner (runr sched initr).
Proof.
  intros sched v H. pose proof (Inv_reach sched) as HI. unfold observer in H. unfold Inv in HI.
  destruct (lockr (runr sched initr)); [discriminate|]. inversion H; subst v.
  destruct HI as [_ [Hv [Ht Hs]]]. rewrite Hv, Ht. auto.
Qed.

(* at every intermediate point: completed <= value <= bin(started), value a multiple of 8, at most one Inc in flight *)
Theorem C19_inc_conc_always : forall sched : list nat,
  let s := runr sched initr in
  (N.of_nat (doner s) <= valuer s /\ valuer s <= bin (N.of_nat (startedr s)) /\ N.divide 8 (valuer s))%N /\
  (startedr s = doner s \/ startedr s = S (doner s)).
Proof.
  intros sched s. pose proof (Inv_reach sched) as HI. fold s in HI. unfold Inv in HI.
  destruct (lockr s) as [h|].
  - destruct HI as [_ [Hst Hpc]]. rewrite Hst. destruct (inv_pc_value _ _ _ _ Hpc) as [[G1 G2] G3]. auto.
  - destruct HI as [_ [Hv [Ht Hst]]]. rewrite Hst, Hv, <- Ht.
    destruct (bin_between (totalr s) (totalr s) (totalr s)) as [[G1 G2] G3]; [lia | auto].
Qed.

(* when all threads are outside Inc: the state is that of the sequential counter after the same number of Incs *)
Theorem C19_inc_conc_final : forall sched : list nat,
  let s := runr sched initr in
  (forall j, pcsr s j = IR) ->
  lockr s = None /\ totalr s = N.of_nat (doner s) /\ valuer s = bin (totalr s) /\ startedr s = doner s /\
  (totalr s, valuer s) = incs (doner s) rc0.
Proof.
  intros sched s Hq. pose proof (Inv_reach sched) as HI. fold s in HI. unfold Inv in HI.
  destruct (lockr s) as [h|].
  - destruct HI as [_ [_ Hpc]]. rewrite (Hq h) in Hpc. contradiction.
  - destruct HI as [_ [Hv [Ht Hst]]]. repeat split; auto.
    rewrite inc_seq_from_zero, Hv, Ht. reflexivity.
Qed.

(* the mutex never wedges the counter: its holder can always move, and when it is free every thread can *)
Theorem C19_inc_conc_progress : forall (sched : list nat) (i : nat),
  exists j, stepr (runr sched initr) j <> None /\ (lockr (runr sched initr) = None -> j = i).
Proof.
  intros sched i. pose proof (Inv_reach sched) as HI. unfold Inv in HI.
  destruct (lockr (runr sched initr)) as [h|] eqn:EL.
  - exists h. split; [|discriminate]. unfold stepr. destruct HI as [_ [_ Hpc]].
    destruct (pcsr (runr sched initr) h); cbn in Hpc; try contradiction; discriminate.
  - exists i. split; [|reflexivity]. unfold stepr. destruct HI as [Hid _]. rewrite (Hid i), EL. discriminate.
Qed.

Example C19_inc_conc_final_nonvacuous :
  let s := runr [0;0;0;0;0; 1;1;1;1]%nat initr in (forall j, pcsr s j = IR) /\ valuer s = 8%N /\ doner s = 2%nat.
Proof. cbv zeta. split; [|split; reflexivity]. intro j. destruct j as [|[|j]]; reflexivity. Qed.
Example C19_inc_conc_nonvacuous : observer (runr [0;0;0;0;0]%nat initr) = Some 8%N.
Proof. reflexivity. Qed.

(* the [sched] runner op (executed against the real roundedCounter under the same forced lock order) prints from
   [runr_trace]: its n-th state IS [runr] of the first n+1 schedule entries, the machine of the theorems above *)
Theorem C19_inc_sched_states : forall (sched : list nat) (s : str) (n : nat), (n < List.length sched)%nat ->
  nth_error (runr_trace sched s) n = Some (runr (firstn (S n) sched) s).
Proof. exact runr_trace_nth. Qed.
Example C19_inc_sched_example :
  map observer (runr_trace [0;1;0;0;1;0;0;1;1]%nat initr) =
  [None; None; None; None; None; None; Some 8%N; None; None].
Proof. reflexivity. Qed.

(* ---- broker counters: every figure of printMetrics and of the rounded prometheus counters ---- *)
Theorem C19_counts : forall (g : bool) (ops : list op),
  (forall e, r_ev (print (exec ops (minit g))) e = bin (count_ev e (flat_map log_events (since_zero ops)))) /\
  (forall k, prom_value (exec ops (minit g)) k = bin (count_key k (flat_map prom_events ops))).
Proof.
  intros g ops. split.
  - intro e. cbn [print r_ev]. rewrite counts_log. reflexivity.
  - intro k. unfold prom_value. destruct (counts_prom g ops k) as [H1 H2]. unfold rc_ok in H1. rewrite H1, H2. reflexivity.
Qed.

(* per-type unique figures = number of distinct addresses that polled with that normalised type since the last
   zeroMetrics (all unknown types share index 4); the total is their sum *)
Theorem C19_unique : forall (g : bool) (ops : list op),
  let r := print (exec ops (minit g)) in
  (forall t, r_type r t = distinct_polled t ops) /\
  r_total r = (distinct_polled 4 ops + (distinct_polled 0 ops + distinct_polled 1 ops + distinct_polled 2 ops + distinct_polled 3 ops))%N.
Proof.
  intros g ops r. subst r. cbn [print r_type r_total]. split.
  - intro t. apply set_len.
  - rewrite !set_len. reflexivity.
Qed.

Theorem C19_unique_sets : forall (g : bool) (ops : list op) (u : N),
  NoDup (tsets (exec ops (minit g)) u) /\
  (forall a, In a (tsets (exec ops (minit g)) u) <-> In a (flat_map (polled u) (since_zero ops))).
Proof. exact unique_sets. Qed.

(* Histories here include geoip reloads (LoadGeoipDatabases on SIGHUP, op [Reload ok]) at ANY point of a period.
   [period_geo g ops] = whether a table was loaded when the running period began, [first_sight g0 u a P] = the first
   accepted poll of address a under type class u in the period's ops P: (a table was loaded at that moment, the NAT
   type it reported, the country the table of that moment resolved it to). *)

(* NAT-type figures (snowflake-ips-nat-restricted / -unrestricted / -unknown; NOT binned by the code or the spec):
   the number of distinct addresses whose FIRST accepted poll of the period under some proxy type (the only poll
   UpdateCountryStats looks at) reported that NAT type while a geoip table was loaded *)
Theorem C19_nat_buckets : forall (g : bool) (ops : list op),
  let s := exec ops (minit g) in let r := print s in let P := since_zero ops in let g0 := period_geo g ops in
  (r_natr r = N.of_nat (List.length (nat_r s)) /\ NoDup (nat_r s) /\
   forall a, In a (nat_r s) <-> exists u c, first_sight g0 u a P = Some (true, 1%N, c)) /\
  (r_natu r = N.of_nat (List.length (nat_u s)) /\ NoDup (nat_u s) /\
   forall a, In a (nat_u s) <-> exists u c, first_sight g0 u a P = Some (true, 2%N, c)) /\
  (r_natk r = N.of_nat (List.length (nat_k s)) /\ NoDup (nat_k s) /\
   forall a, In a (nat_k s) <-> exists u n c, first_sight g0 u a P = Some (true, n, c) /\ n <> 1%N /\ n <> 2%N).
Proof.
  intros g ops s r P g0. pose proof (CInv_exec g ops) as HI. fold s P g0 in HI.
  subst r. cbn [print r_natr r_natu r_natk]. unfold len.
  split; [|split]; (split; [reflexivity | split; [apply HI|]]); intro a.
  - rewrite (ci_r _ _ _ HI a). apply ex_eq_N with (F := fun u n c => first_sight g0 u a P = Some (true, n, c)).
  - rewrite (ci_u _ _ _ HI a). apply ex_eq_N with (F := fun u n c => first_sight g0 u a P = Some (true, n, c)).
  - apply (ci_k _ _ _ HI a).
Qed.

(* country figures (snowflake-ips CC=NUM; not binned either): every country appears once, never with 0, and NUM is,
   summed over the five type classes, the number of distinct addresses of the class (the per-type sets of
   C19_unique_sets) whose first accepted poll of the period happened with a table loaded and resolved to CC - the
   attribution AT FIRST SIGHTING: a reload later in the period changes neither whether nor where an address counts *)
Theorem C19_countries : forall (g : bool) (ops : list op),
  let s := exec ops (minit g) in let r := print s in let P := since_zero ops in let g0 := period_geo g ops in
  NoDup (map fst (r_cc r)) /\ (forall kv, In kv (r_cc r) -> (0 < snd kv)%N) /\
  (forall u, NoDup (tsets s u) /\ forall a, In a (tsets s u) <-> In a (flat_map (polled u) P)) /\
  forall c, aget 0%N c (r_cc r) = ccsumg c g0 P (tsets s).
Proof.
  intros g ops s r P g0. pose proof (CInv_exec g ops) as HI.
  split; [apply HI|]. split; [apply HI|]. split; [|apply HI]. intro u. apply unique_sets.
Qed.

(* a reload by itself changes no published figure: not the log figures, not the prometheus counters, not the
   de-duplication sets; only the table state *)
Theorem C19_geoip_reload_changes_no_figure : forall (s : mstate) (ok : bool),
  print (apply_op s (Reload ok)) = print s /\ prom (apply_op s (Reload ok)) = prom s /\
  ptotal (apply_op s (Reload ok)) = ptotal s /\ tsets (apply_op s (Reload ok)) = tsets s /\
  geo (apply_op s (Reload ok)) = ok.
Proof. intros s ok. repeat split; reflexivity. Qed.

(* the two statements as they read for histories without a reload: the table state is the start-up one throughout *)
Theorem C19_countries_no_reload : forall (g : bool) (ops : list op), no_reload ops = true ->
  let s := exec ops (minit g) in let r := print s in let P := since_zero ops in
  forall c, aget 0%N c (r_cc r) = if g then ccsum c P (tsets s) else 0%N.
Proof.
  intros g ops H s r P c. destruct (C19_countries g ops) as [_ [_ [_ Hc]]]. fold s in Hc. fold r in Hc. rewrite Hc.
  destruct (no_reload_geo ops g H) as [_ ->]. apply ccsumg_const. apply no_reload_since_zero. exact H.
Qed.

Theorem C19_nat_buckets_no_reload : forall (g : bool) (ops : list op), no_reload ops = true ->
  let s := exec ops (minit g) in let P := since_zero ops in
  (forall a, In a (nat_r s) <-> g = true /\ exists u c, first_poll u a P = Some (1%N, c)) /\
  (forall a, In a (nat_u s) <-> g = true /\ exists u c, first_poll u a P = Some (2%N, c)) /\
  (forall a, In a (nat_k s) <-> g = true /\ exists u n c, first_poll u a P = Some (n, c) /\ n <> 1%N /\ n <> 2%N).
Proof.
  intros g ops H s P. pose proof (CInv_exec g ops) as HI. fold s P in HI.
  destruct (no_reload_geo ops g H) as [_ EP]. rewrite EP in HI. pose proof (no_reload_since_zero ops H) as HP. fold P in HP.
  split; [|split]; intro a.
  - rewrite (bucket_no_reload _ g P _ HP (ci_r _ _ _ HI) a), (ex_eq_N (fun u n c => first_poll u a P = Some (n, c))). reflexivity.
  - rewrite (bucket_no_reload _ g P _ HP (ci_u _ _ _ HI) a), (ex_eq_N (fun u n c => first_poll u a P = Some (n, c))). reflexivity.
  - apply (bucket_no_reload _ g P _ HP (ci_k _ _ _ HI) a).
Qed.

(* 65 (US) and 66 (CA) poll; the tables are replaced by a release that calls the same ranges SU and AC; 65 polls
   again and 67 (AC under the new table) polls: US=1 CA=1 AC=1 - the figures of before the reload are all still
   there, 65 is not counted again.  Then a reload fails (no table): 68 polls and is in the unique-address figure but
   in no country; after a good reload 68 polls again and STILL is in no country for the rest of the period (its first
   sighting was without a table). *)
Example C19_geoip_reload_example :
  let US := [85%N; 83%N] in let CA := [67%N; 65%N] in let SU := [83%N; 85%N] in let AC := [65%N; 67%N] in
  let ops := [ProxyPoll (Some ([65%N], US)) 0 1 true Idle; ProxyPoll (Some ([66%N], CA)) 0 2 true Idle; Reload true;
              ProxyPoll (Some ([65%N], SU)) 0 1 true Idle; ProxyPoll (Some ([67%N], AC)) 0 0 true Idle; Reload false;
              ProxyPoll (Some ([68%N], AC)) 0 1 true Idle; Reload true; ProxyPoll (Some ([68%N], AC)) 0 1 true Idle] in
  let r := print (exec ops (minit true)) in
  r_cc r = [(US, 1%N); (CA, 1%N); (AC, 1%N)] /\ r_type r 0%N = 4%N /\ r_natr r = 1%N /\ r_natu r = 1%N /\ r_natk r = 1%N /\
  first_sight true 0 [65%N] ops = Some (true, 1%N, US) /\ first_sight true 0 [68%N] ops = Some (false, 1%N, AC) /\
  no_reload ops = false /\ period_geo true ops = true.
Proof. cbv zeta. repeat split; reflexivity. Qed.
Example C19_no_reload_hyp_satisfiable :
  no_reload [ProxyPoll (Some ([65%N], [85%N; 83%N])) 0 1 true Idle; Zero; Print] = true.
Proof. reflexivity. Qed.

(* address 65 polls as standalone (restricted, US) and as webext (unrestricted, US), address 66 as standalone
   (unknown NAT, CA), then 65 again as standalone with another NAT type: US=2, CA=1; 65 is in the restricted and in
   the unrestricted set, 66 in the unknown one; the repeat changes nothing *)
Example C19_nat_countries_example :
  let ops := [ProxyPoll (Some ([65%N], [85%N; 83%N])) 0 1 true Idle; ProxyPoll (Some ([65%N], [85%N; 83%N])) 1 2 true Matched;
              ProxyPoll (Some ([66%N], [67%N; 65%N])) 0 0 false Idle; ProxyPoll (Some ([65%N], [85%N; 83%N])) 0 2 true Idle] in
  let r := print (exec ops (minit true)) in
  r_cc r = [([85%N; 83%N], 2%N); ([67%N; 65%N], 1%N)] /\ r_natr r = 1%N /\ r_natu r = 1%N /\ r_natk r = 1%N /\
  first_poll 0 [65%N] ops = Some (1%N, [85%N; 83%N]) /\ ccsum [85%N; 83%N] ops (tsets (exec ops (minit true))) = 2%N.
Proof. cbv zeta. repeat split; reflexivity. Qed.

(* the k-th report of a run is [print] of the state reached by the ops before the k-th Print *)
Theorem C19_reports : forall (pre post : list op) (g : bool),
  snd (run_ops (pre ++ Print :: post) (minit g) []) =
  snd (run_ops pre (minit g) []) ++ print (exec pre (minit g)) :: snd (run_ops post (exec pre (minit g)) []).
Proof.
  intros pre post g. generalize (minit g) as s. induction pre as [|o pre IH]; intro s.
  - cbn [app run_ops exec fold_left]. destruct (run_ops_reports post s [print s]) as [H _]. rewrite H. reflexivity.
  - destruct o; cbn [app run_ops exec fold_left apply_op]; try (apply IH).
    destruct (run_ops_reports (pre ++ Print :: post) s [print s]) as [H1 _].
    destruct (run_ops_reports pre s [print s]) as [H2 _]. rewrite H1, H2, IH. reflexivity.
Qed.

(* ---- distinct-IP journal (sketch = set of masked values; mask abstract) ---- *)
Theorem C19_journal_partition :
  forall (addr hash : Type) (mask : addr -> hash) (heqb : hash -> hash -> bool) (t0 interval : Z) (ops : list (jop addr)),
  mono addr t0 ops ->
  let w := jrun addr hash mask heqb ops (new_writer t0 interval) in
  exists (segs : list (list (Z * addr))) (open : list (Z * addr)),
    concat segs ++ open = flat_map (op_events addr) ops /\
    Forall2 (chunk_ok addr hash mask heqb) (w_out w) segs /\
    w_cur w = sk_of hash heqb (masks addr hash mask open) /\
    Forall (fun e => (w_last w <= fst e)%Z) open /\
    tiled hash t0 (w_out w) (w_last w).
Proof. exact partition. Qed.

Theorem C19_window :
  forall (hash : Type) (heqb : hash -> hash -> bool), (forall a b, heqb a b = true <-> a = b) ->
  forall (from to : Z) (j : list (chunk hash)),
  exists l, NoDup l /\
    (forall x, In x l <-> exists c, In c j /\ (from <= c_start c)%Z /\ (c_end c <= to)%Z /\ In x (c_sk c)) /\
    fst (count hash heqb from to j) = N.of_nat (length l) /\
    snd (count hash heqb from to j) = N.of_nat (length (filter (insideb hash from to) j)).
Proof. exact window. Qed.

(* a sketch built from a list of masked values is exactly the set of those values *)
Theorem C19_sketch_set :
  forall (hash : Type) (heqb : hash -> hash -> bool), (forall a b, heqb a b = true <-> a = b) ->
  forall hs : list hash, NoDup (sk_of hash heqb hs) /\ (forall x, In x (sk_of hash heqb hs) <-> In x hs).
Proof. exact sk_of_spec. Qed.

Theorem C19_window_test : forall (hash : Type) (from to : Z) (c : chunk hash),
  skipped hash from to c = false <-> (from <= c_start c /\ c_end c <= to)%Z.
Proof. exact skipped_spec. Qed.

Theorem C19_mask_only :
  forall (addr hash : Type) (mask : addr -> hash) (heqb : hash -> hash -> bool) (now : Z) (a b : addr) (w : writer hash),
  mask a = mask b -> add addr hash mask heqb now a w = add addr hash mask heqb now b w.
Proof. exact mask_only. Qed.

Example C19_window_hyp_satisfiable : forall a b : N, N.eqb a b = true <-> a = b.
Proof. exact N.eqb_eq. Qed.
Example C19_journal_hyp_satisfiable : mono N 0%Z [Add 1%Z 5%N; Add 7%Z 6%N; Flush 9%Z; Add 9%Z 5%N].
Proof. cbn. repeat split; discriminate. Qed.
Example C19_journal_example :
  map (fun c => (c_start c, c_end c, c_sk c))
      (w_out (jrun N N (fun x => x) N.eqb [Add 1%Z 5%N; Add 7%Z 6%N; Flush 9%Z; Add 9%Z 5%N] (new_writer 0%Z 3%Z)))
  = [(0%Z, 7%Z, [5%N]); (7%Z, 9%Z, [6%N])].
Proof. reflexivity. Qed.

(* ---- FINDING: a journal line longer than the reader's scanner buffer (64 KiB) ----
   A chunk that recorded some 21 000 distinct addresses or more is written as ONE line of more than 65 536 bytes.  The
   pinned reader (bufio.Scanner with its default buffer, Err() never examined; Model/Journal.v count_v0) ends its loop
   at that line as at the end of the file: the chunk and everything behind it are left out and NO error is returned.
   REFUTED for the pinned reader: a journal of three chunks, all inside the window, holding four distinct addresses; the
   middle line is long: (1 address, 1 chunk) is reported where the window law (C19_window) says (4, 3) *)
Theorem C19_journal_reader_long_line_refuted :
  exists (long : chunk N -> bool) (j : list (chunk N)) (from to : Z),
    Forall (fun c => (from <= c_start c /\ c_end c <= to)%Z) j /\
    count N N.eqb from to j = (4%N, 3%N) /\ count_v0 N N.eqb long from to j = (1%N, 1%N).
Proof.
  exists (fun c => (2 <=? List.length (c_sk c))%nat),
         [{| c_start := 0%Z; c_end := 1%Z; c_sk := [1%N] |}; {| c_start := 1%Z; c_end := 2%Z; c_sk := [2%N; 3%N] |};
          {| c_start := 2%Z; c_end := 3%Z; c_sk := [4%N] |}], 0%Z, 3%Z.
  split; [repeat constructor; cbn; discriminate | split; reflexivity].
Qed.

(* what the pinned reader answers: the window count of the lines in front of the first long one; it is the window
   count of the journal exactly when no line is long.  The repaired reader (scanner buffer enlarged, Err() returned)
   is [count]: C19_window holds for it whatever the line lengths *)
Theorem C19_journal_reader_v0_cut :
  forall (hash : Type) (heqb : hash -> hash -> bool) (long : chunk hash -> bool) (from to : Z) (pre : list (chunk hash)) (c : chunk hash) (post : list (chunk hash)),
  long c = true -> (forall c', In c' pre -> long c' = false) ->
  count_v0 hash heqb long from to (pre ++ c :: post) = count hash heqb from to pre.
Proof. exact count_v0_cut. Qed.

Theorem C19_journal_reader_v0_short_lines :
  forall (hash : Type) (heqb : hash -> hash -> bool) (long : chunk hash -> bool) (from to : Z) (j : list (chunk hash)),
  (forall c, In c j -> long c = false) -> count_v0 hash heqb long from to j = count hash heqb from to j.
Proof. exact count_v0_no_long. Qed.

Example C19_journal_reader_v0_cut_hyp_satisfiable :
  let long := fun c : chunk N => (2 <=? List.length (c_sk c))%nat in
  long {| c_start := 1%Z; c_end := 2%Z; c_sk := [2%N; 3%N] |} = true /\
  (forall c', In c' [{| c_start := 0%Z; c_end := 1%Z; c_sk := [1%N] |}] -> long c' = false).
Proof. cbv zeta. split; [reflexivity | intros c' [<-|[]]; reflexivity]. Qed.

(* ---- a journal sink that fails (Write error with nothing / part of the line / the whole text without the newline /
   the whole line written, Sync error), in any pattern ---- *)
(* Every chunk that can be read back from the file holds exactly the masked addresses of some recorded events, and its
   recording span [c_start, c_end] CONTAINS the instant of every one of them - so "inside the window" in C19_window
   still means "recorded inside the window".  The open sketch holds events no older than the last write the writer
   took for successful.  While no line of the file is damaged, no recorded event is lost. *)
Theorem C19_journal_failed_writes :
  forall (addr hash : Type) (mask : addr -> hash) (heqb : hash -> hash -> bool) (t0 interval : Z) (plan : list wres)
         (ops : list (jop addr)),
  mono addr t0 ops ->
  let w := fjrun addr hash mask heqb ops (fnew t0 interval plan) in
  let evs := flat_map (op_events addr) ops in
  (forall c, In (Some c) (file_of w) ->
     exists seg, c_sk c = sk_of hash heqb (masks addr hash mask seg) /\ (c_start c <= c_end c)%Z /\
                 Forall (fun e => (c_start c <= fst e <= c_end c)%Z) seg /\ incl seg evs) /\
  (exists open, f_cur w = sk_of hash heqb (masks addr hash mask open) /\ Forall (fun e => (f_last w <= fst e)%Z) open /\
     incl open evs /\
     (readable (f_lines w) = true ->
      forall e, In e evs -> In e open \/
        exists c seg, In (Some c) (f_lines w) /\ c_sk c = sk_of hash heqb (masks addr hash mask seg) /\ In e seg /\
                      (c_start c <= fst e <= c_end c)%Z)).
Proof. exact failed_writes. Qed.

(* a sink that never fails: the failing-sink writer is the writer of C19_journal_partition, line for line *)
Theorem C19_journal_never_failing_sink :
  forall (addr hash : Type) (mask : addr -> hash) (heqb : hash -> hash -> bool) (t0 interval : Z) (ops : list (jop addr)),
  let w := jrun addr hash mask heqb ops (new_writer t0 interval) in
  let fw := fjrun addr hash mask heqb ops (fnew t0 interval []) in
  file_of fw = map Some (w_out w) /\ f_cur fw = w_cur w /\ f_last fw = w_last w /\
  forall from to, fcount hash heqb from to (file_of fw) = Some (count hash heqb from to (w_out w)).
Proof. exact never_failing_sink. Qed.

(* the reader answers only when every line parses, and then with the window count of the chunks (C19_window) *)
Theorem C19_journal_reader :
  forall (hash : Type) (heqb : hash -> hash -> bool) (from to : Z) (f : list (option (chunk hash))) (r : N * N),
  fcount hash heqb from to f = Some r <-> readable f = true /\ r = count hash heqb from to (good_lines f).
Proof. exact fcount_spec. Qed.

(* the broker's journal with a failing sink: the metrics never notice, and the statement above holds with "recorded
   event" = "accepted poll" *)
Theorem C19_journal_failed_writes_broker :
  forall (hash : Type) (mask : bytes -> hash) (heqb : hash -> hash -> bool) (g : bool) (t0 k : Z) (plan : list wres) (ops : list bop),
  bmono t0 ops ->
  let s := bfrun hash mask heqb ops (bfinit hash g t0 k plan) in
  let polls := flat_map accepted ops in
  bf_m s = exec (flat_map mop_of ops) (minit g) /\
  (forall c, In (Some c) (file_of (bf_w s)) ->
     exists seg, c_sk c = sk_of hash heqb (masks bytes hash mask seg) /\ (c_start c <= c_end c)%Z /\
                 Forall (fun e => (c_start c <= fst e <= c_end c)%Z) seg /\ incl seg polls) /\
  (exists open, f_cur (bf_w s) = sk_of hash heqb (masks bytes hash mask open) /\
     Forall (fun e => (f_last (bf_w s) <= fst e)%Z) open /\ incl open polls /\
     (readable (f_lines (bf_w s)) = true ->
      forall e, In e polls -> In e open \/
        exists c seg, In (Some c) (f_lines (bf_w s)) /\ c_sk c = sk_of hash heqb (masks bytes hash mask seg) /\ In e seg /\
                      (c_start c <= fst e <= c_end c)%Z)).
Proof. exact failed_writes_broker. Qed.

(* interval 3; the auto-flushes at 5 and at 6 fail with nothing written, the flush at 9 succeeds: ONE chunk [0,9] with all three
   addresses - the span still starts at the last successful write, not at the failed one *)
Example C19_journal_failed_write_example :
  let ops := [Add 1%Z 5%N; Add 5%Z 6%N; Add 6%Z 7%N; Flush 9%Z] in
  mono N 0%Z ops /\
  map (option_map (fun c => (c_start c, c_end c, c_sk c))) (file_of (fjrun N N (fun x => x) N.eqb ops (fnew 0%Z 3%Z [WNone; WNone]))) =
    [Some (0%Z, 9%Z, [5%N; 6%N; 7%N])] /\
  fcount N N.eqb 0%Z 9%Z (file_of (fjrun N N (fun x => x) N.eqb ops (fnew 0%Z 3%Z [WNone; WNone]))) = Some (3%N, 1%N).
Proof. cbv zeta. split; [cbn; repeat split; discriminate | split; reflexivity]. Qed.

(* FINDING (robustness, not a count error): ONE short write leaves an unterminated rest in the file; the next line is
   appended behind it and the two form a line that does not parse; ClusterCounter.Count then fails for EVERY window,
   including windows that hold only intact chunks *)
Example C19_journal_short_write_blinds_reader :
  let ops := [Add 1%Z 5%N; Flush 2%Z; Add 3%Z 6%N; Flush 4%Z; Add 5%Z 7%N; Flush 6%Z] in
  let f := file_of (fjrun N N (fun x => x) N.eqb ops (fnew 0%Z 100%Z [WOk; WTorn; WOk])) in
  map (option_map (fun c => (c_start c, c_end c))) f = [Some (0%Z, 2%Z); None] /\
  fcount N N.eqb 0%Z 2%Z f = None /\ fcount N N.eqb 0%Z 6%Z f = None.
Proof. cbv zeta. repeat split; reflexivity. Qed.

(* ---- the journal behind the broker: the call site (ProxyPolls -> RecordIPAddress) ---- *)
(* A broker history = IPC/metrics ops with the writer's clock reading, and explicit flushes.  The metrics component
   is exactly [exec] of the ops (so every theorem above applies to it), and the writer component is exactly the
   writer run on one Add per ACCEPTED poll (relay pattern passed, RemoteAddr split) at that poll's instant:
   the de-duplication sets, zeroMetrics and the geoip state never enter. *)
Theorem C19_journal_call_site :
  forall (hash : Type) (mask : bytes -> hash) (heqb : hash -> hash -> bool) (g : bool) (t0 k : Z) (ops : list bop),
  let s := brun hash mask heqb ops (binit hash g t0 k) in
  b_m s = exec (flat_map mop_of ops) (minit g) /\
  b_w s = jrun bytes hash mask heqb (flat_map jop_of ops) (new_writer t0 k).
Proof. exact brun_split. Qed.

(* every accepted poll — repeated or not within the metrics period — is, in order, in exactly one emitted chunk or in
   the open sketch; chunk i holds exactly the masked addresses of the polls of segment i, which all happened inside
   the chunk's interval; the chunks tile the time line *)
Theorem C19_journal_records_every_poll :
  forall (hash : Type) (mask : bytes -> hash) (heqb : hash -> hash -> bool) (g : bool) (t0 k : Z) (ops : list bop),
  bmono t0 ops ->
  let s := brun hash mask heqb ops (binit hash g t0 k) in
  b_m s = exec (flat_map mop_of ops) (minit g) /\
  exists (segs : list (list (Z * bytes))) (open : list (Z * bytes)),
    concat segs ++ open = flat_map accepted ops /\
    Forall2 (chunk_ok bytes hash mask heqb) (w_out (b_w s)) segs /\
    w_cur (b_w s) = sk_of hash heqb (masks bytes hash mask open) /\
    Forall (fun e => (w_last (b_w s) <= fst e)%Z) open /\
    tiled hash t0 (w_out (b_w s)) (w_last (b_w s)).
Proof. exact every_poll_recorded. Qed.

(* pointwise, with no hypothesis on the metrics state: the address of an accepted poll at instant [now] is in a chunk
   whose interval contains [now], or in the open sketch begun no later than [now] *)
Theorem C19_journal_poll_in_current_chunk :
  forall (hash : Type) (mask : bytes -> hash) (heqb : hash -> hash -> bool), (forall a b, heqb a b = true <-> a = b) ->
  forall (g : bool) (t0 k : Z) (ops : list bop) (now : Z) (o : op) (ad : bytes),
  bmono t0 ops -> In (At now o) ops -> recorded o = Some ad ->
  let w := b_w (brun hash mask heqb ops (binit hash g t0 k)) in
  (exists c, In c (w_out w) /\ (c_start c <= now <= c_end c)%Z /\ In (mask ad) (c_sk c)) \/
  ((w_last w <= now)%Z /\ In (mask ad) (w_cur w)).
Proof. exact poll_in_current_chunk. Qed.

(* the reader's window count over the journal a broker history produced = number of distinct masked addresses of the
   accepted polls in the segments whose chunk lies inside the window *)
Theorem C19_journal_window_counts_polls :
  forall (hash : Type) (mask : bytes -> hash) (heqb : hash -> hash -> bool), (forall a b, heqb a b = true <-> a = b) ->
  forall (g : bool) (t0 k : Z) (ops : list bop) (from to : Z),
  bmono t0 ops ->
  let w := b_w (brun hash mask heqb ops (binit hash g t0 k)) in
  exists (segs : list (list (Z * bytes))) (open : list (Z * bytes)) (l : list hash),
    concat segs ++ open = flat_map accepted ops /\
    Forall2 (chunk_ok bytes hash mask heqb) (w_out w) segs /\
    NoDup l /\
    fst (count hash heqb from to (w_out w)) = N.of_nat (length l) /\
    (forall x, In x l <-> exists c seg e, In (c, seg) (combine (w_out w) segs) /\
                                           (from <= c_start c)%Z /\ (c_end c <= to)%Z /\ In e seg /\ x = mask (snd e)).
Proof. exact window_counts_polls. Qed.

(* one address, one proxy type, three polls in one metrics period, interval 2: counted once by the metrics, and
   present in each of the two later chunks' windows as well *)
Example C19_journal_repeat_example :
  let ops := [At 1%Z (ProxyPoll (Some ([65%N], [])) 0 0 true Idle); At 2%Z (ProxyPoll (Some ([66%N], [])) 0 0 true Idle);
              At 5%Z (ProxyPoll (Some ([67%N], [])) 0 0 true Idle); At 6%Z (ProxyPoll (Some ([65%N], [])) 0 0 true Idle);
              At 9%Z (ProxyPoll (Some ([65%N], [])) 0 0 true Idle); FlushAt 10%Z] in
  let s := brun bytes (fun x => x) beq ops (binit bytes false 0%Z 2%Z) in
  bmono 0%Z ops /\
  map (fun c => (c_start c, c_end c, c_sk c)) (w_out (b_w s)) =
    [(0%Z, 5%Z, [[65%N]; [66%N]]); (5%Z, 9%Z, [[67%N]; [65%N]]); (9%Z, 10%Z, [[65%N]])] /\
  r_type (print (b_m s)) 0%N = 3%N /\
  fst (count bytes beq 5%Z 9%Z (w_out (b_w s))) = 2%N /\ fst (count bytes beq 9%Z 10%Z (w_out (b_w s))) = 1%N.
Proof. cbv zeta. split; [cbn; repeat split; discriminate | repeat split; reflexivity]. Qed.


(* ---- the journal writer under concurrent callers: the flush is atomic w.r.t. adds BECAUSE both run under Metrics.lock ----
   Model/JournalConc.v: any number of threads calling RecordIPAddress / WriteIPSetToDisk, every call cut into its
   steps (interval test; Dump + Write; Sync returns + lastWriteTime + Reset; sketch add), the steps of different
   threads interleaved in any order, the clock advancing anywhere.  That every access of the writer's fields happens
   under Metrics.lock in the code is C20's table; here: what the mutex buys, and what is lost without it. *)

(* WITH the mutex, for EVERY schedule: the completed calls (in completion order) have clock readings that never go
   back; whenever the mutex is free the writer is exactly the sequential writer of C19_journal_partition run on
   them; and when every thread is outside, the mutex is free *)
Theorem C19_journal_conc_serial :
  forall (addr hash : Type) (mask : addr -> hash) (heqb : hash -> hash -> bool) (t0 interval : Z) (evs : list (cev addr)),
  let s := crun addr hash mask heqb true evs (cinit t0 interval) in
  mono addr t0 (c_hist s) /\
  (c_lock s = None -> c_w s = jrun addr hash mask heqb (c_hist s) (new_writer t0 interval)) /\
  ((forall j, c_pc s j = JI) -> c_lock s = None).
Proof. exact conc_serial. Qed.

(* between the two halves of a flush (Dump + Write done, Reset not yet: the disk write and fsync) no other thread is
   anywhere but outside or waiting for the mutex; the sketch still is the dumped one and lastWriteTime the chunk's start *)
Theorem C19_journal_conc_flush_undisturbed :
  forall (addr hash : Type) (mask : addr -> hash) (heqb : hash -> hash -> bool) (t0 interval : Z) (evs : list (cev addr))
         (i : nat) (now : Z) (k : option addr),
  let s := crun addr hash mask heqb true evs (cinit t0 interval) in
  c_pc s i = JW2 now k ->
  (forall j, j <> i -> c_pc s j = JI \/ exists c, c_pc s j = JWant c) /\
  exists c, w_out (c_w s) = w_out (jrun addr hash mask heqb (c_hist s) (new_writer t0 interval)) ++ [c] /\
            c_sk c = w_cur (c_w s) /\ c_start c = w_last (c_w s) /\ c_end c = now /\
            w_cur (c_w s) = w_cur (jrun addr hash mask heqb (c_hist s) (new_writer t0 interval)).
Proof. exact conc_flush_undisturbed. Qed.

(* hence C19_journal_partition / C19_journal_records_every_poll for concurrent callers: under every schedule, whenever
   the mutex is free, every completed RecordIPAddress is, in order, in exactly one emitted chunk - whose span contains
   its instant - or in the open sketch; no chunk is written twice (the chunks tile the time line) *)
Theorem C19_journal_conc_records_every_poll :
  forall (addr hash : Type) (mask : addr -> hash) (heqb : hash -> hash -> bool) (t0 interval : Z) (evs : list (cev addr)),
  let s := crun addr hash mask heqb true evs (cinit t0 interval) in
  c_lock s = None ->
  exists (segs : list (list (Z * addr))) (open : list (Z * addr)),
    concat segs ++ open = flat_map (op_events addr) (c_hist s) /\
    Forall2 (chunk_ok addr hash mask heqb) (w_out (c_w s)) segs /\
    w_cur (c_w s) = sk_of hash heqb (masks addr hash mask open) /\
    Forall (fun e => (w_last (c_w s) <= fst e)%Z) open /\
    tiled hash t0 (w_out (c_w s)) (w_last (c_w s)).
Proof. exact conc_records_every_call. Qed.

(* WITHOUT the mutex (RecordIPAddress outside the critical section): REFUTED.  A poll arriving while another one is
   in the disk write of the per-interval flush writes the same chunk a second time and its address is then wiped by the
   first flusher's Reset: completed (it is in the history at instant 6) and in no chunk and not in the open sketch *)
Theorem C19_journal_unlocked_refuted :
  exists sched, let s := crun N N (fun x => x) N.eqb false sched (cinit 0%Z 2%Z) in
    cquiet N N 2 s = true /\
    c_hist s = [Add 1%Z 1%N; Add 6%Z 3%N; Add 5%Z 2%N; Flush 9%Z] /\
    map (fun c => (c_start c, c_end c, c_sk c)) (w_out (c_w s)) = [(0%Z, 5%Z, [1%N]); (0%Z, 6%Z, [1%N]); (5%Z, 9%Z, [2%N])] /\
    w_cur (c_w s) = [] /\
    existsb (fun c => existsb (N.eqb 3%N) (c_sk c)) (w_out (c_w s)) = false /\ existsb (N.eqb 3%N) (w_cur (c_w s)) = false.
Proof. exists lost_sched. cbv zeta. repeat split; reflexivity. Qed.

(* the same schedule with the mutex (thread 1 waits until thread 0 has unlocked): nothing lost, nothing twice *)
Example C19_journal_conc_nonvacuous :
  let s := crun N N (fun x => x) N.eqb true (lost_sched ++ [Step 1; Step 1; Step 1; Step 1; Step 1]%nat) (cinit 0%Z 2%Z) in
  cquiet N N 2 s = true /\ c_lock s = None /\
  c_hist s = [Add 1%Z 1%N; Add 5%Z 2%N; Flush 9%Z; Add 9%Z 3%N] /\
  map (fun c => (c_start c, c_end c, c_sk c)) (w_out (c_w s)) = [(0%Z, 5%Z, [1%N]); (5%Z, 9%Z, [2%N])] /\
  w_cur (c_w s) = [3%N].
Proof. cbv zeta. repeat split; reflexivity. Qed.
(* a state between the two halves of a flush with another thread waiting *)
Example C19_journal_conc_flush_hyp_satisfiable :
  let s := crun N N (fun x => x) N.eqb true [Tick 5; Call 0 (CPoll 2%N); Step 0; Step 0; Step 0; Call 1 (CPoll 3%N); Step 1]%nat (cinit 0%Z 2%Z) in
  c_pc s 0%nat = JW2 5%Z (Some 2%N) /\ c_pc s 1%nat = JWant (CPoll 3%N).
Proof. cbv zeta. split; reflexivity. Qed.
