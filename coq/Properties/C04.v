(* C04 — Every broker request completes in bounded time; no ghost proxies.
   Over Model/Broker.v (see Properties/C02.v). Time is abstracted: a timer may fire at any step after
   it was armed (and in the implementation fires at the latest 10 s after); "bounded time" becomes
   "bounded number of the request's own steps, each of them enabled". Version V1 is the code after the
   fix "broker requests could block forever around the proxy and client timeouts"; V0 is the pinned code. *)
From Coq Require Import List NArith ZArith Bool Arith Lia.
From Snow Require Import Lib.ListFacts Model.Broker Proofs.BrokerLocal Proofs.BrokerProofs Proofs.BrokerSteps Proofs.BrokerThms Proofs.BrokerBounds.
Import ListNotations.
Open Scope N_scope.

(* Progress: in every reachable state of the repaired broker every pending request (poll handler or its
   waiter, the matched client, an answer request in flight) has an enabled step of its own. *)
Theorem C04_progress : forall br s p e,
  reachable V1 br s -> nth_error (entries s) p = Some e -> entry_pending e = true ->
  exists l, internal l = true /\ target l = Some p /\ step V1 s l <> None.
Proof. exact progress_v1. Qed.

(* Boundedness of the whole system when arrivals stop: every step of the broker's own threads consumes budget; a run
   without new arrivals has at most [budget s] steps (at most 9 per registered poll plus one per pending answer
   request). (The per-request bounds that hold WITH arrivals follow below.) *)
Theorem C04_step_consumes_budget : forall s l s',
  internal l = true -> step V1 s l = Some s' -> (budget s' < budget s)%nat.
Proof. exact internal_step_decreases. Qed.

Theorem C04_bounded_completion : forall br ls s s',
  reachable V1 br s -> forallb internal ls = true -> run V1 s ls = Some s' ->
  (length ls + budget s' <= budget s)%nat.
Proof.
  intros br ls s s' _ Hi H. revert ls s s' H Hi.
  apply (run_ind V1 (fun s ls s' => forallb internal ls = true -> (length ls + budget s' <= budget s)%nat)).
  - intros s _. apply Nat.le_refl.
  - intros s l s1 ls s' Hs _ IH Hi. cbn [forallb] in Hi. apply andb_prop in Hi. destruct Hi as [Hl Hls].
    pose proof (internal_step_decreases s l s1 Hl Hs). specialize (IH Hls). cbn [length]. lia.
Qed.

(* ---- per request, under continued arrivals ("at any level of concurrency"). The run [ls] below is ARBITRARY: new
   proxy polls, client polls, answers and bridge-list installations may arrive at any point, other requests may take
   any number of steps. [count_own lab p ls] counts the steps of ls that belong to the request itself: [w_label] the
   steps of poll p's handler and waiter (timer fires, select commits to the timer, timeout critical section, receive
   the offer, forward it), [c_label] those of the client held by entry p (hand the offer over, timer fires, select
   commits, take the answer, cleanup), [a_label] the sends of the answer handlers queued on entry p.
   [pm s p] / [cmm s p] = own steps the poll / the client of entry p still has to take (5 / 4 when not yet arrived). ---- *)

(* a proxy poll takes at most 5 steps of its own before its handler has returned its response ... *)
Theorem C04_per_request_step_bound : forall br ls s s' p,
  reachable V1 br s -> run V1 s ls = Some s' ->
  (count_own w_label p ls + pm s' p <= pm s p)%nat /\ (pm s p <= 5)%nat.
Proof.
  intros br ls s s' p R H. split.
  - exact (run_measure V1 wk w_label 5 w_label_target (fun _ _ _ _ => eq_refl) (fun s l e e' _ => estep_wk V1 s l e e') ls s s' p (reachable_inv V1 br s R) H).
  - unfold pm. destruct (nth_error (entries s) p); [apply wk_le | lia].
Qed.

Theorem C04_poll_done_iff : forall s p e, nth_error (entries s) p = Some e -> e_w e <> W_Stuck ->
  (pm s p = 0%nat <-> exists r, e_w e = W_Done r).
Proof. exact poll_done_iff. Qed.

(* ... a client poll at most 4 ... *)
Theorem C04_per_client_step_bound : forall br ls s s' p,
  reachable V1 br s -> run V1 s ls = Some s' ->
  (count_own c_label p ls + cmm s' p <= cmm s p)%nat /\ (cmm s p <= 4)%nat.
Proof.
  intros br ls s s' p R H. split.
  - exact (run_measure V1 ck c_label 4 c_label_target (fun _ _ _ _ => eq_refl) (estep_ck V1) ls s s' p (reachable_inv V1 br s R) H).
  - unfold cmm. destruct (nth_error (entries s) p); [apply ck_le | lia].
Qed.

Theorem C04_client_done_iff : forall s p e c, nth_error (entries s) p = Some e -> e_cl e = Some c ->
  (cmm s p = 0%nat <-> exists r, c_pc c = C_Done r).
Proof. exact client_done_iff. Qed.

(* ... and an answer request whose session id resolved to entry p, k-th in the queue of sends on that entry, is still
   queued at place k - n after n <= k of those sends, whatever else happens: its own (never blocking) send is the
   (k+1)-th; a send completes the request at the head. (k = number of answer requests for the same poll that were
   looked up before it and have not completed: 0 unless a proxy posts several answers at once.) *)
Theorem C04_per_answer_step_bound : forall ls s s' p k x,
  run V1 s ls = Some s' -> nth_error (senders_at s p) k = Some x -> (count_own a_label p ls <= k)%nat ->
  nth_error (senders_at s' p) (k - count_own a_label p ls) = Some x.
Proof.
  intros ls s s' p k x H Hk Hle.
  assert (Hp : nth_error (entries s) p <> None).
  { unfold senders_at in Hk. destruct (nth_error (entries s) p); [discriminate | destruct k; discriminate]. }
  destruct (answer_queue ls s s' p H Hp) as [extra ->].
  rewrite nth_error_skipn_add. replace (count_own a_label p ls + (k - count_own a_label p ls))%nat with k by lia.
  rewrite nth_error_app1; [exact Hk | eapply nth_error_lt; exact Hk].
Qed.

Theorem C04_answer_served_by_send : forall s p s', step V1 s (L_AnswerPut p) = Some s' ->
  exists e aid a rest ok, nth_error (entries s) p = Some e /\ e_senders e = (aid, a) :: rest /\
    done_answers s' = (aid, e_sid e, a, ok) :: done_answers s /\ senders_at s' p = rest.
Proof.
  intros s p s' H. cbn [step] in H. destruct (nth_error (entries s) p) as [e|] eqn:Hp; [|discriminate].
  destruct (e_senders e) as [|[aid a] rest] eqn:Hs; [discriminate|]. injection H as <-.
  exists e, aid, a, rest, (match e_buf e with None => true | Some _ => false end).
  split; [reflexivity|]. split; [exact Hs|]. split; [reflexivity|].
  unfold senders_at. cbn [entries]. rewrite (nth_upd_eq _ _ _ _ Hp). destruct (e_buf e); reflexivity.
Qed.

(* No request can be blocked by what others hold: in every reachable state (1) a poll whose handler has not returned
   has an enabled step of its own; (2) a client poll that has not returned has an enabled step of its own, or waits
   only for the waiter of its poll to leave the timeout critical section - that step is enabled, and it enables the
   hand-over of the offer; (3) the head of the queued answer sends is enabled (the others wait only for it). Timer
   steps count as enabled: a Go timer fires at the latest 10 s after it was armed. *)
Theorem C04_no_request_blocked : forall br s p e,
  reachable V1 br s -> nth_error (entries s) p = Some e ->
  ((forall r, e_w e <> W_Done r) -> exists l, w_label l = Some p /\ step V1 s l <> None) /\
  (forall c, e_cl e = Some c -> (forall r, c_pc c <> C_Done r) ->
     (exists l, c_label l = Some p /\ step V1 s l <> None) \/
     (c_pc c = C_Send /\ e_w e = W_TimedOut /\
      exists s1, step V1 s (L_WTimeoutCS p) = Some s1 /\ step V1 s1 (L_RvOffer p) <> None)) /\
  (e_senders e <> [] -> step V1 s (L_AnswerPut p) <> None).
Proof. exact no_request_blocked. Qed.

(* ---- repeated session ids. Nothing above assumes that the session ids of the polls are distinct: [reachable]
   ranges over label sequences with ANY sids, so every theorem of this file covers a proxy that POSTs the same poll
   again while its earlier one is pending, matched, or just answered. What the code does with such a poll, explicitly:
   AddSnowflake always creates a NEW record with its own waiter (5 own steps to go, C04_per_request_step_bound applies
   to it); the records registered before - also the one under the same id - are untouched; only the id map now
   resolves the id to the new poll (and the waiter / client that deregisters first removes the binding whichever
   record it points to: C04_quiescent_clean holds all the same). ---- *)
Theorem C04_repeated_sid_registers_anew : forall v s sd n pt cl,
  exists s', step v s (L_Poll sd n pt cl) = Some s' /\
    entries s' = entries s ++ [new_entry sd n pt cl] /\
    lookup sd (idmap s') = Some (length (entries s)) /\
    (forall p e, nth_error (entries s) p = Some e -> nth_error (entries s') p = Some e) /\
    pm s' (length (entries s)) = 5%nat.
Proof.
  intros v s sd n pt cl.
  eexists. split; [reflexivity|]. cbn [entries idmap]. split; [reflexivity|]. split.
  - unfold set_key. cbn [lookup]. rewrite N.eqb_refl. reflexivity.
  - split; [intros p e Hp; rewrite nth_error_app1; [exact Hp | eapply nth_error_lt; exact Hp]|].
    unfold pm. cbn [entries]. rewrite nth_error_app2 by apply le_n. rewrite Nat.sub_diag. reflexivity.
Qed.

(* non-vacuity: the same sid polled three times (while pending); a client is handed the first; the answer posted
   under the shared id resolves to the newest poll and waits there; the first poll's client times out, the other two
   polls expire: every request completes (each poll in at most 5 own steps), nothing is left behind. *)
Example C04_repeated_sid_example :
  let ls := [L_Poll 1 NatUnrestricted 1 0; L_Poll 1 NatUnrestricted 1 0; L_Poll 1 NatUnrestricted 1 0;
             L_Client NatRestricted (Some 7) 100 (Some 0%nat); L_RvOffer 0; L_RvForward 0;
             L_Answer 1 500; L_AnswerPut 2;
             L_FireW 1; L_WTake 1; L_WTimeoutCS 1; L_FireW 2; L_WTake 2; L_WTimeoutCS 2;
             L_FireC 0; L_CTake 0; L_CCleanup 0] in
  exists s, run V1 (init [(7, 9)]) ls = Some s /\ quiescent s = true /\ idmap s = [] /\ gauge s = 0%Z /\
    count_own w_label 1 ls = 3%nat /\ count_own w_label 2 ls = 3%nat /\
    pm s 0 = 0%nat /\ pm s 1 = 0%nat /\ pm s 2 = 0%nat /\ cmm s 0 = 0%nat /\
    map (fun '(_, sd, a, ok) => (sd, a, ok)) (done_answers s) = [(1, 500, true)].
Proof. eexists. vm_compute. repeat split. Qed.

(* non-vacuity: poll 0 and its client complete in 5 resp. 3 (at most 4: the answer came before the timer) own steps
   while two more polls, another client, an answer and a re-installation of the bridge list arrive in between; the
   state (2) of C04_no_request_blocked (client popped the entry between the waiter's select and its critical section)
   occurs on the way. *)
Example C04_per_request_example :
  let ls := [L_FireW 0; L_Poll 2 NatRestricted 1 0; L_WTake 0; L_Client NatRestricted (Some 7) 100 (Some 0%nat);
             L_Install [(7, 9); (8, 10)]; L_WTimeoutCS 0; L_Poll 3 NatUnrestricted 1 0; L_RvOffer 0;
             L_Client NatUnrestricted (Some 8) 101 (Some 1%nat); L_RvForward 0; L_Answer 1 500; L_AnswerPut 0;
             L_CTakeAnswer 0; L_CCleanup 0] in
  exists s0 s, run V1 (init [(7, 9)]) [L_Poll 1 NatUnrestricted 1 0] = Some s0 /\ run V1 s0 ls = Some s /\
    pm s0 0 = 5%nat /\ cmm s0 0 = 4%nat /\ count_own w_label 0 ls = 5%nat /\ count_own c_label 0 ls = 3%nat /\
    pm s 0 = 0%nat /\ cmm s 0 = 0%nat /\ quiescent s = false.
Proof. eexists. eexists. vm_compute. repeat split. Qed.

(* ... and such a run can only stop when nothing is pending any more. *)
Theorem C04_stops_only_when_quiescent : forall br s,
  reachable V1 br s -> (forall l, internal l = true -> step V1 s l = None) -> quiescent s = true.
Proof.
  intros br s R Hno. unfold quiescent. apply negb_true_iff.
  destruct (existsb entry_pending (entries s)) eqn:E; [|reflexivity].
  apply existsb_exists in E. destruct E as [e [Hin Hp]].
  destruct (In_nth_error _ _ Hin) as [p Hn].
  destruct (progress_v1 br s p e R Hn Hp) as [l [Hi [_ Hs]]]. elim Hs. apply Hno. exact Hi.
Qed.

(* Once all requests have completed nothing is left behind: the id map is empty, no entry is in a heap,
   the available-proxies gauge is zero, no entry is eligible for any client ... *)
Theorem C04_quiescent_clean : forall v br s, reachable v br s -> quiescent s = true ->
  idmap s = [] /\ count_inheap s = 0%nat /\ gauge s = 0%Z /\
  (forall n e, In e (entries s) -> eligible n e = false).
Proof. exact quiescent_clean. Qed.

(* ... so a fresh client (naming a known bridge) is told there are no proxies. *)
Theorem C04_fresh_client_refused : forall v br s n ofp o ch s',
  reachable v br s -> quiescent s = true -> lookup (fp_of ofp) (bridges s) <> None ->
  step v s (L_Client n ofp o ch) = Some s' ->
  ch = None /\ done_clients s' = (next_cid s, n, fp_of ofp, o, CNoProxies) :: done_clients s.
Proof.
  intros v br s n ofp o ch s' R Hq Hfp Hs. destruct (quiescent_clean v br s R Hq) as [_ [_ [_ Hel]]].
  destruct (refusal_iff v s n ofp o ch s' Hs Hfp) as [[_ Hiff] Hdone].
  assert (ch = None) by (apply Hiff; intros e Hin; apply Hel; exact Hin).
  split; [assumption|]. apply Hdone. assumption.
Qed.

(* The pinned protocol violated the property: after the schedule "poll; its timer fires and the waiter
   commits to the timeout; a client pops the entry; the waiter's critical section finds index = -1" the
   client poll and the proxy poll stay blocked along EVERY continuation ... *)
Theorem C04_v0_refuted_timeout_match :
  exists s, run V0 (init [(7, 9)]) f1_trace = Some s /\
    forall ls s', run V0 s ls = Some s' ->
      exists e c, nth_error (entries s') 0 = Some e /\ e_w e = W_Stuck /\ e_cl e = Some c /\ c_pc c = C_Send
                  /\ entry_pending e = true /\ quiescent s' = false.
Proof.
  eexists. split; [vm_compute; reflexivity|].
  intros ls s' H.
  destruct (forever (step_keeps V0 stuck_pair stuck_pair_kept) ls _ s' 0%nat _ H eq_refl) as [e [Hp [Ew [c [Hc Hpc]]]]].
  { split; [reflexivity|]. eexists. split; reflexivity. }
  exists e, c. repeat split; try assumption.
  - unfold entry_pending. rewrite Ew. reflexivity.
  - unfold quiescent. apply negb_false_iff. apply existsb_exists. exists e.
    split; [eapply nth_error_In; exact Hp|]. unfold entry_pending. rewrite Ew. reflexivity.
Qed.

(* ... and an answer posted for a registered but unmatched poll that then expires blocks its request forever. *)
Theorem C04_v0_refuted_answer :
  exists s, run V0 (init [(7, 9)]) f2_trace = Some s /\
    forall ls s', run V0 s ls = Some s' ->
      exists e, nth_error (entries s') 0 = Some e /\ e_senders e <> [] /\ quiescent s' = false.
Proof.
  eexists. split; [vm_compute; reflexivity|].
  intros ls s' H.
  destruct (forever (step_keeps V0 stuck_sender stuck_sender_kept) ls _ s' 0%nat _ H eq_refl) as [e [Hp [Hc [Hh Hs]]]].
  { repeat split; discriminate. }
  exists e. repeat split; try assumption.
  unfold quiescent. apply negb_false_iff. apply existsb_exists. exists e.
  split; [eapply nth_error_In; exact Hp|]. unfold entry_pending.
  destruct (e_senders e); [congruence|]. rewrite !orb_true_r. reflexivity.
Qed.

(* The same schedules complete under the repaired protocol (non-vacuity of the V1 theorems). *)
Example C04_v1_same_schedules_complete :
  (exists s, run V1 (init [(7, 9)])
     (f1_trace ++ [L_RvOffer 0; L_RvForward 0; L_FireC 0; L_CTake 0; L_CCleanup 0]) = Some s /\ quiescent s = true) /\
  (exists s, run V1 (init [(7, 9)]) (f2_trace ++ [L_AnswerPut 0]) = Some s /\ quiescent s = true).
Proof. split; [exact v1_timeout_match_completes | exact v1_answer_completes]. Qed.
