(* C14 — Every HTTP request to the broker gets a well-formed response; a legacy client request is
   treated exactly like its versioned equivalent.
   Statements over Model/BrokerHttp.v: handlers are total functions of the body read result and of the
   IPC outcome, for EVERY behaviour of the IPC layer and of the message codecs (Section variables).
   What is a theorem: no handler of the repaired code can panic (the only way a Go handler drops the
   connection without a response), the status set, and legacy == versioned. Framing of the response by
   net/http, MaxBytesReader and bounded time are observed by the raw-TCP driver, not proved.
   From C14_no_request_panics on the statements are over the refined model - requests with method, path, header
   lines and body; the http.ResponseWriter; every index / slice / WriteHeader as a step that may panic; the routes of
   main() with /debug, /metrics, /prometheus, /robots.txt and the mux's own answers; the broker state threaded
   through the IPC calls. Concurrency (requests overlapping in time) and the http.Server of main() are not in
   the model: they are observed (soak in a child process, the broker binary over TCP). *)
From Coq Require Import List NArith Bool String Lia.
From Snow Require Import Lib.Wire Lib.WireFacts Model.BrokerHttp Proofs.BrokerHttpProofs.
Import ListNotations.
Open Scope N_scope.

Theorem C14_handlers_never_panic :
  forall enc_req dec_resp enc_err amp_dec amp_arm ipc_client ipc_proxy ipc_answer,
  (forall rd h, client_offers enc_req dec_resp ipc_client H1 rd h <> HPanic) /\
  (forall rd, proxy_polls ipc_proxy rd <> HPanic) /\
  (forall rd, proxy_answers ipc_answer rd <> HPanic) /\
  (forall ok path, amp_client_offers enc_err amp_dec amp_arm ipc_client ok path <> HPanic).
Proof. exact handlers_total_v1. Qed.

(* the legacy request and the versioned POST it is shimmed into reach the IPC layer with the same body, and
   the legacy response is the image under the total map [legacy_map] of the versioned response - within the size
   limit: [versioned_twin] is the encoded body as the handler reads it when it is POSTed directly, i.e. through the
   100 000 byte read limit; the hypothesis is about the request at hand (the real encoder embeds the offer, so no
   bound holds for all offers). Beyond the limit: C14_legacy_shim_diverges_over_limit. *)
Theorem C14_legacy_equiv :
  forall enc_req dec_resp ipc_client,
  (forall o n, is_legacy (enc_req o n) = false) ->
  forall v offer nat_header, is_legacy offer = true ->
    N.of_nat (List.length (enc_req offer nat_header)) <= READ_LIMIT_N ->
    client_offers enc_req dec_resp ipc_client v (ReadOk offer) nat_header =
    match client_offers enc_req dec_resp ipc_client v (versioned_twin enc_req offer nat_header) nat_header with
    | HResp 200 response => legacy_map dec_resp v response
    | other => other
    end.
Proof. exact legacy_equiv. Qed.

(* The shim diverges at the size limit (inherent: clientOffers hands the encoded body to IPC without putting it through
   the limit again). A legacy body that was read - hence at most 100 000 bytes - whose versioned encoding exceeds
   100 000 bytes (the encoding adds the version line, the field names, the NAT type and the default fingerprint, and
   JSON escaping grows the offer) is answered per IPC, while the same encoding POSTed directly is a 400.
   For every encoder, decoder and IPC behaviour; no hypothesis on the encoder. *)
Theorem C14_legacy_shim_diverges_over_limit :
  forall enc_req dec_resp ipc_client v offer nat_header,
    is_legacy offer = true ->
    READ_LIMIT_N < N.of_nat (List.length (enc_req offer nat_header)) ->
    client_offers enc_req dec_resp ipc_client v (ReadOk offer) nat_header =
      match ipc_client (enc_req offer nat_header) with
      | IpcOk response => legacy_map dec_resp v response
      | _ => HResp 500 []
      end /\
    client_offers enc_req dec_resp ipc_client v (versioned_twin enc_req offer nat_header) nat_header = HResp 400 [].
Proof. exact legacy_diverges_over_limit. Qed.

(* an encoder shaped like EncodeClientPollRequest: version line, then the JSON object with the offer escaped the way
   encoding/json escapes quotes and backslashes (used by the examples only) *)
Definition ex_escape (o : bytes) : bytes :=
  flat_map (fun c => if c =? 34 then [92; 34] else if c =? 92 then [92; 92] else [c]) o.
Definition ex_enc (o n : bytes) : bytes :=
  bs "1.0" ++ [10] ++ bs "{""offer"":""" ++ ex_escape o ++ bs """,""nat"":""" ++ n ++
  bs """,""fingerprint"":""2B280B23E1107BB62ABFC40DDCC8824814F80A72""}".

(* the divergence is real, and the hypotheses of C14_legacy_equiv are satisfiable by an encoder that embeds the offer:
   (1) a 9-byte legacy offer: within the limit, legacy answer = image of the twin's answer (503 for "no proxies");
   (2) a 99 930-byte legacy offer without a single character to escape: read in full, its encoding is 100 012 bytes;
   (3) a 55 001-byte legacy offer made of quotes: its encoding is 110 083 bytes.
   In (2) and (3) the legacy request is answered 503 (what IPC said), the encoding POSTed directly 400. *)
Example C14_legacy_shim_diverges_ex :
  let dec := fun r : bytes => Some {| r_answer := []; r_error := r |} in
  let ipc := fun _ : bytes => IpcOk STR_NO_PROXIES in
  let small := bs "{""sdp"":1}" in
  let plain := 123 :: repeat 120 (N.to_nat 99929) in
  let quotes := 123 :: repeat 34 (N.to_nat 55000) in
  (forall o n, is_legacy (ex_enc o n) = false) /\
  (is_legacy small = true /\ N.of_nat (List.length (ex_enc small [])) <= READ_LIMIT_N /\
   client_offers ex_enc dec ipc H1 (ReadOk small) [] = HResp 503 [] /\
   client_offers ex_enc dec ipc H1 (versioned_twin ex_enc small []) [] = HResp 200 STR_NO_PROXIES) /\
  (is_legacy plain = true /\ N.of_nat (List.length plain) = 99930 /\ N.of_nat (List.length (ex_enc plain [])) = 100012 /\
   client_offers ex_enc dec ipc H1 (read_body plain) [] = HResp 503 [] /\
   client_offers ex_enc dec ipc H1 (versioned_twin ex_enc plain []) [] = HResp 400 []) /\
  (is_legacy quotes = true /\ N.of_nat (List.length quotes) = 55001 /\ N.of_nat (List.length (ex_enc quotes [])) = 110083 /\
   client_offers ex_enc dec ipc H1 (read_body quotes) [] = HResp 503 [] /\
   client_offers ex_enc dec ipc H1 (versioned_twin ex_enc quotes []) [] = HResp 400 []).
Proof.
  intros dec ipc small plain quotes.
  split; [intros o n; reflexivity|].
  split; [vm_compute; repeat split; discriminate|].
  (* the long bodies are never built: only their lengths enter, and the IPC layer of the example ignores its argument *)
  assert (Len : forall c k, N.of_nat (List.length (123 :: repeat c (N.to_nat k))) = N.succ k).
  { intros c k. cbn [List.length]. rewrite repeat_length, Nat2N.inj_succ, N2Nat.id. reflexivity. }
  assert (Enc : forall c k, N.of_nat (List.length (ex_enc (123 :: repeat c (N.to_nat k)) [])) =
                            N.of_nat (List.length (ex_enc [123] [])) + k * N.of_nat (List.length (ex_escape [c]))).
  { intros c k. unfold ex_enc, ex_escape. rewrite !app_length. cbn [flat_map].
    rewrite !app_length, flat_map_repeat_length. cbn [List.length]. lia. }
  unfold plain, quotes.
  split; (split; [reflexivity|]; split; [apply Len|]; split; [rewrite Enc; reflexivity|]; split;
          [unfold read_body; rewrite Len; reflexivity | unfold versioned_twin, read_body; rewrite Enc; reflexivity]).
Qed.

Theorem C14_legacy_map :
  forall dec_resp response,
    match dec_resp response with
    | None => legacy_map dec_resp H1 response = HResp 500 []
    | Some r =>
        (r_error r = [] -> legacy_map dec_resp H1 response = HResp 200 (r_answer r)) /\
        (r_error r = STR_NO_PROXIES -> legacy_map dec_resp H1 response = HResp 503 []) /\
        (r_error r = STR_TIMED_OUT -> legacy_map dec_resp H1 response = HResp 504 []) /\
        (r_error r <> [] -> r_error r <> STR_NO_PROXIES -> r_error r <> STR_TIMED_OUT ->
           legacy_map dec_resp H1 response = HResp 400 [])
    end.
Proof. exact legacy_map_cases. Qed.

Theorem C14_client_status_set :
  forall enc_req dec_resp ipc_client v rd h,
    match client_offers enc_req dec_resp ipc_client v rd h with
    | HResp st _ => st = 200 \/ st = 400 \/ st = 500 \/ st = 503 \/ st = 504
    | HPanic => v = H0
    end.
Proof. exact status_set. Qed.

(* the pinned code: a legacy request whose shimmed poll is rejected with any other error string panics *)
Theorem C14_v0_refuted :
  forall enc_req dec_resp ipc_client offer h r,
    is_legacy offer = true -> ipc_client (enc_req offer h) = IpcOk r ->
    dec_resp r = Some {| r_answer := []; r_error := bs "invalid NAT type" |} ->
    client_offers enc_req dec_resp ipc_client H0 (ReadOk offer) h = HPanic.
Proof. exact v0_legacy_panics. Qed.

Example C14_nonvacuous :
  let enc := fun (o n : bytes) => bs "1.0" ++ [10] ++ o in
  let dec := fun (r : bytes) => Some {| r_answer := []; r_error := r |} in
  let ipc := fun (_ : bytes) => IpcOk (bs "invalid NAT type") in
  is_legacy (bs "{x}") = true /\
  client_offers enc dec ipc H0 (ReadOk (bs "{x}")) [] = HPanic /\
  client_offers enc dec ipc H1 (ReadOk (bs "{x}")) [] = HResp 400 [].
Proof. repeat split. Qed.

(* no request - any method, path, header lines, body - makes a handler of the repaired code panic, whatever the
   IPC layer and the codecs return: every body[0] is behind its length test, every path[n:] behind HasPrefix,
   every WriteHeader code within 100..999 *)
Theorem C14_no_request_panics :
  forall (St : Type) view enc_req dec_resp enc_err amp_dec amp_arm (ipc_client ipc_proxy ipc_answer : St -> bytes -> ipcres * St) r s q,
  fst (handle St view enc_req dec_resp enc_err amp_dec amp_arm ipc_client ipc_proxy ipc_answer H1 r s q) <> Panicked /\
  fst (serve_req St view enc_req dec_resp enc_err amp_dec amp_arm ipc_client ipc_proxy ipc_answer H1 s q) <> Panicked.
Proof. exact serve_never_panics_v1. Qed.

Theorem C14_v0_request_panics :
  forall (St : Type) view enc_req dec_resp enc_err amp_dec amp_arm (ipc_client ipc_proxy ipc_answer : St -> bytes -> ipcres * St) s q offer r s',
  route_of (q_path q) = RClient -> beq (q_method q) OPTIONS = false ->
  read_body (q_sent q) = ReadOk offer -> is_legacy offer = true ->
  ipc_client s (enc_req offer (header_get (q_hdrs q) NAT_HEADER)) = (IpcOk r, s') ->
  dec_resp r = Some {| r_answer := []; r_error := bs "invalid NAT type" |} ->
  fst (serve_req St view enc_req dec_resp enc_err amp_dec amp_arm ipc_client ipc_proxy ipc_answer H0 s q) = Panicked.
Proof. exact serve_v0_panics. Qed.

(* the mux hands ampClientOffers only paths that start with /amp/client/ ... *)
Theorem C14_mux_amp_prefix : forall p, route_of p = RAmp -> exists t, p = AMP_ROUTE_B ++ t.
Proof. exact route_amp_prefix. Qed.

(* ... and a path without the prefix (the handler called directly) is answered 500 without touching the state *)
Theorem C14_amp_wrong_prefix :
  forall (St : Type) enc_err amp_dec amp_arm (ipc_client : St -> bytes -> ipcres * St) s q w,
  has_prefix AMP_ROUTE_B (q_path q) = false ->
  amp_w St enc_err amp_dec amp_arm ipc_client s q w = wstatus St 500 w s.
Proof. exact amp_wrong_prefix. Qed.

(* CORS preflight on every wrapped route: empty 200 with the CORS headers, state untouched *)
Theorem C14_options_preflight :
  forall (St : Type) view enc_req dec_resp enc_err amp_dec amp_arm (ipc_client ipc_proxy ipc_answer : St -> bytes -> ipcres * St) v r s q,
  wrapped r = true -> q_method q = OPTIONS ->
  handle St view enc_req dec_resp enc_err amp_dec amp_arm ipc_client ipc_proxy ipc_answer v r s q = (Ret (set_cors rw_new), s) /\
  respond q (Ret (set_cors rw_new)) = Ret {| p_status := 200; p_body := []; p_cors := true |}.
Proof. exact options_early_return. Qed.

(* a body beyond 100000 bytes: 400 on /proxy, /client and /answer, state untouched *)
Theorem C14_oversize_400 :
  forall (St : Type) view enc_req dec_resp enc_err amp_dec amp_arm (ipc_client ipc_proxy ipc_answer : St -> bytes -> ipcres * St) v r s q,
  (r = RProxy \/ r = RClient \/ r = RAnswer) ->
  beq (q_method q) OPTIONS = false -> READ_LIMIT_N < N.of_nat (List.length (q_sent q)) ->
  handle St view enc_req dec_resp enc_err amp_dec amp_arm ipc_client ipc_proxy ipc_answer v r s q =
    (Ret {| w_code := Some 400; w_body := []; w_cors := true |}, s).
Proof. exact oversize_is_400. Qed.

(* handlers change the broker state through IPC only: a request that does not get as far as an IPC call
   (preflight, oversize body, undecodable AMP path, unknown route, /debug, /metrics, /prometheus, /robots.txt)
   leaves the state as it was ... *)
Theorem C14_state_only_through_ipc :
  forall (St : Type) view enc_req dec_resp enc_err amp_dec amp_arm (ipc_client ipc_proxy ipc_answer : St -> bytes -> ipcres * St) v s q,
  reaches_ipc amp_dec q = false ->
  snd (serve_req St view enc_req dec_resp enc_err amp_dec amp_arm ipc_client ipc_proxy ipc_answer v s q) = s.
Proof. exact no_ipc_state_unchanged. Qed.

(* ... and one that does leaves exactly the state its IPC call leaves *)
Theorem C14_state_is_ipc_state :
  forall (St : Type) view enc_req dec_resp enc_err amp_dec amp_arm (ipc_client ipc_proxy ipc_answer : St -> bytes -> ipcres * St) v s q,
  reaches_ipc amp_dec q = true ->
  exists ipc body, In ipc [ipc_client; ipc_proxy; ipc_answer] /\
    snd (serve_req St view enc_req dec_resp enc_err amp_dec amp_arm ipc_client ipc_proxy ipc_answer v s q) = snd (ipc s body).
Proof. exact ipc_state. Qed.

(* histories: removing any set of such requests from a request sequence changes no other response *)
Theorem C14_history_unaffected :
  forall (St : Type) view enc_req dec_resp enc_err amp_dec amp_arm (ipc_client ipc_proxy ipc_answer : St -> bytes -> ipcres * St) v
         (drop : hreq -> bool),
  (forall q, drop q = true -> reaches_ipc amp_dec q = false) ->
  forall qs s,
    filter (fun p => negb (drop (fst p))) (run_reqs St view enc_req dec_resp enc_err amp_dec amp_arm ipc_client ipc_proxy ipc_answer v s qs) =
    run_reqs St view enc_req dec_resp enc_err amp_dec amp_arm ipc_client ipc_proxy ipc_answer v s (filter (fun q => negb (drop q)) qs).
Proof. exact history_drop. Qed.

Theorem C14_malformed_prefix_invisible :
  forall (St : Type) view enc_req dec_resp enc_err amp_dec amp_arm (ipc_client ipc_proxy ipc_answer : St -> bytes -> ipcres * St) v pre s q,
  Forall (fun p => reaches_ipc amp_dec p = false) pre ->
  fst (serve_req St view enc_req dec_resp enc_err amp_dec amp_arm ipc_client ipc_proxy ipc_answer v s q) =
  match last (run_reqs St view enc_req dec_resp enc_err amp_dec amp_arm ipc_client ipc_proxy ipc_answer v s (pre ++ [q])) (q, Panicked) with (_, o) => o end.
Proof. exact malformed_prefix_invisible. Qed.

(* the client handler of the refined model computes [client_offers], the total function that C14_handlers_never_panic,
   C14_legacy_equiv and C14_client_status_set are about *)
Theorem C14_client_refines :
  forall (St : Type) enc_req dec_resp (ipc_client : St -> bytes -> ipcres * St) v s q,
  hresp_of (fst (client_offers_w St enc_req dec_resp ipc_client v s q (set_cors rw_new))) =
  client_offers enc_req dec_resp (fun b => fst (ipc_client s b)) v (read_body (q_sent q)) (header_get (q_hdrs q) NAT_HEADER).
Proof. exact client_offers_refines. Qed.

(* legacy == versioned at the level of whole requests, within the size limit: the legacy request and the versioned
   POST of the shimmed body make the same IPC call and leave the same broker state; the legacy response is the image
   of the other. The size hypothesis is about the encoding of the request at hand (non-vacuity with an encoder that
   embeds the offer: C14_legacy_twin_ex). *)
Theorem C14_legacy_twin :
  forall (St : Type) view enc_req dec_resp enc_err amp_dec amp_arm (ipc_client ipc_proxy ipc_answer : St -> bytes -> ipcres * St),
  (forall o n, is_legacy (enc_req o n) = false) ->
  forall v s q q' offer,
  route_of (q_path q) = RClient -> route_of (q_path q') = RClient ->
  beq (q_method q) OPTIONS = false -> beq (q_method q') OPTIONS = false ->
  read_body (q_sent q) = ReadOk offer -> is_legacy offer = true ->
  q_sent q' = enc_req offer (header_get (q_hdrs q) NAT_HEADER) ->
  N.of_nat (List.length (enc_req offer (header_get (q_hdrs q) NAT_HEADER))) <= READ_LIMIT_N ->
  snd (serve_req St view enc_req dec_resp enc_err amp_dec amp_arm ipc_client ipc_proxy ipc_answer v s q) =
  snd (serve_req St view enc_req dec_resp enc_err amp_dec amp_arm ipc_client ipc_proxy ipc_answer v s q') /\
  hresp_of (fst (handle St view enc_req dec_resp enc_err amp_dec amp_arm ipc_client ipc_proxy ipc_answer v RClient s q)) =
    match hresp_of (fst (handle St view enc_req dec_resp enc_err amp_dec amp_arm ipc_client ipc_proxy ipc_answer v RClient s q')) with
    | HResp 200 response => legacy_map dec_resp v response
    | other => other
    end.
Proof. exact legacy_twin_same_state. Qed.

(* ... and beyond it the two requests part: the legacy request makes the IPC call on the encoded body whatever its
   size, leaves the state that call leaves and answers with the image of its outcome; the encoded body POSTed directly
   is answered 400 without an IPC call, the state untouched. *)
Theorem C14_legacy_twin_over_limit :
  forall (St : Type) view enc_req dec_resp enc_err amp_dec amp_arm (ipc_client ipc_proxy ipc_answer : St -> bytes -> ipcres * St),
  forall v s q q' offer,
  route_of (q_path q) = RClient -> route_of (q_path q') = RClient ->
  beq (q_method q) OPTIONS = false -> beq (q_method q') OPTIONS = false ->
  read_body (q_sent q) = ReadOk offer -> is_legacy offer = true ->
  q_sent q' = enc_req offer (header_get (q_hdrs q) NAT_HEADER) ->
  READ_LIMIT_N < N.of_nat (List.length (enc_req offer (header_get (q_hdrs q) NAT_HEADER))) ->
  let call := ipc_client s (enc_req offer (header_get (q_hdrs q) NAT_HEADER)) in
  snd (serve_req St view enc_req dec_resp enc_err amp_dec amp_arm ipc_client ipc_proxy ipc_answer v s q) = snd call /\
  hresp_of (fst (handle St view enc_req dec_resp enc_err amp_dec amp_arm ipc_client ipc_proxy ipc_answer v RClient s q)) =
    match fst call with
    | IpcOk response => legacy_map dec_resp v response
    | _ => HResp 500 []
    end /\
  handle St view enc_req dec_resp enc_err amp_dec amp_arm ipc_client ipc_proxy ipc_answer v RClient s q' =
    (Ret {| w_code := Some 400; w_body := []; w_cors := true |}, s) /\
  snd (serve_req St view enc_req dec_resp enc_err amp_dec amp_arm ipc_client ipc_proxy ipc_answer v s q') = s.
Proof. exact legacy_twin_over_limit. Qed.

(* non-vacuity of both, on whole requests, with a state that counts the client polls IPC has seen: within the limit
   both requests leave the count at 1 and the legacy answer is the image (503) of the twin's (200 + error text);
   with a quote-heavy 55 001-byte legacy offer the legacy request still reaches IPC (count 1, 503), its encoding
   POSTed directly does not (count 0, 400). *)
Example C14_legacy_twin_ex :
  let St := N in
  let view := fun _ : St => {| v_snowflakes := []; v_metrics := None; v_prom := [] |} in
  let dec := fun r : bytes => Some {| r_answer := []; r_error := r |} in
  let ipc := fun (s : St) (_ : bytes) => (IpcOk STR_NO_PROXIES, s + 1) in
  let nope := fun (s : St) (_ : bytes) => (IpcBadRequest, s) in
  let srv := serve_req St view ex_enc dec (fun e => e) (fun _ => None) (fun b => b) ipc nope nope H1 0 in
  let rq := fun hdrs body => {| q_method := bs "POST"; q_path := bs "/client"; q_hdrs := hdrs; q_sent := body |} in
  let nat := [(bs "Snowflake-NAT-Type", bs "restricted")] in
  let small := bs "{""sdp"":1}" in
  let quotes := 123 :: repeat 34 (N.to_nat 55000) in
  (N.of_nat (List.length (ex_enc small (header_get nat NAT_HEADER))) <= READ_LIMIT_N /\
   srv (rq nat small) = (Ret {| p_status := 503; p_body := []; p_cors := true |}, 1) /\
   srv (rq [] (ex_enc small (bs "restricted"))) = (Ret {| p_status := 200; p_body := STR_NO_PROXIES; p_cors := true |}, 1)) /\
  (N.of_nat (List.length quotes) = 55001 /\ READ_LIMIT_N < N.of_nat (List.length (ex_enc quotes (header_get nat NAT_HEADER))) /\
   srv (rq nat quotes) = (Ret {| p_status := 503; p_body := []; p_cors := true |}, 1) /\
   srv (rq [] (ex_enc quotes (bs "restricted"))) = (Ret {| p_status := 400; p_body := []; p_cors := true |}, 0)).
Proof.
  intros St view dec ipc nope srv rq nat small quotes.
  split; [vm_compute; repeat split; discriminate|].
  assert (Len : N.of_nat (List.length quotes) = 55001).
  { unfold quotes. cbn [List.length]. rewrite repeat_length, Nat2N.inj_succ, N2Nat.id. reflexivity. }
  assert (Enc : forall n, N.of_nat (List.length (ex_enc quotes n)) = N.of_nat (List.length (ex_enc [123] n)) + 55000 * 2).
  { intros n. unfold quotes, ex_enc, ex_escape. rewrite !app_length. cbn [flat_map].
    rewrite !app_length, flat_map_repeat_length. cbn [List.length N.eqb Pos.eqb]. lia. }
  split; [exact Len|]. split; [rewrite Enc; reflexivity|]. split.
  - (* the client route, no preflight, a body within the limit: read in full, first byte '{' *)
    unfold srv, serve_req, rq. cbn [q_path]. replace (route_of (bs "/client")) with RClient by reflexivity.
    cbn [handle]. unfold cors_wrap. cbn [q_method]. replace (beq (bs "POST") OPTIONS) with false by reflexivity.
    unfold client_offers_w. cbn [q_sent]. unfold read_body. rewrite Len. reflexivity.
  - unfold srv, serve_req, rq. cbn [q_path]. replace (route_of (bs "/client")) with RClient by reflexivity.
    rewrite oversize_is_400; [reflexivity | auto | reflexivity | cbn [q_sent]; rewrite Enc; reflexivity].
Qed.

(* the NAT type is found under any spelling of the header name with the same canonical form; the first line wins *)
Theorem C14_header_spelling : forall lines k1 k2, canon_key k1 = canon_key k2 -> header_get lines k1 = header_get lines k2.
Proof. intros lines k1 k2 H. unfold header_get. rewrite H. reflexivity. Qed.

Theorem C14_header_first_wins : forall k v rest key, canon_key k = canon_key key -> header_get ((k, v) :: rest) key = trim_ows v.
Proof. intros k v rest key H. unfold header_get. cbn. rewrite H, beq_refl. reflexivity. Qed.

(* non-vacuity: a concrete broker state (the list of registered proxies), an IPC layer that registers a proxy on a
   well-formed poll, and a history in which malformed requests are interleaved *)
Example C14_history_nonvacuous :
  let St := list (bytes * bytes) in
  let view := fun s : St => {| v_snowflakes := s; v_metrics := None; v_prom := bs "# TYPE x counter" |} in
  let ipc_proxy := fun (s : St) (b : bytes) => if beq b (bs "poll") then (IpcOk (bs "{}"), (bs "standalone", bs "restricted") :: s) else (IpcBadRequest, s) in
  let ipc_other := fun (s : St) (b : bytes) => (IpcOk b, s) in
  let amp_dec := fun p : bytes => if beq p (bs "0/x") then Some (bs "x") else None in
  let rq := fun m p b : bytes => {| q_method := m; q_path := p; q_hdrs := [(bs "snowflake-nat-type", bs " unknown ")]; q_sent := b |} in
  let good := [rq (bs "POST") (bs "/proxy") (bs "poll"); rq (bs "GET") (bs "/debug") (bs "")] in
  let bad := [rq (bs "OPTIONS") (bs "/proxy") (bs "poll"); rq (bs "GET") (bs "/amp/client/1") (bs ""); rq (bs "POST") (bs "/nosuch") (bs "poll"); rq (bs "GET") (bs "/metrics") (bs "")] in
  let run := run_reqs St view (fun o n => 49 :: o) (fun _ => None) (fun e => e) amp_dec (fun b => b) ipc_other ipc_proxy ipc_other H1 [] in
  forallb (fun q => negb (reaches_ipc amp_dec q)) bad = true /\
  reaches_ipc amp_dec (rq (bs "POST") (bs "/proxy") (bs "poll")) = true /\
  header_get [(bs "snowflake-nat-type", bs " unknown ")] NAT_HEADER = bs "unknown" /\
  map snd (run good) =
    [Ret {| p_status := 200; p_body := bs "{}"; p_cors := true |};
     Ret {| p_status := 200; p_body := debug_body [(bs "standalone", bs "restricted")]; p_cors := true |}] /\
  map snd (filter (fun p => reaches_ipc amp_dec (fst p) || beq (q_path (fst p)) (bs "/debug"))
                  (run (bad ++ [rq (bs "POST") (bs "/proxy") (bs "poll")] ++ bad ++ [rq (bs "GET") (bs "/debug") (bs "")] ++ bad))) = map snd (run good).
Proof. vm_compute. repeat split. Qed.

Example C14_v0_request_panics_ex :
  let St := unit in
  let q := {| q_method := bs "POST"; q_path := bs "/client"; q_hdrs := [(bs "Snowflake-NAT-Type", bs "bogus")]; q_sent := bs "{x}" |} in
  let srv := serve_req St (fun _ => {| v_snowflakes := []; v_metrics := None; v_prom := [] |}) (fun o n => bs "1.0" ++ [10] ++ n)
               (fun r => Some {| r_answer := []; r_error := r |}) (fun e => e) (fun _ => None) (fun b => b)
               (fun s b => (IpcOk (bs "invalid NAT type"), s)) (fun s b => (IpcBadRequest, s)) (fun s b => (IpcBadRequest, s)) in
  fst (srv H0 tt q) = Panicked /\ fst (srv H1 tt q) = Ret {| p_status := 400; p_body := []; p_cors := true |}.
Proof. vm_compute. repeat split. Qed.
