(* C11 — Rendezvous requests are faithfully encoded, fronted and bounded.
   Statements, each with its last step from the lemmas of Proofs/{AmpPath,CacheURL,Rendezvous*}Proofs.v.
   Library behaviour (idna.ToUnicode/ToASCII, sha256, AMP armor, IPC.ClientOffers) is
   universally quantified in each statement, with the hypotheses it needs spelled out. *)
From Coq Require Import List NArith Arith String.
From Snow Require Import Lib.Wire Model.B64Url Model.AmpPath Model.CacheURL Model.Rendezvous.
From Snow Require Import Proofs.AmpPathProofs Proofs.CacheURLProofs Proofs.RendezvousPathProofs Proofs.RendezvousProofs.
From Snow Require Import Proofs.RendezvousObjectProofs.
Import ListNotations.
Open Scope N_scope.

(* ---------------- path encoding ---------------- *)

(* "0" ++ ANY padding (slashes included) ++ "/" ++ base64url(data) decodes to data *)
Theorem C11_path_roundtrip : forall pad data,
  wf_bytes data -> decode_path (encode_path_with_pad pad data) = POk data.
Proof. exact path_roundtrip. Qed.

Example C11_path_roundtrip_ex :
  wf_bytes [49; 46; 48; 10; 123; 125; 255; 0] /\
  encode_path_with_pad (bs "AA//_-") [49; 46; 48; 10; 123; 125; 255; 0] = bs "0AA//_-/MS4wCnt9_wA".
Proof. split; [repeat constructor|vm_compute; reflexivity]. Qed.

(* the encoder proper, for every value of the 9 random cache-breaker bytes *)
Theorem C11_path_roundtrip_encoder : forall cache_breaker data,
  wf_bytes data -> decode_path (encode_path cache_breaker data) = POk data.
Proof. exact path_roundtrip_encoder. Qed.

(* two paths that differ only before the final slash decode alike (also to the same error) *)
Theorem C11_path_padding_irrelevant : forall pad1 pad2 t,
  ~ In SLASH t ->
  decode_path (ZERO_CH :: pad1 ++ SLASH :: t) = decode_path (ZERO_CH :: pad2 ++ SLASH :: t).
Proof. intros pad1 pad2 t Hn. rewrite !decode_path_data by exact Hn. reflexivity. Qed.

Example C11_path_padding_irrelevant_ex : ~ In SLASH (bs "QUJD").
Proof. vm_compute. intuition discriminate. Qed.

(* every outcome of DecodePath, as an iff on the shape of the path *)
Theorem C11_path_errors : forall p,
  (decode_path p = PErr MissingFormat <-> p = []) /\
  (decode_path p = PErr UnknownFormat <-> exists v rest, p = v :: rest /\ v <> ZERO_CH) /\
  (decode_path p = PErr MissingData <-> exists rest, p = ZERO_CH :: rest /\ ~ In SLASH rest) /\
  (decode_path p = PErr BadBase64 <->
     exists pre t, p = ZERO_CH :: pre ++ SLASH :: t /\ ~ In SLASH t /\ u_decode t = None) /\
  (forall d, decode_path p = POk d <->
     exists pre t, p = ZERO_CH :: pre ++ SLASH :: t /\ ~ In SLASH t /\ u_decode t = Some d).
Proof.
  intros p. pose proof (decode_path_inv p) as I.
  repeat split; try (intros H; rewrite H in I; exact I).
  - intros ->. reflexivity.
  - intros (v & rest & -> & Hv). apply decode_path_unknown. exact Hv.
  - intros (rest & -> & Hn). apply decode_path_nodata. exact Hn.
  - intros (pre & t & -> & Hn & Hd). rewrite decode_path_data, Hd by exact Hn. reflexivity.
  - intros (pre & t & -> & Hn & Hd). rewrite decode_path_data, Hd by exact Hn. reflexivity.
Qed.

(* base64url is refused exactly for a character outside the alphabet (CR and LF are
   skipped) or a count of alphabet characters that is 1 modulo 4 *)
Theorem C11_b64url_refused_iff : forall s,
  u_decode s = None <->
  (exists c, In c s /\ is_nl c = false /\ ~ in_alphabet c) \/ (length (strip_nl s) mod 4 = 1)%nat.
Proof. exact u_decode_none. Qed.

(* ---------------- broker: AMP endpoint = armored POST endpoint ---------------- *)

Theorem C11_amp_equals_post :
  forall (client_offers : bytes -> option bytes) (legacy_post : bytes -> http_reply)
         (armor : bytes -> bytes) (decode_error_response : option bytes) p body,
  decode_path p = POk body ->
  not_legacy body ->
  N.of_nat (length body) <= BROKER_READ_LIMIT ->
  let post := post_handler client_offers legacy_post body in
  let ampr := amp_handler client_offers armor decode_error_response (AMP_ROUTE ++ p) in
  (h_status post = 200 /\ ampr = {| h_status := 200; h_body := armor (h_body post) |}) \/
  (h_status post = 500 /\ ampr = {| h_status := 500; h_body := [] |}).
Proof. exact amp_equals_post. Qed.

Example C11_amp_equals_post_ex :
  decode_path (bs "0AAAAAAAAAAAA/MS4wCnt9") = POk (bs "1.0
{}") /\ not_legacy (bs "1.0
{}") /\ N.of_nat (length (bs "1.0
{}")) <= BROKER_READ_LIMIT.
Proof. vm_compute. repeat split; discriminate. Qed.

(* composed with the client's encoder, for any padding *)
Theorem C11_amp_equals_post_encoded :
  forall (client_offers : bytes -> option bytes) (legacy_post : bytes -> http_reply)
         (armor : bytes -> bytes) (decode_error_response : option bytes) pad body,
  wf_bytes body -> not_legacy body -> N.of_nat (length body) <= BROKER_READ_LIMIT ->
  let post := post_handler client_offers legacy_post body in
  let ampr := amp_handler client_offers armor decode_error_response (AMP_ROUTE ++ encode_path_with_pad pad body) in
  (h_status post = 200 /\ ampr = {| h_status := 200; h_body := armor (h_body post) |}) \/
  (h_status post = 500 /\ ampr = {| h_status := 500; h_body := [] |}).
Proof. exact amp_equals_post_encoded. Qed.

(* the two endpoints for EVERY decodable poll, with the cases the equality above leaves out: a poll beyond the POST
   body limit is a 400 on /client but is taken by /amp/client/ (the handler has no limit of its own); a poll that
   starts with '{' goes to the legacy shim on /client but is an ordinary (versioned, hence refused by IPC) poll on
   /amp/client/. So "AMP = armored POST" holds exactly for non-legacy polls within the limit. *)
Theorem C11_amp_vs_post_all_polls :
  forall (client_offers : bytes -> option bytes) (legacy_post : bytes -> http_reply)
         (armor : bytes -> bytes) (decode_error_response : option bytes) p body,
  decode_path p = POk body ->
  let post := post_handler client_offers legacy_post body in
  let ampr := amp_handler client_offers armor decode_error_response (AMP_ROUTE ++ p) in
  ampr = match client_offers body with
         | Some r => {| h_status := 200; h_body := armor r |}
         | None => {| h_status := 500; h_body := [] |}
         end /\
  (BROKER_READ_LIMIT < N.of_nat (length body) -> post = {| h_status := 400; h_body := [] |}) /\
  (N.of_nat (length body) <= BROKER_READ_LIMIT -> is_legacy_b body = true -> post = legacy_post body) /\
  (N.of_nat (length body) <= BROKER_READ_LIMIT -> is_legacy_b body = false ->
     post = match client_offers body with
            | Some r => {| h_status := 200; h_body := r |}
            | None => {| h_status := 500; h_body := [] |}
            end).
Proof. exact amp_post_cases. Qed.

(* the divergence is real: a '{'-leading poll for which the shim answers 503 and IPC (on the raw body) an error text *)
Example C11_amp_vs_post_diverge_ex :
  let co := fun b : bytes => Some (bs "{""error"":""unsupported message version""}") in
  let lp := fun b : bytes => {| h_status := 503; h_body := [] |} in
  decode_path (bs "0/e30") = POk (bs "{}") /\ is_legacy_b (bs "{}") = true /\
  post_handler co lp (bs "{}") = {| h_status := 503; h_body := [] |} /\
  amp_handler co (fun x => x) None (AMP_ROUTE ++ bs "0/e30") = {| h_status := 200; h_body := bs "{""error"":""unsupported message version""}" |} /\
  BROKER_READ_LIMIT < N.of_nat (length (repeat 49 (N.to_nat 100001))) /\
  h_status (post_handler co lp (repeat 49 (N.to_nat 100001))) = 400.
Proof.
  cbv zeta. do 4 (split; [vm_compute; reflexivity|]).
  assert (L : N.of_nat (length (repeat 49 (N.to_nat 100001))) = 100001) by (rewrite repeat_length; apply N2Nat.id).
  unfold post_handler. rewrite L. split; reflexivity.
Qed.

(* ---------------- domain prefix ---------------- *)

(* a single dot-free label of at most 63 bytes: either the basic algorithm's output or the
   52-character a-z2-7 fallback (taken exactly when the basic algorithm fails or is too long) *)
Theorem C11_prefix_label :
  forall (to_unicode to_ascii : bytes -> option bytes) (sha256 : bytes -> bytes) (h34 : bytes -> bool),
  (forall s r, to_ascii s = Some r -> ~ In DOTC s -> ~ In DOTC r) ->
  (forall d, length (sha256 d) = 32%nat) ->
  forall d,
    let p := domain_prefix to_unicode to_ascii sha256 h34 d in
    ~ In DOTC p /\ (length p <= 63)%nat /\
    (domain_prefix_basic to_unicode to_ascii h34 d = Some p \/
     (p = domain_prefix_fallback sha256 d /\ length p = 52%nat /\ Forall b32_alpha p /\
      (domain_prefix_basic to_unicode to_ascii h34 d = None \/
       exists q, domain_prefix_basic to_unicode to_ascii h34 d = Some q /\ (63 < length q)%nat))).
Proof. exact prefix_label. Qed.

Example C11_prefix_label_ex :
  (forall s r, (fun x : bytes => Some x) s = Some r -> ~ In DOTC s -> ~ In DOTC r) /\
  (forall d : bytes, length ((fun _ => repeat 0 32) d) = 32%nat).
Proof. split; [intros s r H; inversion H; auto|reflexivity]. Qed.

(* with the character-indexed hyphen test the basic algorithm is the AMP specification's *)
Theorem C11_prefix_is_spec :
  forall (to_unicode to_ascii : bytes -> option bytes) d cps,
  to_unicode d = Some (utf8_encode cps) -> valid_str cps ->
  domain_prefix_basic to_unicode to_ascii h34_runes d = to_ascii (utf8_encode (steps234_spec cps)).
Proof. exact basic_is_spec. Qed.

(* the byte-indexed test (code at the pinned commit) agrees with the specification on ASCII names *)
Theorem C11_prefix_is_spec_ascii :
  forall (to_unicode to_ascii : bytes -> option bytes) d cps,
  to_unicode d = Some (utf8_encode cps) -> Forall (fun c => c < 128) cps ->
  domain_prefix_basic to_unicode to_ascii h34_bytes d = to_ascii (utf8_encode (steps234_spec cps)).
Proof. exact basic_v0_is_spec_ascii. Qed.

Example C11_prefix_is_spec_ex :
  valid_str [101; 110; 45; 117; 115; 46; 99; 111; 109] /\ Forall (fun c => c < 128) [101; 110; 45; 117; 115; 46; 99; 111; 109] /\
  steps234_spec [101; 110; 45; 117; 115; 46; 99; 111; 109] = bs "0-en--us-com-0".
Proof. split; [repeat constructor|split; [repeat constructor|vm_compute; reflexivity]]. Qed.

(* ... and not on internationalised names: "é-c.com" gets 0-…-0 from the bytes test only,
   "éa-b.com" from the specification only *)
Theorem C11_prefix_idn_refuted :
  (let cps := [233; 45; 99; 46; 99; 111; 109] in
   valid_str cps /\ h34_bytes (replace_byte DOTC [HYPHEN] (replace_byte HYPHEN [HYPHEN; HYPHEN] (utf8_encode cps))) = true /\
   h34_spec (replace_byte DOTC [HYPHEN] (replace_byte HYPHEN [HYPHEN; HYPHEN] cps)) = false /\
   steps234 h34_bytes (utf8_encode cps) <> utf8_encode (steps234_spec cps)) /\
  (let cps := [233; 97; 45; 98; 46; 99; 111; 109] in
   valid_str cps /\ h34_bytes (replace_byte DOTC [HYPHEN] (replace_byte HYPHEN [HYPHEN; HYPHEN] (utf8_encode cps))) = false /\
   h34_spec (replace_byte DOTC [HYPHEN] (replace_byte HYPHEN [HYPHEN; HYPHEN] cps)) = true /\
   steps234 h34_bytes (utf8_encode cps) <> utf8_encode (steps234_spec cps)).
Proof.
  split; cbv zeta; (split; [repeat constructor|]); (split; [vm_compute; reflexivity|]);
    (split; [vm_compute; reflexivity|]); vm_compute; discriminate.
Qed.

(* ---------------- cache URL ---------------- *)

(* CacheURL succeeds exactly under these conditions, and then returns exactly this URL *)
Theorem C11_cache_url_iff :
  forall (to_unicode to_ascii : bytes -> option bytes) (sha256 : bytes -> bytes) (h34 : bytes -> bool) pu cu ct r,
  cache_url to_unicode to_ascii sha256 h34 pu cu ct = Some r <->
  ct <> [] /\ (p_scheme pu = S_HTTP \/ p_scheme pu = S_HTTPS) /\ p_user pu = false /\
  port_default pu /\ p_hostname pu <> [] /\
  valid_escapes (path_join (path_components pu cu ct)) = true /\
  c_rawquery cu = [] /\ c_fragment cu = [] /\
  r = {| r_scheme := c_scheme cu; r_user := c_user cu;
         r_host := result_host to_unicode to_ascii sha256 h34 pu cu;
         r_rawpath := path_join (path_components pu cu ct);
         r_rawquery := p_rawquery pu; r_fragment := p_fragment pu |}.
Proof. exact cache_url_some. Qed.

(* for a publisher path /p1/…/pn and a cache path /c1/…/cm[/] without empty or dot segments,
   the result path is /c1/…/cm/c[/s]/<escaped host>/p1/…/pn *)
Theorem C11_cache_path : forall pu cu cs ps (trailing : bool),
  Forall normal_seg cs -> Forall normal_seg ps ->
  c_epath cu = abs_path cs ++ (if trailing then [SLASHC] else []) ->
  p_epath pu = abs_path ps ->
  p_hostname pu <> [] -> p_hostname pu <> [DOTC] -> p_hostname pu <> [DOTC; DOTC] ->
  let raw := path_join (path_components pu cu (bs "c"%string)) in
  (c_epath cu <> [] -> raw = abs_path (cs ++ middle pu ++ ps)) /\
  (c_epath cu = [] -> SLASHC :: raw = abs_path (middle pu ++ ps)).
Proof. exact cache_path_shape. Qed.

Example C11_cache_path_ex :
  let pu := {| p_scheme := S_HTTPS; p_user := false; p_hostname := bs "b.example"; p_port := [];
               p_epath := bs "/amp/client/0AAAA/QUJD"; p_rawquery := []; p_fragment := [] |} in
  let cu := {| c_scheme := S_HTTPS; c_user := None; c_hostname := bs "cdn.ampproject.org"; c_port := [];
               c_epath := bs "/"; c_rawquery := []; c_fragment := [] |} in
  Forall normal_seg [bs "amp"; bs "client"; bs "0AAAA"; bs "QUJD"] /\
  c_epath cu = abs_path [] ++ [SLASHC] /\ p_epath pu = abs_path [bs "amp"; bs "client"; bs "0AAAA"; bs "QUJD"] /\
  path_join (path_components pu cu (bs "c")) = bs "/c/s/b.example/amp/client/0AAAA/QUJD".
Proof.
  cbv zeta. split.
  - repeat (apply Forall_cons; [apply normal_segb_ok; reflexivity|]). apply Forall_nil.
  - vm_compute. repeat split.
Qed.

(* ---------------- client: fronting ---------------- *)

Theorem C11_fronting_http : forall b front body, front <> [] ->
  let q := http_request b front body in
  q_connect_host q = front /\ q_host_header q = b_host b /\
  q_method q = bs "POST"%string /\ q_body q = Some body /\
  (forall h, erase_host_header (http_request (set_host b h) front body) = erase_host_header q).
Proof. exact http_fronting. Qed.

Theorem C11_fronting_amp :
  forall (to_unicode to_ascii : bytes -> option bytes) (sha256 : bytes -> bytes) (h34 : bytes -> bool)
         b cache front cb data q,
  front <> [] ->
  amp_request to_unicode to_ascii sha256 h34 b cache front cb data = Some q ->
  q_connect_host q = front /\ q_method q = bs "GET"%string /\ q_body q = None /\
  match cache with
  | None => q_host_header q = b_host b
  | Some cu =>
      exists r, cache_url to_unicode to_ascii sha256 h34 (amp_pub_url b cb data) cu (bs "c"%string) = Some r /\
                q_host_header q = r_host r
  end.
Proof. exact amp_fronting. Qed.

Theorem C11_fronting_amp_nocache_only_host_header :
  forall (to_unicode to_ascii : bytes -> option bytes) (sha256 : bytes -> bytes) (h34 : bytes -> bool)
         b front cb data h,
  front <> [] ->
  option_map erase_host_header (amp_request to_unicode to_ascii sha256 h34 (set_host b h) None front cb data) =
  option_map erase_host_header (amp_request to_unicode to_ascii sha256 h34 b None front cb data).
Proof. exact amp_fronting_nocache_only_host_header. Qed.

Example C11_fronting_ex :
  let b := {| b_scheme := S_HTTPS; b_user := false; b_host := bs "broker.example"; b_hostname := bs "broker.example";
              b_port := []; b_epath := bs "/" |} in
  bs "front.example" <> [] /\
  http_request b (bs "front.example") (bs "x") =
    {| q_method := bs "POST"; q_scheme := S_HTTPS; q_connect_host := bs "front.example";
       q_host_header := bs "broker.example"; q_path := bs "/client"; q_rawquery := []; q_body := Some (bs "x") |} /\
  amp_request (fun x => Some x) (fun x => Some x) (fun _ => []) h34_runes b None (bs "front.example") (repeat 0 9) (bs "ABC") =
    Some {| q_method := bs "GET"; q_scheme := S_HTTPS; q_connect_host := bs "front.example";
            q_host_header := bs "broker.example"; q_path := bs "/amp/client/0AAAAAAAAAAAA/QUJD"; q_rawquery := []; q_body := None |}.
Proof. cbv zeta. split; [discriminate|]. split; vm_compute; reflexivity. Qed.

(* through an AMP cache, end to end: for a non-empty poll, a broker base path /b1/…/bk/ and a
   cache path /c1/…/cm[/] without empty or dot segments, the request path is
   /<cache path>/c[/s]/<broker host>/<broker path>/amp/client/0<pad>/<base64url(poll)>,
   i.e. it ends in the broker's AMP route followed by an encoded path that decodes to the poll *)
Theorem C11_amp_cache_end_to_end :
  forall (to_unicode to_ascii : bytes -> option bytes) (sha256 : bytes -> bytes) (h34 : bytes -> bool)
         b cu csegs bsegs (trailing : bool) front cb data q,
  wf_bytes data -> data <> [] ->
  Forall normal_seg csegs -> Forall normal_seg bsegs ->
  c_epath cu = abs_path csegs ++ (if trailing then [SLASHC] else []) ->
  b_epath b = abs_path bsegs ++ [SLASHC] ->
  b_hostname b <> [DOTC] -> b_hostname b <> [DOTC; DOTC] ->
  amp_request to_unicode to_ascii sha256 h34 b (Some cu) front cb data = Some q ->
  q_path q = abs_path (csegs ++ middle (amp_pub_url b cb data) ++ bsegs ++ amp_segs cb data) /\
  (exists pre, q_path q = pre ++ AMP_ROUTE ++ encode_path cb data) /\
  decode_path (encode_path cb data) = POk data.
Proof. exact amp_cache_end_to_end. Qed.

Example C11_amp_cache_end_to_end_ex :
  let b := {| b_scheme := S_HTTPS; b_user := false; b_host := bs "broker.example"; b_hostname := bs "broker.example";
              b_port := []; b_epath := bs "/x/" |} in
  let cu := {| c_scheme := S_HTTPS; c_user := None; c_hostname := bs "cdn.ampproject.org"; c_port := [];
               c_epath := bs "/"; c_rawquery := []; c_fragment := [] |} in
  Forall normal_seg [bs "x"] /\ b_epath b = abs_path [bs "x"] ++ [SLASHC] /\ c_epath cu = abs_path [] ++ [SLASHC] /\
  amp_request (fun x => Some x) (fun x => Some x) (fun _ => []) h34_runes b (Some cu) (bs "front.example") (repeat 0 9) (bs "ABC") =
    Some {| q_method := bs "GET"; q_scheme := S_HTTPS; q_connect_host := bs "front.example";
            q_host_header := bs "broker-example.cdn.ampproject.org";
            q_path := bs "/c/s/broker.example/x/amp/client/0AAAAAAAAAAAA/QUJD"; q_rawquery := []; q_body := None |}.
Proof.
  cbv zeta. split.
  - apply Forall_cons; [apply normal_segb_ok; reflexivity|apply Forall_nil].
  - vm_compute. repeat split.
Qed.

(* ---------------- paths with dot and empty segments ---------------- *)

(* url.ResolveReference (as both rendezvous methods use it) never leaves a "." or ".." segment in the request path,
   whatever the broker URL's path *)
Theorem C11_resolve_dotfree : forall base ref, Forall nodot (split_on SLASHC (resolve_path base ref)).
Proof. exact resolve_path_dotfree. Qed.

(* for a base path without dot segments it is the directory of the base path followed by the reference *)
Theorem C11_resolve_plain : forall base c ref,
  c <> SLASHC ->
  Forall nodot (split_on SLASHC (upto_last SLASHC base ++ c :: ref)) ->
  resolve_path base (c :: ref) = resolve_rel base (c :: ref).
Proof. exact resolve_path_nodots. Qed.

Example C11_resolve_ex :
  Forall nodot (split_on SLASHC (upto_last SLASHC (bs "/x//y/z") ++ bs "client")) /\
  resolve_path (bs "/x//y/z") (bs "client") = bs "/x//y/client" /\
  resolve_path (bs "/x/./y/../z/") (bs "client") = bs "/x/z/client" /\
  resolve_path (bs "/../..") (bs "amp/client/0/QQ") = bs "/amp/client/0/QQ" /\
  resolve_path [] (bs "client") = bs "/client".
Proof. split; [repeat (apply Forall_cons; [split; reflexivity|]); apply Forall_nil|vm_compute; repeat split]. Qed.

(* CacheURL's path for ANY cache path (empty or rooted) and ANY publisher path without ".." segments: the cleaned cache
   path, c[/s]/<host>, then the publisher path's segments except the empty and "." ones - nothing else dropped or reordered *)
Theorem C11_cache_path_all_paths : forall pu cu,
  (c_epath cu = [] \/ exists cp, c_epath cu = SLASHC :: cp) ->
  p_hostname pu <> [] -> p_hostname pu <> [DOTC] -> p_hostname pu <> [DOTC; DOTC] ->
  Forall (fun s => is_dotdot s = false) (split_on SLASHC (p_epath pu)) ->
  lead_slash (path_join (path_components pu cu (bs "c"%string))) =
  abs_path (clean_segs true (split_on SLASHC (c_epath cu)) [] ++ middle pu ++ filter keep (split_on SLASHC (p_epath pu))).
Proof. exact cache_path_general. Qed.

Example C11_cache_path_all_paths_ex :
  let pu := {| p_scheme := S_HTTPS; p_user := false; p_hostname := bs "b.example"; p_port := [];
               p_epath := bs "/x//./y/"; p_rawquery := []; p_fragment := [] |} in
  let cu := {| c_scheme := S_HTTPS; c_user := None; c_hostname := bs "cdn.ampproject.org"; c_port := [];
               c_epath := bs "/p/../q//"; c_rawquery := []; c_fragment := [] |} in
  Forall (fun s => is_dotdot s = false) (split_on SLASHC (p_epath pu)) /\
  path_join (path_components pu cu (bs "c")) = bs "/q/c/s/b.example/x/y".
Proof. cbv zeta. split; [repeat (apply Forall_cons; [reflexivity|]); apply Forall_nil|vm_compute; reflexivity]. Qed.

(* the inputs that DO lose a path component: a publisher path with a ".." segment given to the exported CacheURL eats the
   host in front of it (the rendezvous code never does that: C11_resolve_dotfree) *)
Theorem C11_cache_url_dotdot_loses_host :
  exists pu cu, p_hostname pu = bs "h.example" /\ p_epath pu = bs "/../x" /\
    option_map r_rawpath (cache_url (fun x => Some x) (fun x => Some x) (fun _ => []) h34_runes pu cu (bs "c")) = Some (bs "/c/s/x").
Proof.
  exists {| p_scheme := S_HTTPS; p_user := false; p_hostname := bs "h.example"; p_port := [];
            p_epath := bs "/../x"; p_rawquery := []; p_fragment := [] |},
         {| c_scheme := S_HTTPS; c_user := None; c_hostname := bs "cdn.ampproject.org"; c_port := [];
            c_epath := bs "/"; c_rawquery := []; c_fragment := [] |}.
  split; [reflexivity|split; [reflexivity|exact cache_url_dotdot_loses_host]].
Qed.

(* through an AMP cache, for EVERY broker path and every empty or rooted cache path: the request path is the cleaned cache
   path, c[/s]/<broker host>, the non-empty segments of the (dot-free) resolved broker path - and it ends in the broker's
   AMP route followed by the encoded poll, which decodes to the poll *)
Theorem C11_amp_cache_end_to_end_all_paths :
  forall (to_unicode to_ascii : bytes -> option bytes) (sha256 : bytes -> bytes) (h34 : bytes -> bool)
         b cu front cb data q,
  wf_bytes data -> data <> [] ->
  (c_epath cu = [] \/ exists cp, c_epath cu = SLASHC :: cp) ->
  b_hostname b <> [DOTC] -> b_hostname b <> [DOTC; DOTC] ->
  amp_request to_unicode to_ascii sha256 h34 b (Some cu) front cb data = Some q ->
  q_path q = abs_path (clean_segs true (split_on SLASHC (c_epath cu)) [] ++ middle (amp_pub_url b cb data) ++
                       filter nonempty (split_on SLASHC (p_epath (amp_pub_url b cb data)))) /\
  Forall nodot (split_on SLASHC (p_epath (amp_pub_url b cb data))) /\
  (exists pre, q_path q = pre ++ AMP_ROUTE ++ encode_path cb data) /\
  decode_path (encode_path cb data) = POk data.
Proof. exact amp_cache_end_to_end_general. Qed.

Example C11_amp_cache_end_to_end_all_paths_ex :
  let b := {| b_scheme := S_HTTPS; b_user := false; b_host := bs "broker.example"; b_hostname := bs "broker.example";
              b_port := []; b_epath := bs "/x/../y//z" |} in
  let cu := {| c_scheme := S_HTTPS; c_user := None; c_hostname := bs "cdn.ampproject.org"; c_port := [];
               c_epath := bs "/p/./q"; c_rawquery := []; c_fragment := [] |} in
  wf_bytes (bs "ABC") /\ (exists cp, c_epath cu = SLASHC :: cp) /\
  option_map q_path (amp_request (fun x => Some x) (fun x => Some x) (fun _ => []) h34_runes b (Some cu) [] (repeat 255 9) (bs "ABC")) =
    Some (bs "/p/q/c/s/broker.example/y/amp/client/0____________/QUJD").
Proof. cbv zeta. split; [repeat constructor|split; [eexists; reflexivity|vm_compute; reflexivity]]. Qed.

(* the one poll that does not survive a cache: the empty one (its last, empty, path segment is removed by path.Join) *)
Theorem C11_amp_cache_empty_poll :
  forall (to_unicode to_ascii : bytes -> option bytes) (sha256 : bytes -> bytes) (h34 : bytes -> bool)
         b cu front cb q,
  (c_epath cu = [] \/ exists cp, c_epath cu = SLASHC :: cp) ->
  b_hostname b <> [DOTC] -> b_hostname b <> [DOTC; DOTC] ->
  amp_request to_unicode to_ascii sha256 h34 b (Some cu) front cb [] = Some q ->
  (exists pre, q_path q = pre ++ AMP_ROUTE ++ enc_seg1 cb) /\ decode_path (enc_seg1 cb) = PErr MissingData /\
  decode_path (encode_path cb []) = POk [].
Proof. exact amp_cache_empty_poll. Qed.

(* ---------------- client: bounded responses ---------------- *)

(* an exchange yields data only for status 200 and a body within the limit, and then the
   whole body — never a truncation *)
Theorem C11_limit : forall limit status body d,
  http_response limit status body = Some d ->
  status = 200 /\ d = body /\ N.of_nat (length body) <= limit.
Proof.
  intros limit status body d. unfold http_response. destruct (N.eqb_spec status 200); [|discriminate].
  intros H. apply limited_read_ok in H. tauto.
Qed.

Theorem C11_limit_complete : forall limit body,
  N.of_nat (length body) <= limit -> http_response limit 200 body = Some body.
Proof. intros. apply limited_read_complete. assumption. Qed.

Theorem C11_limit_over : forall limit body,
  limit < N.of_nat (length body) -> limited_read limit body = None.
Proof. intros limit body H. rewrite limited_read_eq. apply N.leb_gt in H. rewrite H. reflexivity. Qed.

Theorem C11_non200 : forall limit status body, status <> 200 -> http_response limit status body = None.
Proof. intros limit status body H. unfold http_response. apply N.eqb_neq in H. rewrite H. reflexivity. Qed.

Theorem C11_limit_amp :
  forall (armor_decode : bytes -> option bytes) limit status loc body d,
  amp_response armor_decode limit status loc body = Some d ->
  status = 200 /\ loc = false /\ armor_decode body = Some d /\ N.of_nat (length body) <= limit.
Proof. exact amp_response_ok. Qed.

Theorem C11_non200_amp :
  forall (armor_decode : bytes -> option bytes) limit status loc body,
  status <> 200 -> amp_response armor_decode limit status loc body = None.
Proof. exact amp_response_non200. Qed.

Example C11_limit_ex :
  http_response 3 200 [1; 2; 3] = Some [1; 2; 3] /\ http_response 3 200 [1; 2; 3; 4] = None /\
  http_response 3 404 [1] = None /\
  amp_response (fun x => Some x) 3 200 false [1; 2; 3] = Some [1; 2; 3] /\
  amp_response (fun x => Some x) 3 200 false [1; 2; 3; 4] = None /\
  amp_response (fun x => Some x) 3 200 true [1] = None.
Proof. vm_compute. repeat split. Qed.

(* ---------------- one rendezvous object over all its polls ---------------- *)
(* The client keeps ONE httpRendezvous / ampCacheRendezvous and calls Exchange on it once per snowflake
   (Model/Rendezvous.v rdv_step/rdv_run: the state is the object's configuration, which no Exchange writes).
   The correspondence check drives one object through histories of Exchanges with different polls and with transport
   errors, non-200 answers, Location headers and oversize bodies in between (op seq). *)

(* INVARIANT: no Exchange writes the configuration the constructor left (broker URL, cache URL, front). *)
Theorem C11_rendezvous_config_invariant :
  forall (to_unicode to_ascii : bytes -> option bytes) (sha256 : bytes -> bytes) (h34 : bytes -> bool)
         (armor_decode : bytes -> option bytes) s ev,
  rs_conf (fst (rdv_step to_unicode to_ascii sha256 h34 armor_decode s ev)) = rs_conf s.
Proof. exact rdv_step_conf. Qed.

(* Hence the request (and the result) of the Exchange at ANY position of ANY history, from any state of the object,
   is the function [rdv_request] ([rdv_result]) of the configuration and of that Exchange's poll alone ... *)
Theorem C11_request_history_independent :
  forall (to_unicode to_ascii : bytes -> option bytes) (sha256 : bytes -> bytes) (h34 : bytes -> bool)
         (armor_decode : bytes -> option bytes) s pre ev post,
  nth_error (snd (rdv_run to_unicode to_ascii sha256 h34 armor_decode s (pre ++ ev :: post))) (length pre)
  = Some (rdv_request to_unicode to_ascii sha256 h34 (rs_conf s) (ev_poll ev) (ev_cb ev),
          rdv_result to_unicode to_ascii sha256 h34 armor_decode (rs_conf s) ev).
Proof. exact rdv_run_at. Qed.

(* ... i.e. what a NEW object with the same configuration does on its first Exchange. *)
Theorem C11_every_request_is_a_first_request :
  forall (to_unicode to_ascii : bytes -> option bytes) (sha256 : bytes -> bytes) (h34 : bytes -> bool)
         (armor_decode : bytes -> option bytes) c pre ev post,
  nth_error (snd (rdv_run to_unicode to_ascii sha256 h34 armor_decode (rdv_init c) (pre ++ ev :: post))) (length pre)
  = nth_error (snd (rdv_run to_unicode to_ascii sha256 h34 armor_decode (rdv_init c) [ev])) 0.
Proof. exact rdv_run_at_is_first. Qed.

Theorem C11_rendezvous_state_irrelevant :
  forall (to_unicode to_ascii : bytes -> option bytes) (sha256 : bytes -> bytes) (h34 : bytes -> bool)
         (armor_decode : bytes -> option bytes) s1 s2 evs,
  rs_conf s1 = rs_conf s2 ->
  snd (rdv_run to_unicode to_ascii sha256 h34 armor_decode s1 evs) = snd (rdv_run to_unicode to_ascii sha256 h34 armor_decode s2 evs).
Proof. exact rdv_run_state_irrelevant. Qed.

(* Fronting for EVERY request a fronted object ever makes, after any history (errors included): it connects to the
   front; the broker is named in the Host header only (HTTP, AMP without cache), resp. the Host header is the AMP cache
   subdomain computed for that very poll. *)
Theorem C11_fronting_every_poll :
  forall (to_unicode to_ascii : bytes -> option bytes) (sha256 : bytes -> bytes) (h34 : bytes -> bool)
         (armor_decode : bytes -> option bytes) c pre ev post q r,
  rc_front c <> [] ->
  nth_error (snd (rdv_run to_unicode to_ascii sha256 h34 armor_decode (rdv_init c) (pre ++ ev :: post))) (length pre) = Some (Some q, r) ->
  q_connect_host q = rc_front c /\
  match rc_method c with
  | MHttp => q_host_header q = b_host (rc_broker c) /\ q_method q = bs "POST"%string /\ q_body q = Some (ev_poll ev)
  | MAmp None => q_host_header q = b_host (rc_broker c) /\ q_method q = bs "GET"%string /\ q_body q = None
  | MAmp (Some cu) =>
      q_method q = bs "GET"%string /\ q_body q = None /\
      exists u, cache_url to_unicode to_ascii sha256 h34 (amp_pub_url (rc_broker c) (ev_cb ev) (ev_poll ev)) cu (bs "c"%string) = Some u /\
                q_host_header q = r_host u
  end.
Proof. exact rdv_fronted_every_request. Qed.

(* Without a front (and without an AMP cache) every request goes to, and names, the broker. *)
Theorem C11_unfronted_every_poll :
  forall (to_unicode to_ascii : bytes -> option bytes) (sha256 : bytes -> bytes) (h34 : bytes -> bool)
         (armor_decode : bytes -> option bytes) c pre ev post q r,
  rc_front c = [] -> (rc_method c = MHttp \/ rc_method c = MAmp None) ->
  nth_error (snd (rdv_run to_unicode to_ascii sha256 h34 armor_decode (rdv_init c) (pre ++ ev :: post))) (length pre) = Some (Some q, r) ->
  q_connect_host q = b_host (rc_broker c) /\ q_host_header q = b_host (rc_broker c).
Proof. exact rdv_unfronted_every_request. Qed.

(* non-vacuity: a fronted HTTP object over [ok; transport error; 404; oversize; ok] — five requests of the same shape,
   the errors are those of their own Exchange only *)
Example C11_request_history_ex :
  let b := {| b_scheme := S_HTTPS; b_user := false; b_host := bs "broker.example"; b_hostname := bs "broker.example";
              b_port := []; b_epath := bs "/" |} in
  let c := mk_rdv_config b MHttp (bs "front.example") in
  let rq := fun p => Some {| q_method := bs "POST"; q_scheme := S_HTTPS; q_connect_host := bs "front.example";
                             q_host_header := bs "broker.example"; q_path := bs "/client"; q_rawquery := []; q_body := Some p |} in
  rc_front c <> [] /\
  snd (rdv_run (fun x => Some x) (fun x => Some x) (fun _ => []) h34_runes (fun x => Some x) (rdv_init c)
         [mk_rdv_event (bs "p1") [] (TxResponse 200 false (bs "r1")); mk_rdv_event (bs "p2") [] TxError;
          mk_rdv_event (bs "p3") [] (TxResponse 404 false (bs "r3"));
          mk_rdv_event (bs "p4") [] (TxResponse 200 false (repeat 120 (N.to_nat 100001)));
          mk_rdv_event (bs "p5") [] (TxResponse 200 false (bs "r5"))])
  = [(rq (bs "p1"), Some (bs "r1")); (rq (bs "p2"), None); (rq (bs "p3"), None); (rq (bs "p4"), None); (rq (bs "p5"), Some (bs "r5"))].
Proof. cbv zeta. split; [discriminate|vm_compute; reflexivity]. Qed.
