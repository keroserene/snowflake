(* C09 — Packet framing round-trips under any read fragmentation.
   Statements, each with its last step from the lemmas of Proofs/Encap*.v; examples by evaluation.
   Models: coq/Model/Encap.v (common/encapsulation/encapsulation.go after the fix: commit
   "fix: read encapsulation length prefix bytes with io.ReadFull"), EncapPad.v (WritePadding over any padding
   buffer), EncapServer.v (the token and ClientID that server/lib/http.go reads before ReadData), EncapFail.v
   (ReadData over a reader that fails). *)
From Coq Require Import List NArith Arith Lia.
From Snow Require Import Lib.Wire Model.Encap Model.EncapFail Model.EncapPad Model.EncapServer Proofs.EncapSweep Proofs.EncapProofs Proofs.EncapFailProofs Proofs.EncapPadProofs Proofs.EncapServerProofs.
Import ListNotations.
Open Scope N_scope.

(* Any sequence of data chunks (< 2^20 bytes each) and paddings is read back as exactly the
   data chunks, in order, padding invisible, for EVERY reader script (short reads,
   zero-length reads, data returned together with EOF). *)
Theorem C09_roundtrip_any_reader : forall items s sc,
  items_ok items -> encode_items items = Some s -> read_stream s sc = (datas items, EOF).
Proof. exact roundtrip_any_reader. Qed.

(* The writer accepts exactly the item lists whose data chunks are below 2^20 bytes. *)
Theorem C09_encode_total : forall items, items_ok items -> exists s, encode_items items = Some s.
Proof. intros items Hok. destruct (encode_items_chunks items Hok) as [cs [He _]]. eexists; exact He. Qed.
Theorem C09_encode_rejects_long : forall items, encode_items items <> None -> items_ok items.
Proof. exact encode_rejects_long. Qed.

(* The reader's fragmentation never matters: for every byte string (not only encoder output)
   and every script the result is that of the script-free parser. *)
Theorem C09_script_independent : forall s sc, read_stream s sc = decode_stream s.
Proof. exact read_stream_independent. Qed.

(* Every byte string is whole chunks followed by a tail; the data chunks returned are exactly
   those of the whole chunks; the error is EOF only at a chunk boundary, UnexpectedEOF when the
   tail ends inside a prefix or body, TooLong when a third prefix byte has its continuation bit. *)
Theorem C09_classify : forall s,
  exists cs tail, Forall chunk_wf cs /\ s = chunks_bytes cs ++ tail /\
    fst (decode_stream s) = chunks_datas cs /\
    match snd (decode_stream s) with
    | EOF => tail = []
    | UnexpectedEOF => parse_one tail = PShort
    | TooLong => parse_one tail = PLong
    end.
Proof.
  intros s. destruct (decompose (S (length s)) s ltac:(lia)) as [cs [tail [e [Hwf [Hs He]]]]].
  exists cs, tail. split; [exact Hwf|]. split; [exact Hs|].
  rewrite Hs, (decode_decomposed cs tail e Hwf He). cbn [fst snd]. split; [reflexivity|].
  destruct (parse_one tail) eqn:Ep; cbn [tail_err] in He; try discriminate; injection He as <-; try reflexivity.
  apply parse_one_end, Ep.
Qed.

Theorem C09_classify_converse : forall cs tail e,
  Forall chunk_wf cs -> tail_err (parse_one tail) = Some e ->
  decode_stream (chunks_bytes cs ++ tail) = (chunks_datas cs, e).
Proof. exact decode_decomposed. Qed.

Theorem C09_toolong_shape : forall t, parse_one t = PLong <->
  exists b0 b1 b2 r, t = b0 :: b1 :: b2 :: r /\
    N.land b0 64 <> 0 /\ N.land b1 128 <> 0 /\ N.land b2 128 <> 0.
Proof. exact parse_one_long_iff. Qed.

(* Every complete 1..3-byte prefix (minimal or not) announces the value of its payload bits,
   which is below 2^20: the buffer allocated for a body (N.to_nat n in read_data) never
   exceeds the announcement, and the announcement never exceeds 2^20 - 1. *)
Theorem C09_nonminimal_and_bound : forall p isd v, hdr_exact p = Some (isd, v) ->
  v < 1048576 /\
  match p with
  | [b0] => v = N.land b0 63
  | [b0; b1] => v = N.land b0 63 * 128 + N.land b1 127
  | [b0; b1; b2] => v = (N.land b0 63 * 128 + N.land b1 127) * 128 + N.land b2 127
  | _ => False
  end.
Proof. exact hdr_exact_value. Qed.

Theorem C09_any_prefix_spelling_decodes : forall c rest, chunk_wf c ->
  parse_one (chunk_bytes c ++ rest) = PChunk (c_isdata c) (c_body c) rest.
Proof. exact parse_one_chunk. Qed.

Example C09_nonminimal_example :
  hdr_exact [132] = Some (true, 4) /\ hdr_exact [192; 4] = Some (true, 4) /\ hdr_exact [192; 128; 4] = Some (true, 4).
Proof. repeat split. Qed.

(* A stream cut at ANY byte offset yields a prefix of the data chunks (those wholly contained)
   and stops with EOF or UnexpectedEOF: no partial, merged or invented chunk. *)
Theorem C09_truncation_prefix : forall cs k, Forall chunk_wf cs ->
  exists j e, decode_stream (firstn k (chunks_bytes cs)) = (firstn j (chunks_datas cs), e) /\
              (e = EOF \/ e = UnexpectedEOF).
Proof. exact truncation_prefix. Qed.

(* Padding of size n occupies exactly n bytes and is invisible to every reader. *)
Theorem C09_padding_exact : forall n, length (write_padding n) = N.to_nat n.
Proof. intros n. rewrite write_padding_is_buf. apply padding_buf_exact; rewrite blen_zeros; discriminate. Qed.
Theorem C09_padding_invisible : forall n sc, read_stream (write_padding n) sc = ([], EOF).
Proof.
  intros n sc. rewrite write_padding_is_buf. apply padding_buf_invisible_alone; rewrite blen_zeros; discriminate.
Qed.

(* The same for WritePadding over ANY padding buffer (Model/EncapPad.v: the package variable paddingBuffer as a
   parameter - its length is the batch size of the loop, its bytes are the fill): as long as a batch is at most 8194
   bytes, padding of size n occupies exactly n bytes and is invisible anywhere in a stream, to every reader, whatever
   the fill bytes and however far n exceeds the batch size.  [write_padding] is the instance (1024, zeros). *)
Theorem C09_padding_any_buffer_exact : forall buf n, 1 <= blen buf -> blen buf <= PADBATCH_MAX ->
  length (write_padding_buf buf n) = N.to_nat n.
Proof. exact padding_buf_exact. Qed.
Theorem C09_padding_any_buffer_invisible : forall buf n rest sc, 1 <= blen buf -> blen buf <= PADBATCH_MAX ->
  read_stream (write_padding_buf buf n ++ rest) sc = read_stream rest sc.
Proof. exact padding_buf_invisible. Qed.
Theorem C09_padding_model_is_instance : forall n, write_padding n = write_padding_buf (zeros PADBUF) n.
Proof. exact write_padding_is_buf. Qed.
Example C09_padding_any_buffer_example :
  let buf := loud_fill 1024 in
  1 <= blen buf /\ blen buf <= PADBATCH_MAX /\
  read_stream ([129; 7] ++ write_padding_buf buf 100000 ++ [129; 9]) [(3%nat, false); (0%nat, false)] = ([[7]; [9]], EOF).
Proof. cbv zeta. split; [vm_compute; discriminate|]. split; [vm_compute; discriminate|]. vm_compute. reflexivity. Qed.

(* WritePadding's switch has a third case (three-byte prefix) whose middle byte is masked with 0x3f, not 0x7f.  With the
   pinned batch size (1024), indeed with any batch up to 8193 bytes, no turn of the loop reaches it: every padding
   chunk has a one- or two-byte prefix. *)
Theorem C09_padding_three_byte_case_unreachable : forall p, 1 <= p -> p <= PADBUF ->
  (1 <= length (fst (pad_prefix p)) <= 2)%nat.
Proof. intros p H1 H2. unfold PADBUF in H2. apply pad_prefix_short; lia. Qed.
Theorem C09_padding_three_byte_case_unreachable_below_8194 : forall p, 1 <= p -> p <= 8193 ->
  (1 <= length (fst (pad_prefix p)) <= 2)%nat.
Proof. exact pad_prefix_short. Qed.
(* The bound 8194 is sharp: with a 16384-byte buffer one WritePadding(8195) still writes exactly 8195 bytes, but its
   prefix announces 0 of the 8192 bytes that follow, and a reader finds 4096 data chunks in a loud fill and loses
   the chunk after the padding; an all-zero fill hides the slip (left-over zeros are empty padding chunks). *)
Theorem C09_padding_large_batch_refuted :
  let buf := loud_fill 16384 in
  blen buf = 16384 /\ length (write_padding_buf buf 8195) = N.to_nat 8195 /\
  N.of_nat (length (fst (read_stream (write_padding_buf buf 8195) []))) = 4096 /\
  read_stream ([129; 7] ++ write_padding_buf buf 8195 ++ [129; 9]) [] <> ([[7]; [9]], EOF).
Proof.
  cbv zeta. split; [vm_compute; reflexivity|]. split; [vm_compute; reflexivity|]. split; [vm_compute; reflexivity|].
  vm_compute. discriminate.
Qed.
Example C09_padding_large_batch_zero_fill : read_stream (write_padding_buf (zeros 16384) 8195) [] = ([], EOF).
Proof. vm_compute. reflexivity. Qed.

(* A chunk sized by the size-budget helper never exceeds its budget. *)
Theorem C09_budget : forall n d, 0 < n -> blen d = max_data_for_size n ->
  exists w, write_data d = Some w /\ N.of_nat (length w) <= n.
Proof. exact budget_respected. Qed.

(* The streams feeding ReadData on the server (server/lib/http.go, Model/EncapServer.v): the 8-byte token and the 8-byte
   ClientID are read by io.ReadFull from the SAME reader that ReadData then reads from, nothing buffers ahead in
   between, so the chunk stream starts exactly at offset 16 of the carrier's bytes for EVERY reader script - also when
   the read that completes the preamble already carries the first chunk bytes (coalesced messages). *)
Theorem C09_stream_after_preamble : forall tok cid s sc,
  length tok = TOKEN_LEN -> length cid = CLIENTID_LEN ->
  server_read (tok ++ cid ++ s) sc = SOk tok cid (fst (decode_stream s)) (snd (decode_stream s)).
Proof. exact stream_after_preamble. Qed.
Theorem C09_server_roundtrip : forall tok cid items s sc,
  length tok = TOKEN_LEN -> length cid = CLIENTID_LEN ->
  items_ok items -> encode_items items = Some s ->
  server_read (tok ++ cid ++ s) sc = SOk tok cid (datas items) EOF.
Proof.
  intros tok cid items s sc Ht Hc Hok He. rewrite stream_after_preamble by assumption.
  rewrite <- (read_stream_independent s []). rewrite (roundtrip_any_reader items s [] Hok He). reflexivity.
Qed.
Theorem C09_server_short_preamble : forall s sc, (length s < TOKEN_LEN + CLIENTID_LEN)%nat ->
  exists e, server_read s sc = SShort e.
Proof.
  intros s sc Hs. unfold server_read.
  destruct (Nat.ltb_spec (length s) TOKEN_LEN) as [Hlt|Hge].
  - rewrite read_full_short by exact Hlt. eexists. reflexivity.
  - destruct (read_full_spec sc TOKEN_LEN [] s Hge) as [sc1 H1]. rewrite H1.
    rewrite read_full_short; [eexists; reflexivity|]. rewrite skipn_length. lia.
Qed.
Example C09_server_roundtrip_example :
  let tok := [1; 2; 3; 4; 5; 6; 7; 8] in let cid := [9; 9; 9; 9; 9; 9; 9; 9] in
  length tok = TOKEN_LEN /\ length cid = CLIENTID_LEN /\ items_ok [Data [65; 66]; Pad 3; Data []] /\
  (* one read delivers the whole preamble together with the first chunk's prefix and one body byte *)
  server_read (tok ++ cid ++ [130; 65; 66; 2; 0; 0; 128]) [(18%nat, false); (0%nat, false); (1%nat, false)]
    = SOk tok cid [[65; 66]; []] EOF.
Proof. cbv zeta. repeat split. Qed.

(* A reader that FAILS (returns a non-EOF error, alone or with its last bytes, after delivering the bytes s
   under any fragmentation): the chunks returned before the failure are exactly the whole data chunks of s,
   and the call that meets the failure returns the reader's error (ErrTooLong keeps precedence when the
   delivered bytes already contain an over-long prefix).  Nothing is invented, lost or reordered. *)
Theorem C09_failing_reader : forall s sc,
  read_stream_x s sc = (fst (decode_stream s), xmap (snd (decode_stream s))).
Proof.
  intros s sc. unfold read_stream_x. rewrite read_all_x_rel.
  fold (read_stream s sc). rewrite read_stream_independent. reflexivity.
Qed.
Example C09_failing_reader_example :
  read_stream_x [129; 65; 130; 66] [(1%nat, false); (0%nat, false); (3%nat, true)] = ([[65]], XIo).
Proof. vm_compute. reflexivity. Qed.

(* The pinned code (one r.Read per prefix byte, count ignored) violated the round trip:
   regression witnesses, replayed on the Go code before the fix. *)
Theorem C09_v0_refuted_zero_read :
  let items := [Data (gen_bytes 200 1)] in
  let sc := [(1%nat, false); (0%nat, false); (1%nat, false)] in
  exists s, items_ok items /\ encode_items items = Some s /\ read_stream_v0 s sc <> (datas items, EOF).
Proof.
  intros items sc. eexists. split; [vm_compute; repeat split|]. split; [vm_compute; reflexivity|]. vm_compute. discriminate.
Qed.
Theorem C09_v0_refuted_eof_with_data :
  let items := [Data []] in
  let sc := [(1%nat, true)] in
  exists s, items_ok items /\ encode_items items = Some s /\ read_stream_v0 s sc <> (datas items, EOF).
Proof.
  intros items sc. eexists. split; [vm_compute; repeat split|]. split; [vm_compute; reflexivity|]. vm_compute. discriminate.
Qed.

(* non-vacuity: hypotheses are satisfiable by a non-trivial case *)
Example C09_items_ok_example : items_ok [Data [1; 2; 3]; Pad 5; Data []] /\
  exists s, encode_items [Data [1; 2; 3]; Pad 5; Data []] = Some s.
Proof. split; [vm_compute; repeat split | eexists; vm_compute; reflexivity]. Qed.
