(* C15 — Client bounds its peers, survives failed rendezvous, always shuts down.
   Models: coq/Model/Peers.v (interleaving machine; V0 = pinned code, V1 = code with
   proposed-fixes/C15-end-once.diff and C15-collect-send-select-melt.diff) and
   coq/Model/Connect.v (CV0 pinned, CV1 = with C15-nil-pc.diff); coq/Model/PeerLife.v (last part of this file) puts
   the life cycle of a WebRTCPeer - Close as two steps, peers quiet for longer than SnowflakeTimeout - on top of Peers.v.
   `reachable v max s`: s is reached from `init max` by ANY finite interleaving of Collect steps,
   any number of Pop and End callers, and peers closing on their own (unbounded).

   What is tied to the Go code and what is not (connect).  The oracle of Model/Connect.v has one boolean per library call
   that can fail.  o_newpc, o_negotiate, o_setremote, o_open are provoked in the Go code (coq/Run/ConnectRun.v: ICE
   configurations pion rejects, scripted broker answers, a proxy that vanishes).  o_createdc, o_offer, o_setlocal
   (pc.CreateDataChannel, pc.CreateOffer, pc.SetLocalDescription failing, with the pc.Close() branches of
   preparePeerConnection) are covered by C15_connect_total for all 128 outcome combinations but CANNOT be provoked in
   the unmodified code, for these reasons (pion/webrtc v3.1.41, pion/ice v2.2.6, read for this purpose):
     - NewWebRTCPeerWithEvents receives only (config, broker, listener); preparePeerConnection builds its own
       webrtc.SettingEngine (mDNS disabled, everything else default) and API, so the only thing a caller controls in
       pion is the webrtc.Configuration, in which the client only ever sets ICEServers (rendezvous.go
       NewWebRTCDialerWithEvents).  Everything pion checks about ICE servers (URL scheme, host, TURN credentials) is
       checked in api.NewPeerConnection (initConfiguration, NewICEGatherer): that is o_newpc.
     - CreateDataChannel fails only on a closed PeerConnection, on invalid parameters (MaxPacketLifeTime together with
       MaxRetransmits, a label or protocol longer than 65535 bytes: the code passes the fixed label "snowflake-<16 hex>"
       and Ordered only) or when no SCTP stream id is left on an established association (there is none yet).
     - CreateOffer fails only on a closed PeerConnection, with an identity provider (pc.idpLoginURL, never set by pion),
       when ice.NewAgent fails (port range, mDNS host name, ICE-lite, NAT 1:1 mapping, explicit ufrag/pwd: all taken
       from the SettingEngine, which the code leaves at its defaults; the ICE URLs were validated before), or after 128
       concurrent changes of the local media (there are no media).
     - SetLocalDescription fails only on a closed PeerConnection, in a signalling state other than stable (the
       PeerConnection is new), on a description that does not parse (it is the one CreateOffer has just produced), or
       when ICEGatherer.Gather fails (the agent exists already; gathering errors are logged, not returned).
     - Nobody but connect holds c.pc before connect returns: no event is emitted and no callback into caller code runs
       between api.NewPeerConnection and SetLocalDescription, so a driver cannot close the PeerConnection in between.
   The driver is an in-package test file (no change to /repo, no replacement of library files), so these three outcomes
   stay theorem-only; a change of preparePeerConnection that, say, forgot pc.Close() on those branches would not be seen
   by the correspondence. *)
From Coq Require Import List Arith Bool Lia.
From Snow Require Import Model.BrokerExchange Proofs.BrokerExchangeProofs.
From Snow Require Import Model.Peers Model.Connect Model.CloseConn Model.PeerLife Proofs.PeersProofs Proofs.PeersRetryProofs Proofs.ConnectProofs Proofs.CloseConnProofs Proofs.PeerLifeProofs.
Import ListNotations.

(* ---- bound.  "Held" = every peer that Catch has ever returned and that is not closed (they are all
   in activePeers or in the hands of the collector between Catch and PushBack).  Both the pinned and
   the repaired code, every maximum (0 included). Count() = length of the purged activePeers. *)
Theorem C15_bound : forall v max s, reachable v max s ->
  length (live_peers s) <= max /\ length (active s) <= max.
Proof. intros v max s R. split; [exact (live_peers_bound v max s R) | exact (active_bound v max s R)]. Qed.

(* ---- Pop only returns a peer by the step that has just seen it open, and that peer came out of the channel *)
Theorem C15_pop_live : forall v s l s' i p, step v s l = Some s' ->
  nth_error (pops s') i = Some (P_Ret (Some p)) -> nth_error (pops s) i <> Some (P_Ret (Some p)) ->
  l = Pop_check i /\ nth_error (pops s) i = Some (P_Got p) /\ closedf s p = false.
Proof.
  intros v s l s' i p H Hr Hn. pose proof (pop_ret_only_by_check v s l s' i p H Hr Hn) as ->.
  split; [reflexivity|]. exact (pop_returns_checked v s i s' p H Hr).
Qed.

(* ---- when any End call has returned: every peer ever caught is closed, melt and the channel are closed,
   no rendezvous is in flight (both code versions; in V0 only if the process has not panicked before) *)
Theorem C15_end_closes_all : forall v max s i, reachable v max s -> nth_error (ends s) i = Some E_Done ->
  (forall p, p < next_peer s -> closedf s p = true) /\ live_peers s = [] /\
  melted s = true /\ chan_closed s = true /\ col_hasconn (col s) = false.
Proof. intros v max s i R H. exact (end_done_facts v max s i R H). Qed.

(* ---- after End: Collect is refused before Catch; a Catch begins only while melt is open; Pop returns nil
   without blocking *)
Theorem C15_after_end_collect : forall v s s', melted s = true -> step v s Col_check = Some s' ->
  col s' = C_Unlock R_Melted.
Proof. intros v s s' Hm H. destruct (step_Step _ _ _ _ H) as [_ St]. inversion St; subst; [reflexivity | congruence ..]. Qed.

Theorem C15_after_end_no_catch : forall v s l s', step v s l = Some s' ->
  col s' = C_Catching -> col s <> C_Catching -> melted s = false.
Proof. intros v s l s' H Hc Hn. destruct (step_Step _ _ _ _ H) as [_ St]. destruct St; cbn in Hc; congruence. Qed.

Theorem C15_after_end_pop : forall v max s i j, reachable v max s -> nth_error (ends s) i = Some E_Done ->
  (forall s' p, step v s (Pop_check j) = Some s' -> nth_error (pops s') j <> Some (P_Ret (Some p))) /\
  (panicked s = false -> nth_error (pops s) j = Some P_Wait -> exists s', step v s (Pop_recv j) = Some s').
Proof.
  intros v max s i j R Hd. destruct (end_done_facts _ _ _ _ R Hd) as (Ha & _ & _ & Hc & _).
  destruct (reach_chanfresh _ _ _ R) as [_ Hg]. split.
  - intros s' p H Hr. destruct (pop_returns_checked _ _ _ _ _ H Hr) as [Hgot Hcl].
    rewrite (Ha p) in Hcl; [discriminate|]. exact (Hg _ _ Hgot).
  - intros Hp Hw. unfold step. rewrite Hp, Hw. destruct (chan s); [rewrite Hc|]; eauto.
Qed.

(* ---- the repaired code never panics (close of a closed channel, send on a closed channel) *)
Theorem C15_no_panic : forall max s, reachable V1 max s -> panicked s = false.
Proof. exact v1_no_panic. Qed.

(* ---- End terminates (repaired code).  From EVERY reachable state, for every End caller i that has not
   returned, and whichever way the in-flight Catch returns (oracle), there is a continuation of at most
   end_rank s i <= 15 steps, all of them steps of End callers or of the collector that is already inside
   Collect (no new Collect, no Pop, no peer closing needed), after which that End has returned.  Since this
   holds in every reachable state, no interleaving of the other threads can bring the system to a state
   where End can no longer return; the only wait is for the one Catch already in flight. *)
Theorem C15_end_terminates : forall max s i e (oracle : bool), reachable V1 max s ->
  nth_error (ends s) i = Some e ->
  end_rank s i <= 15 /\
  exists tr s', length tr <= end_rank s i /\ forallb helpful tr = true /\ Forall (oracle_ok oracle) tr /\
    run V1 s tr = Some s' /\ nth_error (ends s') i = Some E_Done.
Proof.
  intros max s i e oracle R H. split; [exact (end_rank_bound max s i R)|].
  exact (end_terminates (end_rank s i) max s i e oracle R H (le_n _)).
Qed.

(* each pending End has an enabled helpful step that strictly decreases its rank *)
Theorem C15_end_enabled : forall max s i e (oracle : bool), reachable V1 max s ->
  nth_error (ends s) i = Some e -> e <> E_Done ->
  exists l s', step V1 s l = Some s' /\ helpful l = true /\ oracle_ok oracle l /\
    end_rank s' i < end_rank s i /\ exists e', nth_error (ends s') i = Some e'.
Proof. exact end_progress. Qed.

(* ---- connect (repaired): never a panic; on error everything acquired is released; on success the peer is open *)
Theorem C15_connect_total : forall o,
  let '(r, c) := new_peer CV1 o in
  r <> Conn_Panic /\
  (r = Conn_Err -> all_released c = true /\ stale_checker c = false) /\
  (r = Conn_Ok -> pc c = Some false /\ dc c = Some false /\ peer_closed c = false /\ stale_checker c = true
                  /\ (o_newpc o && o_createdc o && o_offer o && o_setlocal o && o_negotiate o && o_setremote o && o_open o = true)).
Proof.
  intros o. pattern o. apply first_failure; intros; vm_compute; repeat split; intros; try discriminate; auto.
Qed.

(* ---- every event of an attempt can be rendered (both code versions, all 128 outcome combinations): a failure event
   always carries its error.  render_ok is what String() - called on every event by the listener of the client binary,
   on the goroutine that emits the event - needs in order not to panic. *)
Theorem C15_events_renderable : forall v o, forallb render_ok (events (snd (new_peer v o))) = true.
Proof. intros v o. pattern o. apply first_failure; intros; destruct v; reflexivity. Qed.

(* ---- a failed attempt is reported: through an event that carries the failure, except when it is SetRemoteDescription
   that refuses the answer (then only through the error returned to connectLoop, which logs it) *)
Theorem C15_failure_reported : forall o, fst (new_peer CV1 o) = Conn_Err ->
  existsb flagged (events (snd (new_peer CV1 o))) = true \/
  (o_newpc o && o_createdc o && o_offer o && o_setlocal o && o_negotiate o = true /\ o_setremote o = false).
Proof.
  intros o. pattern o. apply first_failure; vm_compute; intros; try discriminate; auto.
Qed.

(* ---- the broker is contacted at most once per attempt, and only after the offer was prepared *)
Theorem C15_connect_rendezvous_once : forall v o, rv_calls (snd (new_peer v o)) <= 1 /\
  (rv_calls (snd (new_peer v o)) = 1 -> o_newpc o && o_createdc o && o_offer o && o_setlocal o = true).
Proof.
  intros v o. pattern o. apply first_failure; intros; destruct v; vm_compute; split; intros; auto; discriminate.
Qed.

(* ==== "a failed attempt is ... retried later" (Proofs/PeersRetryProofs.v).  A failed attempt is the in-flight Catch
   returning an error (Catch_err; by C15_connect_total that is every way NewWebRTCPeerWithEvents can fail). *)

(* ---- the failure itself changes nothing but the collector's program counter: no peer, no list entry, no channel slot *)
Theorem C15_failure_consumes_nothing : forall v s s', step v s Catch_err = Some s' ->
  col s = C_Catching /\ s' = set_col s (C_Unlock R_Fail).
Proof. intros v s s' H. step_inv H. split; reflexivity. Qed.

(* ---- Collect then returns the error: two steps of the collector, always enabled, lead back to idle with the lock free *)
Theorem C15_failure_returns_idle : forall max s, reachable V1 max s -> col s = C_Unlock R_Fail ->
  exists s', run V1 s [Col_unlock; Col_return] = Some s' /\ s' = set_col (set_lock s None) C_Idle /\ lock s = Some T_Col.
Proof. intros max s R Hc. exact (failure_returns_idle V1 max s R (v1_no_panic max s R) Hc). Qed.

(* ---- from EVERY reachable state in which the connection has not been closed (melt open) and the collector is between two
   Collect calls - after any number of failed attempts, under any interleaving with the other threads - Collect gets the
   lock at once and starts a rendezvous attempt exactly when fewer than Max live peers are held: no failure latches *)
Theorem C15_retry_enabled : forall max s, reachable V1 max s -> melted s = false -> col s = C_Idle ->
  exists s1 s2, step V1 s Col_lock = Some s1 /\ step V1 s1 Col_check = Some s2 /\
    (length (filter (live s) (active s)) < max -> col s2 = C_Catching) /\
    (max <= length (filter (live s) (active s)) -> col s2 = C_Unlock R_AtCap).
Proof. intros max s R Hm Hc. exact (retry_enabled V1 max s R (v1_no_panic max s R) Hm Hc). Qed.

(* ---- and right after a failed attempt there always is room (the slot the attempt had reserved is free again): unless the
   connection is closed meanwhile, the collector's next four steps put a new rendezvous attempt in flight, with the same
   peers, the same channel contents, and the list merely purged of closed peers *)
Theorem C15_retry_after_failure : forall max s, reachable V1 max s -> melted s = false -> col s = C_Unlock R_Fail ->
  exists s', run V1 s [Col_unlock; Col_return; Col_lock; Col_check] = Some s' /\ col s' = C_Catching /\
             next_peer s' = next_peer s /\ chan s' = chan s /\ closedf s' = closedf s /\
             active s' = filter (live s) (active s).
Proof. intros max s R Hm Hc. exact (retry_after_failure V1 max s R (v1_no_panic max s R) Hm Hc). Qed.

(* ---- failures never consume capacity and are not counted anywhere: k+1 failed attempts in a row leave exactly the state
   a single Count() purge leaves, for every k, and the next attempt can start from it *)
Theorem C15_failures_leave_no_trace : forall v k s, can_attempt s ->
  run v s (times (S k) collect_fail) = Some (purged s) /\ can_attempt (purged s).
Proof.
  intros v k. induction k as [|k IH]; intros s Hs.
  - cbn [times]. rewrite app_nil_r. split; [apply one_failure; exact Hs | apply can_attempt_purged; exact Hs].
  - change (times (S (S k)) collect_fail) with (collect_fail ++ times (S k) collect_fail).
    rewrite (run_app _ _ _ _ _ (one_failure v s Hs)).
    destruct (IH (purged s) (can_attempt_purged s Hs)) as [E C]. rewrite purged_idem in E, C. split; assumption.
Qed.

Example C15_ex_failing_reachable : exists s, reachable V1 2 s /\ col s = C_Unlock R_Fail /\ melted s = false /\
  panicked s = false /\ length (live_peers s) = 1.
Proof. eexists. split; [apply (run_init_reachable _ _ trace_one_held_then_failing); vm_compute; reflexivity|]. repeat split; reflexivity. Qed.

Example C15_ex_retry_enabled_hyps : exists s, reachable V1 2 s /\ melted s = false /\ col s = C_Idle /\ length (live_peers s) = 1.
Proof.
  eexists. split; [apply (run_init_reachable _ _ (collect_ok ++ collect_fail)); vm_compute; reflexivity|]. repeat split; reflexivity.
Qed.

Example C15_ex_can_attempt : can_attempt (init 1) /\ exists s, run V1 (init 2) collect_ok = Some s /\ can_attempt s.
Proof.
  split; [unfold can_attempt; cbn; repeat split; lia|].
  eexists. split; [vm_compute; reflexivity|]. unfold can_attempt. cbn. repeat split; lia.
Qed.

Example C15_ex_failure_reported_hyp : fst (new_peer CV1 (mkO true true true true true true false)) = Conn_Err.
Proof. reflexivity. Qed.

(* ---- refutations on the pinned code (each witness was replayed on the Go code, see lib/checks/c15.py DIRECTED) *)
Theorem C15_v0_refuted_double_end : exists s, run V0 (init 1) trace_double_end = Some s /\ panicked s = true
  /\ nth_error (ends s) 0 = Some E_Done.
Proof. eexists. split; [vm_compute; reflexivity|]. split; reflexivity. Qed.

Theorem C15_v0_refuted_end_deadlock : exists s, run V0 (init 2) trace_deadlock = Some s /\ panicked s = false /\
  nth_error (ends s) 0 = Some E_Melted /\
  (forall l, helpful l = true -> step V0 s l = None) /\
  (forall tr s', forallb no_pop tr = true -> run V0 s tr = Some s' -> nth_error (ends s') 0 = Some E_Melted).
Proof. exact v0_deadlock. Qed.

(* pinned code: when NewPeerConnection fails, connect panics, and the pipe of the half-built peer is left open *)
Theorem C15_v0_refuted_nil_pc : forall o, o_newpc o = false ->
  fst (new_peer CV0 o) = Conn_Panic /\ all_released (snd (new_peer CV0 o)) = false.
Proof.
  intros [[] b c d e f g] H; [discriminate|]. split; reflexivity.
Qed.

(* ---- non-vacuity of the hypotheses *)
Example C15_ex_end_done_reachable : exists s, reachable V1 2 s /\ nth_error (ends s) 0 = Some E_Done /\ next_peer s = 2.
Proof.
  eexists. split; [apply (run_init_reachable _ _ (collect_ok ++ collect_ok ++
     [End_call; End_once 0; End_melt 0; End_lock 0; End_closechan 0; End_closepeers 0; End_unlock 0; End_finish 0])); vm_compute; reflexivity|]. split; reflexivity.
Qed.

Example C15_ex_end_pending_while_catching : exists s, reachable V1 2 s /\ nth_error (ends s) 0 = Some E_Melted /\
  col s = C_Catching /\ end_rank s 0 = 9.
Proof.
  eexists. split; [apply (run_init_reachable _ _ [Col_lock; Col_check; End_call; End_once 0; End_melt 0]); vm_compute; reflexivity|]. repeat split; reflexivity.
Qed.

Example C15_ex_bound_tight : exists s, reachable V0 2 s /\ length (live_peers s) = 2.
Proof.
  eexists. split; [apply (run_init_reachable _ _ (collect_ok ++ collect_ok)); vm_compute; reflexivity|]. reflexivity.
Qed.

Example C15_ex_pop_returns : exists s s', step V1 s (Pop_check 0) = Some s' /\ nth_error (pops s') 0 = Some (P_Ret (Some 0))
  /\ nth_error (pops s) 0 <> Some (P_Ret (Some 0)).
Proof.
  destruct (run V1 (init 1) (collect_ok ++ [Pop_call; Pop_recv 0])) as [s|] eqn:E; [|vm_compute in E; discriminate].
  exists s. vm_compute in E. inversion E; subst. eexists. split; [reflexivity|]. split; [reflexivity|discriminate].
Qed.

Example C15_ex_melted_collect : exists s s', melted s = true /\ step V1 s Col_check = Some s'.
Proof.
  destruct (run V1 (init 1) [End_call; End_once 0; End_melt 0; End_lock 0; End_closechan 0; End_closepeers 0; End_unlock 0; Col_lock])
    as [s|] eqn:E; [|vm_compute in E; discriminate].
  exists s. vm_compute in E. inversion E; subst. eexists. split; reflexivity.
Qed.

Example C15_ex_nil_pc : o_newpc (mkO false true true true true true true) = false.
Proof. reflexivity. Qed.

(* ==== SnowflakeConn.Close (coq/Model/CloseConn.v: Stream.Close, result ignored; then End, unconditionally; then
   pconn.Close and sess.Close) composed with the Peers machine.  `creachable K_pinned v max c`: c is reached by ANY
   interleaving of Peers steps (connect loop, data path, other End callers, peers closing), the session dying on its
   own, the stream being closed directly, and any number of Close calls. *)

(* ---- once a Close call is past its End (in particular once it has returned): every peer ever caught is closed,
   the collection has ended, no rendezvous attempt is in flight - whether or not the session was dead, the stream
   closed before, or other Close calls overlap *)
Theorem C15_close_closes_all : forall v max c k pc, creachable K_pinned v max c ->
  nth_error (closers c) k = Some pc -> returned pc = true ->
  (forall p, p < next_peer (ps c) -> closedf (ps c) p = true) /\ live_peers (ps c) = [] /\
  melted (ps c) = true /\ chan_closed (ps c) = true /\ col_hasconn (col (ps c)) = false.
Proof.
  intros v max c k pc R Hk Hr.
  exact (close_after_end_facts _ _ _ _ _ _ R Hk (close_returned_ended _ _ _ _ _ R Hk Hr)).
Qed.

(* ---- and that stays so for ever: whatever happens after Close has returned (the connect loop calling Collect again,
   further Close calls, ...), no rendezvous attempt is in flight and no peer is held in any later state *)
Theorem C15_close_stops_rendezvous : forall v max c k pc tr c', creachable K_pinned v max c ->
  nth_error (closers c) k = Some pc -> returned pc = true -> crun K_pinned v c tr = Some c' ->
  col (ps c') <> C_Catching /\ live_peers (ps c') = [] /\ melted (ps c') = true.
Proof.
  intros v max c k pc tr c' R Hk Hr Hrun.
  exact (close_stops_rendezvous _ _ _ _ _ _ _ _ R Hk (close_returned_ended _ _ _ _ _ R Hk Hr) Hrun).
Qed.

(* ---- Close returns (repaired Peers code): from EVERY reachable state, every Close call that has not returned completes
   within 20 steps, all of them its own, steps of End callers, or steps of the collector already inside Collect
   (whichever way the in-flight Catch returns: oracle).  Stream.Close, pconn.Close, sess.Close are assumed to return. *)
Theorem C15_close_terminates : forall max c k pc (oracle : bool), creachable K_pinned V1 max c ->
  nth_error (closers c) k = Some pc ->
  exists tr c', length tr <= 20 /\ Forall (close_helpful k oracle) tr /\
    crun K_pinned V1 c tr = Some c' /\ nth_error (closers c') k = Some (K_Done true).
Proof. exact close_terminates. Qed.

(* ---- "retried later" over the whole connection: whatever has happened to the connection short of closing it (the session
   dead, the stream or the packet conn closed, any number of failed attempts before), while the collection has not been
   ended the connect loop's next Collect gets the lock and starts a rendezvous attempt whenever fewer than Max peers are held *)
Theorem C15_conn_retry_enabled : forall max c, creachable K_pinned V1 max c ->
  melted (ps c) = false -> col (ps c) = C_Idle ->
  exists c1 c2, cstep K_pinned V1 c (L_P Col_lock) = Some c1 /\ cstep K_pinned V1 c1 (L_P Col_check) = Some c2 /\
    sess_dead c2 = sess_dead c /\ closers c2 = closers c /\
    (length (filter (live (ps c)) (active (ps c))) < max -> col (ps c2) = C_Catching).
Proof.
  intros max c R Hm Hc. pose proof (creach_proj _ _ _ _ R) as Rp.
  destruct (retry_enabled V1 max (ps c) Rp (v1_no_panic max _ Rp) Hm Hc) as (s1 & s2 & S1 & S2 & Hlt & _).
  cbn [cstep]. rewrite S1. eexists. eexists. split; [reflexivity|]. cbn [cstep ps]. rewrite S2.
  split; [reflexivity|]. cbn. auto.
Qed.

Example C15_ex_conn_retry_hyps : exists c, creachable K_pinned V1 2 c /\ melted (ps c) = false /\ col (ps c) = C_Idle /\
  sess_dead c = true /\ length (live_peers (ps c)) = 1.
Proof.
  destruct (crun K_pinned V1 (kinit 2) (map L_P (collect_ok ++ collect_fail) ++ [L_SessDies])) as [c|] eqn:E; [|vm_compute in E; discriminate].
  exists c. split; [eapply crun_reachable; [apply creach_init|exact E]|].
  vm_compute in E. inversion E; subst. repeat split.
Qed.

(* ---- the theorems above depend on End being called unconditionally: a Close that returns when Stream.Close reports
   an error leaves the collection running with a rendezvous in flight *)
Theorem C15_close_early_return_refuted : exists c, crun K_early V1 (kinit 1) trace_early = Some c /\
  nth_error (closers c) 0 = Some (K_Done false) /\ melted (ps c) = false /\ col (ps c) = C_Catching.
Proof. eexists. split; [vm_compute; reflexivity|]. repeat split. Qed.

Example C15_ex_close_dead_session : exists c, crun K_pinned V1 (kinit 2) trace_dead_then_close = Some c /\
  creachable K_pinned V1 2 c /\ sess_dead c = true /\ col (ps c) = C_Catching /\
  nth_error (closers c) 1 = Some K_Stream /\ live_peers (ps c) = [0].
Proof.
  destruct (crun K_pinned V1 (kinit 2) trace_dead_then_close) as [c|] eqn:E; [|vm_compute in E; discriminate].
  exists c. split; [reflexivity|]. split; [eapply crun_reachable; [apply creach_init|exact E]|].
  vm_compute in E. inversion E; subst. repeat split.
Qed.

Example C15_ex_close_returned : exists c, creachable K_pinned V1 2 c /\ nth_error (closers c) 0 = Some (K_Done true) /\
  sess_dead c = true /\ next_peer (ps c) = 1.
Proof.
  destruct (crun K_pinned V1 (kinit 2) (map L_P collect_ok ++ [L_SessDies; L_Close; L_Stream 0; L_CallEnd 0] ++
     map L_P [End_once 0; End_melt 0; End_lock 0; End_closechan 0; End_closepeers 0; End_unlock 0; End_finish 0] ++
     [L_EndRet 0; L_Pconn 0; L_Sess 0])) as [c|] eqn:E; [|vm_compute in E; discriminate].
  exists c. split; [eapply crun_reachable; [apply creach_init|exact E]|].
  vm_compute in E. inversion E; subst. repeat split.
Qed.

(* ==== the life cycle of a peer (coq/Model/PeerLife.v): WebRTCPeer.Close is TWO steps - LL_CloseBegin p (Close enters
   once.Do; the code closes the `closed` channel first, so Closed() answers true from here on) and LL_CloseEnd p (cleanup()
   has torn down the pipe, the DataChannel and the PeerConnection) - and a peer may have been quiet for longer than
   SnowflakeTimeout (LL_Quiet / LL_Recv) without anybody having closed it.  `lreachable v FlagFirst max s`: s is reached
   by ANY interleaving of the Peers machine's steps with Close calls beginning and ending and peers going quiet and
   receiving again.  begun s p = somebody has begun to close p; untouched s p = negb (begun s p). *)

(* ---- "never hands a peer that is already closed to the data path", at the granularity of Close: whenever a Pop call
   comes to return a peer - by whatever step of whatever thread - nobody had BEGUN to close that peer (so nothing of it was
   torn down), and the step is that popper's own test of Closed() *)
Theorem C15_pop_never_closing : forall v max s l s' i p, lreachable v FlagFirst max s -> lstep v FlagFirst s l = Some s' ->
  nth_error (pops (lp s')) i = Some (P_Ret (Some p)) -> nth_error (pops (lp s)) i <> Some (P_Ret (Some p)) ->
  l = LL_P (Pop_check i) /\ begun s p = false /\ torn s p = false /\ begun s' p = false.
Proof. exact pop_hands_out_untouched. Qed.

(* ---- this depends on the order inside Close: with cleanup() before close(c.closed) (FlagLast) Pop hands the data path a
   spare whose teardown is in progress *)
Theorem C15_close_flag_last_refuted : exists s, lrun V1 FlagLast (linit 2) trace_flag_last = Some s /\
  nth_error (pops (lp s)) 0 = Some (P_Ret (Some 0)) /\ begun s 0 = true /\ torn s 0 = false.
Proof. eexists. split; [vm_compute; reflexivity|]. vm_compute. repeat split. Qed.

Example C15_ex_pop_skips_closing : exists s, lrun V1 FlagFirst (linit 2) (trace_flag_last ++ [LL_P (Pop_recv 0); LL_P (Pop_check 0)]) = Some s /\
  lreachable V1 FlagFirst 2 s /\
  nth_error (pops (lp s)) 0 = Some (P_Ret (Some 1)) /\ begun s 0 = true /\ torn s 0 = false /\ begun s 1 = false.
Proof.
  destruct (lrun V1 FlagFirst (linit 2) (trace_flag_last ++ [LL_P (Pop_recv 0); LL_P (Pop_check 0)])) as [s|] eqn:E;
    [|vm_compute in E; discriminate].
  exists s. split; [reflexivity|]. split; [eapply lrun_reachable; [apply lreach_init|exact E]|].
  vm_compute in E. inversion E; subst. vm_compute. repeat split.
Qed.

(* ---- Count()/purgeClosedPeers only ever drops a peer somebody has begun to close: every other peer ever caught is in
   activePeers (or in the collector's hand between Catch and PushBack) in EVERY reachable state, however long it has been
   quiet (quiet s p is not even mentioned) *)
Theorem C15_untouched_tracked : forall v max s p, lreachable v FlagFirst max s ->
  p < next_peer (lp s) -> begun s p = false -> In p (active (lp s)) \/ col (lp s) = C_Caught p.
Proof.
  intros v max s p R Hp Hb. destruct (lreach_life _ _ _ R) as [Hbc _].
  apply (reach_track _ _ _ (lreach_proj _ _ _ R)); [exact Hp|]. rewrite <- Hbc. exact Hb.
Qed.

(* ---- the purge of Collect removes EXACTLY the peers whose Close has begun, and changes nothing else about the peers *)
Theorem C15_purge_exact : forall v max s s', lreachable v FlagFirst max s ->
  lstep v FlagFirst s (LL_P Col_check) = Some s' -> melted (lp s) = false ->
  active (lp s') = filter (untouched s) (active (lp s)) /\ begun s' = begun s /\ quiet s' = quiet s.
Proof. exact purge_exact. Qed.

Theorem C15_quiet_peer_kept : forall v max s s' p, lreachable v FlagFirst max s ->
  lstep v FlagFirst s (LL_P Col_check) = Some s' -> melted (lp s) = false ->
  In p (active (lp s)) -> begun s p = false -> In p (active (lp s')) /\ begun s' p = false.
Proof.
  intros v max s s' p R H Hm Hi Hb. destruct (purge_exact _ _ _ _ R H Hm) as (Ea & Eb & _).
  rewrite Ea, Eb. split; [|exact Hb]. apply filter_In. split; [exact Hi|]. unfold untouched. rewrite Hb. reflexivity.
Qed.

(* ---- the bound and End, over "Close has not begun": at most Max peers nobody has begun to close; once an End call has
   returned, Close has begun on every peer ever caught, and the peers End itself closed are torn down *)
Theorem C15_bound_untouched : forall v max s, lreachable v FlagFirst max s ->
  length (filter (untouched s) (seq 0 (next_peer (lp s)))) <= max.
Proof.
  intros v max s R. destruct (lreach_life _ _ _ R) as [Hbc _].
  pose proof (live_peers_bound _ _ _ (lreach_proj _ _ _ R)) as Hl. unfold live_peers in Hl.
  erewrite filter_ext; [exact Hl|]. intros p. unfold live, untouched. rewrite Hbc. reflexivity.
Qed.

Theorem C15_end_begins_all : forall v max s i p, lreachable v FlagFirst max s ->
  nth_error (ends (lp s)) i = Some E_Done -> p < next_peer (lp s) -> begun s p = true.
Proof.
  intros v max s i p R Hd Hp. destruct (lreach_life _ _ _ R) as [Hbc _].
  destruct (end_done_facts _ _ _ _ (lreach_proj _ _ _ R) Hd) as (Ha & _). rewrite Hbc. apply Ha. exact Hp.
Qed.

Theorem C15_end_tears_down : forall v o s i s' p, lstep v o s (LL_P (End_closepeers i)) = Some s' ->
  In p (active (lp s)) -> closedf (lp s) p = false -> begun s' p = true /\ torn s' p = true.
Proof.
  intros v o s i s' p H Hi Hc. lstep_inv H. cbn [begun torn].
  assert (Hin : In p (end_closes s)).
  { unfold end_closes. apply filter_In. split; [exact Hi|]. unfold live. rewrite Hc. reflexivity. }
  split; apply close_all_in; exact Hin.
Qed.

(* a quiet peer in use with Max 1: reachable, not closed, in the list; the purge keeps it and Collect is refused *)
Example C15_ex_quiet_peer : exists s s', lrun V1 FlagFirst (linit 1) trace_quiet = Some s /\ lreachable V1 FlagFirst 1 s /\
  quiet s 0 = true /\ begun s 0 = false /\ melted (lp s) = false /\ In 0 (active (lp s)) /\
  lstep V1 FlagFirst s (LL_P Col_check) = Some s' /\ col (lp s') = C_Unlock R_AtCap.
Proof.
  destruct (lrun V1 FlagFirst (linit 1) trace_quiet) as [s|] eqn:E; [|vm_compute in E; discriminate].
  exists s. eexists. split; [reflexivity|]. split; [eapply lrun_reachable; [apply lreach_init|exact E]|].
  vm_compute in E. inversion E; subst. vm_compute. repeat split. left. reflexivity.
Qed.

Example C15_ex_end_during_teardown : exists s, lrun V1 FlagFirst (linit 2) trace_end_life = Some s /\ lreachable V1 FlagFirst 2 s /\
  nth_error (ends (lp s)) 0 = Some E_Done /\ next_peer (lp s) = 2 /\
  begun s 0 = true /\ torn s 0 = false /\ begun s 1 = true /\ torn s 1 = true.
Proof.
  destruct (lrun V1 FlagFirst (linit 2) trace_end_life) as [s|] eqn:E; [|vm_compute in E; discriminate].
  exists s. split; [reflexivity|]. split; [eapply lrun_reachable; [apply lreach_init|exact E]|].
  vm_compute in E. inversion E; subst. vm_compute. repeat split.
Qed.

(* ---- the rendezvous attempt in flight is itself bounded (Model/BrokerExchange.v).  End / SnowflakeConn.Close wait "at most
   for one rendezvous attempt already in flight": the termination theorems above are stated for a Catch that returns; for
   the broker exchange inside it that is provided by the code's own transport (createBrokerTransport: ResponseHeaderTimeout
   15 s), whatever the broker does - including accepting the request and never answering.  Tied: Run/CloseconnRun.v takes
   the outcome of the `silent` scenarios from negotiate_outcome code_transport B_Silent; the Go driver runs them through
   NewSnowflakeClient -> NewBrokerChannel -> createBrokerTransport against a broker that reads the request and stays silent
   (key rendezvous-attempt-unbounded). *)
Theorem C15_rendezvous_exchange_bounded : forall b, exists d ok, exchange_end code_transport b = Some (d, ok) /\ d <= 15.
Proof. exact code_exchange_bounded. Qed.

Theorem C15_rendezvous_not_in_flight_after_limit : forall b n, 15 <= n -> in_flight code_transport b n = false.
Proof.
  intros b n H. unfold in_flight. destruct (code_exchange_bounded b) as [d [ok [E L]]]. rewrite E.
  apply Nat.ltb_ge. lia.
Qed.

Theorem C15_negotiate_returns : forall b, exists ok, negotiate_outcome code_transport b = Some ok.
Proof.
  intro b. unfold negotiate_outcome. destruct (code_exchange_bounded b) as [d [ok [E _]]]. rewrite E. exists ok. reflexivity.
Qed.

(* a usable answer that comes in time is not lost to the timer *)
Theorem C15_answer_in_time_kept : forall d ok, d <= 15 -> exchange_end code_transport (B_Answers d ok) = Some (d, ok).
Proof. intros d ok H. simpl. apply Nat.leb_le in H. rewrite H. reflexivity. Qed.

(* non-vacuity: the silent broker's attempt is in flight up to the limit and fails exactly there *)
Example C15_ex_silent_broker : in_flight code_transport B_Silent 14 = true /\ exchange_end code_transport B_Silent = Some (15, false) /\
  exchange_end code_transport (B_Answers 15 true) = Some (15, true) /\ exchange_end code_transport (B_Answers 16 true) = Some (15, false).
Proof. repeat split; reflexivity. Qed.

(* a transport without the limit (the 15 s put on another field) is refuted: a silent broker holds the attempt for ever,
   and only a silent one does *)
Theorem C15_unlimited_transport_refuted : (forall n, in_flight (mkXT None) B_Silent n = true) /\ negotiate_outcome (mkXT None) B_Silent = None.
Proof. split; [exact unlimited_silent_for_ever | exact unlimited_silent_never_returns]. Qed.

Theorem C15_unlimited_only_silence_hangs : forall b, b <> B_Silent -> exists ok, negotiate_outcome (mkXT None) b = Some ok.
Proof.
  intros b H. destruct b as [| d ok |]; simpl.
  - exists false. reflexivity.
  - exists ok. reflexivity.
  - contradiction.
Qed.
