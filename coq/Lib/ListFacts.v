(* ListFacts.v — facts about lists that the standard library of Coq 8.16 lacks and several proof files need. *)
From Coq Require Import List Arith Lia.
Import ListNotations.

Lemma nth_error_lt {A} (l : list A) i x : nth_error l i = Some x -> i < length l.
Proof. intros H. apply nth_error_Some. congruence. Qed.

Lemma nth_error_snoc {A} (l : list A) x i y :
  nth_error (l ++ [x]) i = Some y -> nth_error l i = Some y \/ (i = length l /\ y = x).
Proof.
  intros H. destruct (Nat.lt_ge_cases i (length l)) as [Hlt|Hge].
  - left. rewrite nth_error_app1 in H; assumption.
  - right. rewrite nth_error_app2 in H by assumption.
    destruct (i - length l) as [|[|k]] eqn:E; cbn in H; [|discriminate..].
    injection H as <-. split; [lia | reflexivity].
Qed.

Lemma NoDup_snoc {A} (l : list A) x : NoDup l -> ~ In x l -> NoDup (l ++ [x]).
Proof.
  intros Hn Hx. apply NoDup_rev in Hn. rewrite <- (rev_involutive (l ++ [x])), rev_app_distr.
  apply NoDup_rev. constructor; [rewrite <- in_rev; exact Hx | exact Hn].
Qed.

Lemma skipn_add {A} m n (l : list A) : skipn n (skipn m l) = skipn (m + n) l.
Proof. revert l. induction m as [|m IH]; intros [|a l]; cbn; auto using skipn_nil. Qed.

Lemma firstn_skipn_app {A} (a b : nat) (l : list A) :
  firstn a l ++ firstn b (skipn a l) = firstn (a + b) l.
Proof.
  revert l; induction a as [|a IH]; intros l; cbn [firstn skipn plus app]; [reflexivity|].
  destruct l as [|x l]; cbn [firstn skipn app].
  - rewrite firstn_nil. reflexivity.
  - rewrite IH. reflexivity.
Qed.

Lemma firstn_app_le {A} k (a b : list A) : k <= length a -> firstn k (a ++ b) = firstn k a.
Proof. intros H. rewrite firstn_app. replace (k - length a) with 0 by lia. cbn [firstn]. apply app_nil_r. Qed.

Lemma skipn_app_le {A} n (a b : list A) : n <= length a -> skipn n (a ++ b) = skipn n a ++ b.
Proof. intros H. rewrite skipn_app. replace (n - length a) with 0 by lia. reflexivity. Qed.

Lemma firstn_app_ge {A} k (a b : list A) : length a <= k -> firstn k (a ++ b) = a ++ firstn (k - length a) b.
Proof. intros H. rewrite firstn_app. rewrite firstn_all2 by exact H. reflexivity. Qed.

(* cutting a ++ b exactly at the end of a *)
Lemma firstn_exact_app {A} (a b : list A) n : length a = n -> firstn n (a ++ b) = a.
Proof. intros <-. rewrite firstn_app_le, firstn_all by apply le_n. reflexivity. Qed.

Lemma skipn_exact_app {A} (a b : list A) n : length a = n -> skipn n (a ++ b) = b.
Proof. intros <-. rewrite skipn_app, Nat.sub_diag, skipn_all. reflexivity. Qed.

Lemma In_firstn_subset {A} j : forall (l : list A) x, In x (firstn j l) -> In x l.
Proof. intros l x H. rewrite <- (firstn_skipn j l). apply in_or_app. left. exact H. Qed.

Lemma filter_length_le {A} (f : A -> bool) l : length (filter f l) <= length l.
Proof. induction l as [|a l IH]; cbn; [|destruct (f a); cbn]; lia. Qed.

(* two splittings of one list: the shorter left part is a prefix of the longer *)
Lemma app_eq_app_le {A} (a b c d : list A) :
  a ++ b = c ++ d -> length a <= length c -> exists u, c = a ++ u /\ b = u ++ d.
Proof.
  revert c. induction a as [|x a IH]; intros c H Hl; cbn in *.
  - exists c. auto.
  - destruct c as [|y c]; cbn in *; [lia|]. injection H as <- H.
    destruct (IH c H ltac:(lia)) as (u & -> & ->). exists u. auto.
Qed.

Lemma list_ind3 {A} (P : list A -> Prop) :
  P [] -> (forall a, P [a]) -> (forall a b, P [a; b]) ->
  (forall a b c r, P r -> P (a :: b :: c :: r)) -> forall l, P l.
Proof.
  intros H0 H1 H2 H3. fix IH 1. intros [|a [|b [|c r]]]; [exact H0 | apply H1 | apply H2 | apply H3, IH].
Qed.

Lemma list_ind4 {A} (P : list A -> Prop) :
  P [] -> (forall a, P [a]) -> (forall a b, P [a; b]) -> (forall a b c, P [a; b; c]) ->
  (forall a b c d r, P r -> P (a :: b :: c :: d :: r)) -> forall l, P l.
Proof.
  intros H0 H1 H2 H3 H4. fix IH 1.
  intros [|a [|b [|c [|d r]]]]; [exact H0 | apply H1 | apply H2 | apply H3 | apply H4, IH].
Qed.
