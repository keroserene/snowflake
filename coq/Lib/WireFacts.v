(* WireFacts.v — about Lib/Wire.v: the byte-string equality test decides equality (used wherever strings are compared);
   split_on splits at every separator and join puts the pieces back (used by the path proofs of C11,
   RendezvousPathProofs and RendezvousProofs). *)
From Coq Require Import List NArith Bool.
From Snow Require Import Lib.Wire.
Import ListNotations.
Open Scope N_scope.

Lemma beq_refl : forall a, beq a a = true.
Proof. induction a; cbn; [reflexivity|]. rewrite N.eqb_refl. assumption. Qed.

Lemma beq_eq : forall a b, beq a b = true <-> a = b.
Proof.
  induction a as [|x a IH]; destruct b as [|y b]; cbn; split; try discriminate; auto.
  - intros H. apply andb_true_iff in H. destruct H as [H1 H2]. apply N.eqb_eq in H1. apply IH in H2. congruence.
  - intros H. inversion H; subst. rewrite N.eqb_refl. apply beq_refl.
Qed.

Lemma beq_neq : forall a b, beq a b = false <-> a <> b.
Proof. intros a b. rewrite <- beq_eq. destruct (beq a b); split; congruence. Qed.

Lemma beq_sym : forall a b, beq a b = beq b a.
Proof.
  intros a b. destruct (beq b a) eqn:E.
  - apply beq_eq in E. subst. apply beq_refl.
  - apply beq_neq. apply beq_neq in E. congruence.
Qed.

Lemma beq_nil_false : forall a, a <> [] -> beq a [] = false.
Proof. destruct a; [congruence|reflexivity]. Qed.

Lemma rev'_rev : forall {A} (l : list A), rev' l = rev l.
Proof. intros. unfold rev'. rewrite <- rev_alt. reflexivity. Qed.

Lemma split_on_aux_nonempty : forall sep l cur, split_on_aux sep l cur <> [].
Proof. intros sep. induction l as [|c l IH]; intros cur; cbn; [discriminate|]. destruct (c =? sep); [discriminate|apply IH]. Qed.

Lemma split_on_nonempty : forall sep l, split_on sep l <> [].
Proof. intros. apply split_on_aux_nonempty. Qed.

Lemma split_on_aux_app : forall sep a b cur,
  split_on_aux sep (a ++ sep :: b) cur = split_on_aux sep a cur ++ split_on_aux sep b [].
Proof.
  intros sep. induction a as [|c a IH]; intros b cur.
  - cbn. rewrite N.eqb_refl. reflexivity.
  - cbn [app split_on_aux]. destruct (c =? sep); [rewrite IH; reflexivity|apply IH].
Qed.

Lemma split_on_app : forall sep a b, split_on sep (a ++ sep :: b) = split_on sep a ++ split_on sep b.
Proof. intros. apply split_on_aux_app. Qed.

Lemma split_on_cons_sep : forall sep l, split_on sep (sep :: l) = [] :: split_on sep l.
Proof. intros. apply (split_on_app sep []). Qed.

Lemma split_on_aux_nosep : forall sep s cur, ~ In sep s -> split_on_aux sep s cur = [rev cur ++ s].
Proof.
  intros sep. induction s as [|c s IH]; intros cur H.
  - cbn. rewrite app_nil_r, rev'_rev. reflexivity.
  - cbn [split_on_aux]. destruct (N.eqb_spec c sep) as [->|_]; [destruct H; left; reflexivity|].
    rewrite IH by (intros X; apply H; right; exact X). cbn [rev]. rewrite <- app_assoc. reflexivity.
Qed.

Lemma split_on_nosep : forall sep s, ~ In sep s -> split_on sep s = [s].
Proof. intros. apply split_on_aux_nosep. assumption. Qed.

Lemma split_on_aux_elems : forall sep l cur, ~ In sep cur -> Forall (fun e => ~ In sep e) (split_on_aux sep l cur).
Proof.
  intros sep. induction l as [|c l IH]; intros cur Hc; cbn [split_on_aux].
  - apply Forall_cons; [|apply Forall_nil]. rewrite rev'_rev, <- in_rev. exact Hc.
  - destruct (N.eqb_spec c sep) as [->|Hn].
    + apply Forall_cons; [rewrite rev'_rev, <- in_rev; exact Hc|]. apply IH. intros [].
    + apply IH. intros [X|X]; [congruence|contradiction].
Qed.

Lemma split_on_elems : forall sep l, Forall (fun e => ~ In sep e) (split_on sep l).
Proof. intros. apply split_on_aux_elems. intros []. Qed.

Lemma join_cons : forall sep x xs, xs <> [] -> join sep (x :: xs) = x ++ sep ++ join sep xs.
Proof. intros sep x [|y ys] H; [congruence|reflexivity]. Qed.

Lemma join_split_aux : forall sep l cur, join [sep] (split_on_aux sep l cur) = rev cur ++ l.
Proof.
  intros sep. induction l as [|c l IH]; intros cur.
  - cbn. rewrite rev'_rev, app_nil_r. reflexivity.
  - cbn [split_on_aux]. destruct (N.eqb_spec c sep) as [->|_].
    + rewrite join_cons by apply split_on_aux_nonempty. rewrite IH, rev'_rev. reflexivity.
    + rewrite IH. cbn [rev]. rewrite <- app_assoc. reflexivity.
Qed.

Lemma join_split : forall sep l, join [sep] (split_on sep l) = l.
Proof. intros. apply join_split_aux. Qed.

Lemma split_join : forall sep l, l <> [] -> Forall (fun e => ~ In sep e) l -> split_on sep (join [sep] l) = l.
Proof.
  intros sep. induction l as [|x l IH]; intros Hne F; [congruence|].
  inversion F as [|? ? Hx F']; subst. destruct l as [|y l].
  - apply split_on_nosep. assumption.
  - rewrite join_cons by discriminate. cbn [app]. rewrite split_on_app, split_on_nosep by assumption.
    rewrite IH by (discriminate || assumption). reflexivity.
Qed.

Lemma join_app : forall sep a b, a <> [] -> b <> [] -> join sep (a ++ b) = join sep a ++ sep ++ join sep b.
Proof.
  intros sep a b Ha Hb. induction a as [|x a IH]; [congruence|]. destruct a as [|y a].
  - cbn [app]. rewrite join_cons by exact Hb. reflexivity.
  - cbn [app] in *. rewrite (join_cons sep x), IH, (join_cons sep x) by discriminate. rewrite <- !app_assoc. reflexivity.
Qed.
