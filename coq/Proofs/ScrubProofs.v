(* ScrubProofs.v — the LogScrubber writer (line buffering) and the repaired scrub loop.
   The writer lemmas are independent of regular expressions: they hold for any per-line scrubber.
   The scrub loop lemmas are generic in a full pattern of the shape  L (group 1: A) R  whose
   side conditions ([loop_ok]) are all decidable and are discharged by computation on the GENERATED
   pattern in Proofs/C07Proofs.v. *)
From Coq Require Import List NArith Arith Lia.
From Snow Require Import Lib.Wire Lib.ListFacts Model.Regex Model.RegexIncl Model.Scrub Proofs.RegexProofs Proofs.MatcherProofs.
Import ListNotations.
Open Scope nat_scope.

Arguments split_lines : simpl never.

Definition no_nl (s : bytes) : Prop := ~ In NL s.
Definition is_line (l : bytes) : Prop := exists body, l = body ++ [NL] /\ no_nl body.

Lemma split_lines_cons : forall c s,
  split_lines (c :: s) =
  (let (ls, r) := split_lines s in
   if (c =? NL)%N then ([c] :: ls, r)
   else match ls with [] => ([], c :: r) | l :: ls' => ((c :: l) :: ls', r) end).
Proof. reflexivity. Qed.

Lemma split_lines_app : forall a b,
  split_lines (a ++ b) =
  (let (la, ra) := split_lines a in let (lb, rb) := split_lines (ra ++ b) in (la ++ lb, rb)).
Proof.
  induction a as [|c a IH]; intros b.
  - simpl. destruct (split_lines b); reflexivity.
  - rewrite <- app_comm_cons, !split_lines_cons, IH.
    destruct (split_lines a) as [la ra].
    destruct (c =? NL)%N eqn:E.
    + destruct (split_lines (ra ++ b)) as [lb rb]; reflexivity.
    + destruct la as [|l la].
      * rewrite <- app_comm_cons, split_lines_cons, E.
        destruct (split_lines (ra ++ b)) as [lb rb]; simpl. destruct lb; reflexivity.
      * destruct (split_lines (ra ++ b)) as [lb rb]; reflexivity.
Qed.

(* what the split yields: the text is the lines followed by the rest, the rest holds no newline and is
   left alone by a second split, and the lines are lines *)
Lemma split_lines_spec : forall s, let (ls, r) := split_lines s in
  concat ls ++ r = s /\ no_nl r /\ Forall is_line ls /\ split_lines r = ([], r).
Proof.
  induction s as [|c s IH]; [repeat split; auto; intros []|].
  rewrite split_lines_cons. destruct (split_lines s) as [ls r]. destruct IH as (Hc & Hn & Hl & Hr).
  destruct (c =? NL)%N eqn:E.
  - apply N.eqb_eq in E. subst c. split; [simpl; f_equal; exact Hc|]. split; [exact Hn|]. split; [|exact Hr].
    constructor; [exists []; split; [reflexivity|intros []] | exact Hl].
  - assert (Hcn : forall b, no_nl b -> no_nl (c :: b)).
    { intros b Hb [H|H]; [subst; rewrite N.eqb_refl in E; discriminate | exact (Hb H)]. }
    destruct ls as [|l ls]; simpl in Hc; (split; [simpl; f_equal; exact Hc|]).
    + split; [auto|]. split; [constructor|]. rewrite split_lines_cons, Hr, E. reflexivity.
    + split; [exact Hn|]. split; [|exact Hr]. inversion Hl as [|? ? (body & -> & Hb) Hl']; subst.
      constructor; [exists (c :: body); split; [reflexivity|auto] | exact Hl'].
Qed.

Lemma split_lines_no_nl_tail : forall r, no_nl r -> split_lines (r ++ [NL]) = ([r ++ [NL]], []).
Proof.
  induction r as [|c r IH]; intros Hn; [reflexivity|].
  rewrite <- app_comm_cons, split_lines_cons, IH.
  - destruct (c =? NL)%N eqn:E; [|reflexivity].
    apply N.eqb_eq in E; subst. exfalso; apply Hn; left; auto.
  - intros H; apply Hn; right; auto.
Qed.

Lemma split_lines_ends_nl : forall a, snd (split_lines (a ++ [NL])) = [].
Proof.
  intros a. rewrite split_lines_app.
  pose proof (split_lines_spec a) as Hn.
  destruct (split_lines a) as [la ra]. destruct Hn as (_ & Hn & _).
  rewrite (split_lines_no_nl_tail ra Hn). reflexivity.
Qed.

Section Writer.
  Variable sc : bytes -> bytes.      (* any scrubber applied to one complete line *)

  Lemma run_writes_spec : forall ws buf,
    split_lines buf = ([], buf) ->
    run_writes (write sc) buf ws =
      (map sc (fst (split_lines (buf ++ concat ws))), snd (split_lines (buf ++ concat ws))).
  Proof.
    induction ws as [|b ws IH]; intros buf Hb; simpl.
    - rewrite app_nil_r, Hb; reflexivity.
    - unfold write at 1. rewrite app_assoc, (split_lines_app (buf ++ b)).
      pose proof (split_lines_spec (buf ++ b)) as Hr.
      destruct (split_lines (buf ++ b)) as [lb rb]. destruct Hr as (_ & _ & _ & Hr).
      rewrite (IH rb Hr). destruct (split_lines (rb ++ concat ws)) as [l2 r2]; simpl.
      rewrite map_app; reflexivity.
  Qed.

  (* what the sink receives and what stays buffered depend only on the concatenation of the writes *)
  Theorem write_split_invariant : forall ws,
    run_writes (write sc) [] ws =
      (map sc (fst (split_lines (concat ws))), snd (split_lines (concat ws))).
  Proof. intros ws; apply (run_writes_spec ws []); reflexivity. Qed.

  Theorem write_split_independent : forall ws1 ws2,
    concat ws1 = concat ws2 -> run_writes (write sc) [] ws1 = run_writes (write sc) [] ws2.
  Proof. intros ws1 ws2 H; rewrite !write_split_invariant, H; reflexivity. Qed.

  (* every block handed to the sink is the scrubbed image of one complete line of the stream; the
     lines are emitted in order, none is lost, and the pending rest contains no newline *)
  Theorem write_complete_lines : forall ws outs pend,
    run_writes (write sc) [] ws = (outs, pend) ->
    exists lines, outs = map sc lines /\ Forall is_line lines /\
                  concat lines ++ pend = concat ws /\ no_nl pend.
  Proof.
    intros ws outs pend H. rewrite write_split_invariant in H.
    pose proof (split_lines_spec (concat ws)) as Hs. destruct (split_lines (concat ws)) as [ls r].
    injection H as <- <-. exists ls. tauto.
  Qed.

  Definition scrub_stream (s : bytes) : bytes := concat (map sc (fst (split_lines s))).

  Theorem scrub_stream_line_local : forall a b,
    scrub_stream ((a ++ [NL]) ++ b) = scrub_stream (a ++ [NL]) ++ scrub_stream b.
  Proof.
    intros a b. unfold scrub_stream. rewrite (split_lines_app (a ++ [NL]) b).
    pose proof (split_lines_ends_nl a) as He.
    destruct (split_lines (a ++ [NL])) as [la ra]; simpl in He; subst ra. simpl.
    destruct (split_lines b) as [lb rb]; simpl. rewrite map_app, concat_app; reflexivity.
  Qed.
End Writer.

(* one round: the span of group 1 in the leftmost match of the slice *)
Definition scrub_step (full : re) (s : bytes) : option (nat * nat) :=
  match search full s 0 with
  | Some (_, _, cs) =>
      match cap_lookup 1 cs with
      | Some (gs, S ge) => Some (gs, S ge)
      | _ => None
      end
  | None => None
  end.

Lemma scrub_loop_S : forall f full s, scrub_loop (S f) full s =
  match scrub_step full s with
  | None => s
  | Some (gs, ge) => firstn gs s ++ scrubbed ++ scrub_loop f full (skipn ge s)
  end.
Proof.
  intros f full s. unfold scrub_step. cbn [scrub_loop].
  destruct (search full s 0) as [[[st en] cs]|]; [|reflexivity].
  destruct (cap_lookup 1 cs) as [[gs [|ge]]|]; reflexivity.
Qed.

Lemma scrub_step_inv : forall full s gs ge, scrub_step full s = Some (gs, ge) ->
  exists k en cs, k <= length s /\ match_here full (skipn k s) k = Some (en, cs) /\
                  cap_lookup 1 cs = Some (gs, ge).
Proof.
  unfold scrub_step. intros full s gs ge H.
  destruct (search full s 0) as [[[st en] cs]|] eqn:Es; [|discriminate].
  destruct (cap_lookup 1 cs) as [[gs' [|ge']]|] eqn:Ec; try discriminate. injection H as <- <-.
  apply search_sound in Es. destruct Es as (k & Hk & -> & Hm). exists k, en, cs. auto.
Qed.

Lemma scrub_step_intro : forall full s st en cs gs ge,
  search full s 0 = Some (st, en, cs) -> cap_lookup 1 cs = Some (gs, ge) -> 0 < ge ->
  scrub_step full s = Some (gs, ge).
Proof. intros full s st en cs gs ge Hs Hc Hge. unfold scrub_step. rewrite Hs, Hc. destruct ge; [lia|reflexivity]. Qed.

(* the spans (absolute positions, start inclusive, end exclusive) replaced by scrub_loop *)
Fixpoint spans (fuel : nat) (full : re) (s : bytes) (off : nat) : list (nat * nat) :=
  match fuel with
  | O => []
  | S fuel' =>
      match search full s 0 with
      | None => []
      | Some (_, _, cs) =>
          match cap_lookup 1 cs with
          | None => []
          | Some (gs, ge) =>
              match ge with
              | O => []
              | S _ => (off + gs, off + ge) :: spans fuel' full (skipn ge s) (off + ge)
              end
          end
      end
  end.

Lemma spans_S : forall f full s off, spans (S f) full s off =
  match scrub_step full s with
  | None => []
  | Some (gs, ge) => (off + gs, off + ge) :: spans f full (skipn ge s) (off + ge)
  end.
Proof.
  intros f full s off. unfold scrub_step. cbn [spans].
  destruct (search full s 0) as [[[st en] cs]|]; [|reflexivity].
  destruct (cap_lookup 1 cs) as [[gs [|ge]]|]; reflexivity.
Qed.

(* s starts at absolute position off *)
Fixpoint render (s : bytes) (off : nat) (sp : list (nat * nat)) : bytes :=
  match sp with
  | [] => s
  | (a, b) :: sp' => firstn (a - off) s ++ scrubbed ++ render (skipn (b - off) s) b sp'
  end.

Lemma scrub_loop_render : forall fuel full s off,
  scrub_loop fuel full s = render s off (spans fuel full s off).
Proof.
  induction fuel as [|f IH]; intros full s off; [reflexivity|].
  rewrite scrub_loop_S, spans_S. destruct (scrub_step full s) as [[gs ge]|]; [|reflexivity].
  cbn [render]. replace (off + gs - off) with gs by lia. replace (off + ge - off) with ge by lia.
  rewrite <- IH. reflexivity.
Qed.

(* spans lie inside the text [off, n), are non-empty, increasing and disjoint *)
Inductive wf_spans : nat -> nat -> list (nat * nat) -> Prop :=
| WfNil : forall off n, wf_spans off n []
| WfCons : forall off n a b sp, off <= a -> a < b -> b <= n -> wf_spans b n sp -> wf_spans off n ((a, b) :: sp).

Definition left_ok (pre : bytes) : Prop :=
  pre = [] \/ exists pre' d, pre = pre' ++ [d] /\ is_delim d = true.
Definition right_ok (post : bytes) : Prop :=
  post = [] \/ exists e post', post = e :: post' /\ is_delim e = true.

Lemma left_ok_skipn : forall pre n, left_ok pre -> n <= length pre -> left_ok (skipn n pre).
Proof.
  intros pre n [->|(pre' & d & -> & Hd)] Hn; [rewrite skipn_nil; left; reflexivity|].
  rewrite app_length in Hn; simpl in Hn.
  destruct (Nat.eq_dec n (length pre' + 1)) as [->|E].
  - left. apply skipn_all2. rewrite app_length; simpl; lia.
  - right. exists (skipn n pre'), d. split; [|exact Hd].
    rewrite skipn_app. replace (n - length pre') with 0 by lia. reflexivity.
Qed.

(* the side conditions on the parts of a full pattern  L (group 1: A) R *)
Local Set Implicit Arguments.
Record loop_ok (L A R : re) : Prop := {
  ok_sfL : star_free L = true;
  ok_sfA : star_free A = true;
  ok_sfR : star_free R = true;
  ok_lenL : maxlen L <= 1;
  ok_nullA : nullable A = false;
  ok_afA : anchor_free A = true;
  ok_gR : has_grp 1 R = false;
  ok_bolL : nb L = true;
  ok_eolR : ne R = true;
  ok_delimL : forall d, is_delim d = true -> matches L [d];
  ok_delimR : forall d, is_delim d = true -> matches R [d] }.
Local Unset Implicit Arguments.

(* what remains once the address part has matched from pa: the right delimiter, group 1 being recorded *)
Definition kA (R : re) (pa : nat) : cont := fun s' p' c' => bt R s' p' ((1, (pa, p')) :: c') kdone.

(* the right delimiter can be matched on this rest, at any position *)
Definition POK (R : re) (s2 : bytes) : Prop := forall p c, exists s3 p3 c3, ms R s2 p c s3 p3 c3.

Section Loop.
  Variables L A R : re.
  Let full := Seq L (Seq (Grp 1 A) R).
  Hypothesis Hok : loop_ok L A R.

  Lemma right_ok_POK : forall post, right_ok post -> POK R post.
  Proof.
    intros post [->|(e & post' & -> & He)] p c.
    - destruct (ne_ms R (ok_eolR Hok) p c) as [c3 M3]; eauto.
    - destruct (matches_ms R [e] (ok_delimR Hok e He) post' p c) as [c3 M3]. simpl in M3; eauto.
  Qed.

  Lemma kA_sound : forall pa s2 p2 c2 en cs, kA R pa s2 p2 c2 = Some (en, cs) ->
    cap_lookup 1 cs = Some (pa, p2) /\ exists s3 c3, ms R s2 p2 ((1, (pa, p2)) :: c2) s3 en c3.
  Proof.
    intros pa s2 p2 c2 en cs H. apply bt_sound in H. destruct H as (s3 & p3 & c3 & MR & Hd).
    injection Hd as <- <-. split; [|eauto].
    rewrite (ms_no_grp 1 _ _ _ _ _ _ _ MR (ok_gR Hok)). reflexivity.
  Qed.

  Lemma kA_complete : forall pa s2 p2 c2, POK R s2 -> kA R pa s2 p2 c2 <> None.
  Proof.
    intros pa s2 p2 c2 Hp. destruct (Hp p2 ((1, (pa, p2)) :: c2)) as (s3 & p3 & c3 & M).
    apply (bt_complete _ _ _ _ _ _ _ M (ok_sfR Hok)). discriminate.
  Qed.

  (* a successful attempt at position st: a word of L, then A with kA as the rest *)
  Lemma match_here_left : forall s st res, match_here full s st = Some res ->
    exists wL sa ca, s = wL ++ sa /\ length wL <= 1 /\
                     bt A sa (st + length wL) ca (kA R (st + length wL)) = Some res.
  Proof.
    intros s st res H.
    change (bt L s st [] (fun s' p' c' => bt A s' p' c' (kA R p')) = Some res) in H.
    apply bt_sound in H. destruct H as (sa & pa & ca & ML & Hk).
    destruct (ms_word _ _ _ _ _ _ _ ML) as (wL & -> & -> & _).
    pose proof (ms_maxlen _ _ _ _ _ _ _ ML (ok_sfL Hok)). pose proof (ok_lenL Hok).
    exists wL, sa, ca. split; [reflexivity|]. split; [lia|exact Hk].
  Qed.

  Lemma match_here_shape : forall s st en cs, match_here full s st = Some (en, cs) ->
    exists pre w post, s = pre ++ w ++ post /\ length pre <= 1 /\ w <> [] /\ matches A w /\
                       cap_lookup 1 cs = Some (st + length pre, st + length pre + length w).
  Proof.
    intros s st en cs H. destruct (match_here_left _ _ _ H) as (wL & sa & ca & -> & HwL & HA).
    destruct (bt_sound_matches _ _ _ _ _ _ (ok_afA Hok) HA) as (w & post & c1 & -> & Mw & Hk).
    exists wL, w, post. repeat split; auto; [|apply (kA_sound _ _ _ _ _ _ Hk)].
    intros ->. apply nullable_correct in Mw. rewrite (ok_nullA Hok) in Mw. discriminate.
  Qed.

  Lemma full_star_free : star_free full = true.
  Proof. unfold full; simpl. destruct Hok as [-> -> ->]. reflexivity. Qed.

  (* an attempt succeeds where L can be matched right before a delimited word of A *)
  Lemma match_here_complete : forall x w post st c1,
    ms L (x ++ w ++ post) st [] (w ++ post) (st + length x) c1 -> matches A w -> right_ok post ->
    match_here full (x ++ w ++ post) st <> None.
  Proof.
    intros x w post st c1 M1 Hw Hr.
    destruct (matches_ms A w Hw post (st + length x) c1) as [c2 M2].
    destruct (right_ok_POK post Hr (st + length x + length w)
                ((1, (st + length x, st + length x + length w)) :: c2)) as (s3 & p3 & c3 & M3).
    eapply bt_complete; [|apply full_star_free|].
    - unfold full. econstructor; [exact M1|]. econstructor; [constructor; exact M2|exact M3].
    - discriminate.
  Qed.

  (* the leftmost successful attempt is not to the right of the delimiter before the occurrence
     (of position 0 when there is none) *)
  Lemma first_match : forall pre w post, matches A w -> left_ok pre -> right_ok post ->
    exists k en cs, search full (pre ++ w ++ post) 0 = Some (k, en, cs) /\ k <= length pre - 1 /\
                    match_here full (skipn k (pre ++ w ++ post)) k = Some (en, cs).
  Proof.
    intros pre w post Hw Hl Hr.
    apply (search_complete full (length pre - 1) (pre ++ w ++ post) 0); [rewrite app_length; lia|].
    destruct Hl as [->|(pre' & d & -> & Hd)].
    - destruct (nb_ms L (ok_bolL Hok) (w ++ post) []) as [c1 M1].
      exact (match_here_complete [] w post 0 c1 M1 Hw Hr).
    - rewrite app_length, Nat.add_sub, <- app_assoc, skipn_app, skipn_all, Nat.sub_diag.
      destruct (matches_ms L [d] (ok_delimL Hok d Hd) (w ++ post) (length pre') []) as [c1 M1].
      exact (match_here_complete [d] w post _ c1 M1 Hw Hr).
  Qed.

  (* Main lemma: in the slice s = pre ++ w ++ post (which starts at absolute position off), with w a
     word of A of length >= 2 delimited on both sides, some replaced span overlaps the occurrence. *)
  Lemma loop_hides : forall fuel pre w post off,
    length (pre ++ w ++ post) < fuel ->
    matches A w -> 2 <= length w -> left_ok pre -> right_ok post ->
    exists a b, In (a, b) (spans fuel full (pre ++ w ++ post) off) /\
                a < off + length pre + length w /\ off + length pre < b.
  Proof.
    induction fuel as [|f IH]; intros pre w post off Hfuel Hw Hlen Hl Hr; [lia|].
    destruct (first_match pre w post Hw Hl Hr) as (k & en & cs & Hs & Hk & Hm).
    destruct (match_here_shape _ _ _ _ Hm) as (x & w' & y & _ & Hx & Hne & _ & Hcap).
    assert (Hw' : 1 <= length w') by (destruct w'; [contradiction|simpl; lia]).
    rewrite spans_S, (scrub_step_intro _ _ _ _ _ _ _ Hs Hcap) by lia.
    destruct (Nat.le_gt_cases (k + length x + length w') (length pre)) as [Hbefore|Hover].
    - (* the replaced span ends before the occurrence: go on in the rest of the slice *)
      rewrite skipn_app_le by exact Hbefore.
      destruct (IH (skipn (k + length x + length w') pre) w post (off + (k + length x + length w')))
        as (a & b & Hin & Ha & Hb); auto using left_ok_skipn.
      + rewrite !app_length in *. rewrite skipn_length. lia.
      + exists a, b. split; [right; exact Hin|]. rewrite skipn_length in *. lia.
    - (* the replaced span reaches into the occurrence *)
      exists (off + (k + length x)), (off + (k + length x + length w')). split; [left; reflexivity|]. lia.
  Qed.

  Theorem scrub1_hides : forall pre w post,
    matches A w -> 2 <= length w -> left_ok pre -> right_ok post ->
    exists a b, In (a, b) (spans (S (length (pre ++ w ++ post))) full (pre ++ w ++ post) 0) /\
                a < length pre + length w /\ length pre < b.
  Proof.
    intros pre w post Hw Hlen Hl Hr. apply (loop_hides (S (length (pre ++ w ++ post))) pre w post 0); auto.
  Qed.

  Theorem scrub1_render : forall t,
    scrub1 full t = render t 0 (spans (S (length t)) full t 0).
  Proof. intros t; unfold scrub1; apply scrub_loop_render. Qed.

  (* a round replaces a non-empty word of A inside the slice *)
  Lemma scrub_step_spec : forall s gs ge, scrub_step full s = Some (gs, ge) ->
    gs < ge <= length s /\
    exists X w post, s = X ++ w ++ post /\ length X = gs /\ ge = gs + length w /\ matches A w.
  Proof.
    intros s gs ge H. destruct (scrub_step_inv _ _ _ _ H) as (k & en & cs & Hk & Hm & Hcap).
    destruct (match_here_shape _ _ _ _ Hm) as (x & w & y & Es & _ & Hne & Hw & Hcap').
    rewrite Hcap in Hcap'. injection Hcap' as -> ->.
    assert (Hs : s = (firstn k s ++ x) ++ w ++ y) by (rewrite <- app_assoc, <- Es, firstn_skipn; reflexivity).
    assert (HX : length (firstn k s ++ x) = k + length x) by (rewrite app_length, firstn_length_le by exact Hk; reflexivity).
    split; [|exists (firstn k s ++ x), w, y; auto].
    apply (f_equal (@length N)) in Hs. rewrite app_length, HX, app_length in Hs.
    destruct w; [contradiction|simpl in *; lia].
  Qed.

  Lemma spans_wf : forall fuel s off, wf_spans off (off + length s) (spans fuel full s off).
  Proof.
    induction fuel as [|f IH]; intros s off; [constructor|]. rewrite spans_S.
    destruct (scrub_step full s) as [[gs ge]|] eqn:E; [|constructor].
    destruct (scrub_step_spec _ _ _ E) as [Hge _].
    constructor; try lia.
    replace (off + length s) with ((off + ge) + length (skipn ge s)) by (rewrite skipn_length; lia).
    apply IH.
  Qed.

  (* the fuel of scrub_loop is never exhausted: every round drops at least one byte of the text,
     so any fuel above the length of the text gives the same result (the Go loop has no bound) *)
  Lemma scrub_loop_fuel : forall f1 f2 s,
    length s < f1 -> length s < f2 -> scrub_loop f1 full s = scrub_loop f2 full s.
  Proof.
    induction f1 as [|f1 IH]; intros f2 s H1 H2; [lia|].
    destruct f2 as [|f2]; [lia|]. rewrite !scrub_loop_S.
    destruct (scrub_step full s) as [[gs ge]|] eqn:E; [|reflexivity].
    destruct (scrub_step_spec _ _ _ E) as [Hge _].
    rewrite (IH f2 (skipn ge s)); [reflexivity| |]; rewrite skipn_length; lia.
  Qed.

  Hypothesis HnlA : sym_free NL A = true.

  Lemma scrub_loop_keeps_nl : forall fuel body,
    exists body', scrub_loop fuel full (body ++ [NL]) = body' ++ [NL].
  Proof.
    induction fuel as [|f IH]; intros body; [simpl; eauto|]. rewrite scrub_loop_S.
    destruct (scrub_step full (body ++ [NL])) as [[gs ge]|] eqn:E; [|eauto].
    destruct (scrub_step_spec _ _ _ E) as (Hlt & X & w & post & Es & HX & Hge & Hw).
    (* the replaced word does not contain the newline, so it is not the end of the line *)
    assert (Hle : ge <= length body).
    { destruct post as [|y post].
      - exfalso. assert (Hne : w <> []) by (intros ->; simpl in Hge; lia).
        destruct (exists_last Hne) as (w' & y & ->).
        rewrite app_nil_r, app_assoc in Es. apply app_inj_tail in Es. destruct Es as [_ <-].
        apply (matches_sym_free NL _ _ Hw HnlA). apply in_or_app; right; left; reflexivity.
      - apply (f_equal (@length N)) in Es. rewrite !app_length in Es. simpl in Es. lia. }
    rewrite skipn_app_le by exact Hle.
    destruct (IH (skipn ge body)) as [b' ->].
    exists (firstn gs (body ++ [NL]) ++ scrubbed ++ b'). rewrite <- !app_assoc. reflexivity.
  Qed.

  Theorem scrub1_keeps_nl : forall body, exists body', scrub1 full (body ++ [NL]) = body' ++ [NL].
  Proof. intros body; unfold scrub1; apply scrub_loop_keeps_nl. Qed.
End Loop.

Lemma addr_spec_minlen : forall w, matches addr_spec w -> 2 <= length w.
Proof. intros w Hw. exact (matches_minlen _ _ Hw). Qed.
