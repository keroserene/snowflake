(* LockTraceProofs.v — proofs about Model/LockTrace.v: the lockset theorem (for all traces, read-write locks
   included), soundness of the static table discipline, and soundness of the one-pass
   trace checker. *)
From Coq Require Import String List Arith Bool Lia.
From Snow Require Import Model.LockTrace.
Import ListNotations.

Lemma firstn_S_nth : forall (A : Type) (l : list A) i x,
  nth_error l i = Some x -> firstn (S i) l = firstn i l ++ [x].
Proof.
  induction l as [|a l IH]; intros [|i] x H; try discriminate; cbn in *.
  - injection H as ->. reflexivity.
  - f_equal. apply IH, H.
Qed.

Lemma skipn_cons_nth : forall (A : Type) (l : list A) k x q,
  skipn k l = x :: q -> nth_error l k = Some x /\ skipn (S k) l = q.
Proof.
  induction l as [|a l IH]; intros [|k] x q H; try discriminate; cbn in *.
  - injection H as -> ->. auto.
  - apply IH, H.
Qed.

Lemma mem_tid_In : forall t l, mem_tid t l = true <-> In t l.
Proof.
  induction l as [|a l IH]; cbn; [split; [discriminate|tauto]|].
  rewrite orb_true_iff, Nat.eqb_eq, IH. tauto.
Qed.

Lemma remove_one_In : forall x t l, In x (remove_one t l) -> In x l.
Proof.
  induction l as [|a l IH]; cbn; auto.
  destruct (Nat.eqb a t); cbn; [tauto|]. intros [->|H]; auto.
Qed.

Lemma remove_one_other : forall x t l, In x l -> x <> t -> In x (remove_one t l).
Proof.
  induction l as [|a l IH]; cbn; auto. intros [->|H] Hne.
  - destruct (Nat.eqb x t) eqn:E; [apply Nat.eqb_eq in E; contradiction|]. now left.
  - destruct (Nat.eqb a t); [exact H|]. right. auto.
Qed.

Lemma run_app : forall a b s,
  run (a ++ b) s = match run a s with Some s' => run b s' | None => None end.
Proof.
  induction a as [|e a IH]; intros b s; cbn; auto.
  destruct (step s e); auto.
Qed.

Lemma upd_same : forall s l v, upd s l v l = v.
Proof. intros. unfold upd. now rewrite Nat.eqb_refl. Qed.

Lemma upd_other : forall s l v l', l' <> l -> upd s l v l' = s l'.
Proof. intros s l v l' H. unfold upd. apply Nat.eqb_neq in H. now rewrite H. Qed.

(* a write section excludes read sections *)
Definition lst_ok (v : lst) : Prop := wr v <> None -> rds v = [].

(* what one step can do to the state of g *)
Lemma step_view : forall s e s' g,
  step s e = Some s' ->
  s' g = s g
  \/ (exists t, e = Acq t g /\ wr (s g) = None /\ rds (s g) = [] /\ s' g = mkLst (Some t) [])
  \/ (exists t, e = Rel t g /\ wr (s g) = Some t /\ s' g = mkLst None (rds (s g)))
  \/ (exists t, e = RAcq t g /\ wr (s g) = None /\ s' g = mkLst None (t :: rds (s g)))
  \/ (exists t, e = RRel t g /\ In t (rds (s g)) /\ s' g = mkLst (wr (s g)) (remove_one t (rds (s g)))).
Proof.
  intros s e s' g H.
  destruct e as [t l|t l|t l|t l|t x|t x|t x|t t']; cbn in H; try (inversion H; subst; now left).
  - destruct (wr (s l)) eqn:Hw; [discriminate|]. destruct (rds (s l)) eqn:Hr; [|discriminate].
    inversion H; subst; clear H. destruct (Nat.eq_dec g l) as [->|Hne].
    + right; left. exists t. rewrite upd_same. auto.
    + left. now apply upd_other.
  - destruct (wr (s l)) as [t'|] eqn:Hw; [|discriminate].
    destruct (Nat.eqb t' t) eqn:Ht; [|discriminate]. apply Nat.eqb_eq in Ht. subst t'.
    inversion H; subst; clear H. destruct (Nat.eq_dec g l) as [->|Hne].
    + right; right; left. exists t. rewrite upd_same. auto.
    + left. now apply upd_other.
  - destruct (wr (s l)) eqn:Hw; [discriminate|].
    inversion H; subst; clear H. destruct (Nat.eq_dec g l) as [->|Hne].
    + right; right; right; left. exists t. rewrite upd_same. auto.
    + left. now apply upd_other.
  - destruct (mem_tid t (rds (s l))) eqn:Hm; [|discriminate]. apply mem_tid_In in Hm.
    inversion H; subst; clear H. destruct (Nat.eq_dec g l) as [->|Hne].
    + right; right; right; right. exists t. rewrite upd_same. auto.
    + left. now apply upd_other.
Qed.

Lemma step_ok : forall s e s' g, step s e = Some s' -> lst_ok (s g) -> lst_ok (s' g).
Proof.
  intros s e s' g H Hok.
  destruct (step_view s e s' g H) as [E|[(t & _ & _ & _ & E)|[(t & _ & _ & E)|[(t & _ & _ & E)|(t & _ & Hin & E)]]]];
    rewrite E; unfold lst_ok in *; cbn; auto; try congruence.
  intros Hw. rewrite (Hok Hw) in Hin. destruct Hin.
Qed.

Lemma run_ok : forall tr s s' g, run tr s = Some s' -> lst_ok (s g) -> lst_ok (s' g).
Proof.
  induction tr as [|e tr IH]; intros s s' g H Hok; cbn in H.
  - inversion H; subst. exact Hok.
  - destruct (step s e) as [s1|] eqn:Hst; [|discriminate].
    eapply IH; eauto. eapply step_ok; eauto.
Qed.

Lemma st0_ok : forall g, lst_ok (st0 g).
Proof. intros g. unfold lst_ok, st0, free. cbn. congruence. Qed.

(* s is the lock state just before position i (what `holds` and `holds_r` look at) *)
Definition at_pos (tr : trace) (i : nat) (s : lockst) : Prop := run (firstn i tr) st0 = Some s.

Lemma at_pos_S : forall tr i s e,
  at_pos tr i s -> nth_error tr i = Some e -> run (firstn (S i) tr) st0 = step s e.
Proof.
  intros tr i s e H Hn. rewrite (firstn_S_nth _ _ _ _ Hn), run_app, H. cbn. destruct (step s e); reflexivity.
Qed.

Lemma at_pos_le : forall tr i j sB, at_pos tr j sB -> i <= j -> exists s, at_pos tr i s.
Proof.
  unfold at_pos. intros tr i j sB H Hle. rewrite <- (firstn_skipn i (firstn j tr)), firstn_firstn, Nat.min_l, run_app in H by exact Hle.
  destruct (run (firstn i tr) st0) as [s|]; [now exists s | discriminate].
Qed.

Lemma at_pos_ok : forall tr i s g, at_pos tr i s -> lst_ok (s g).
Proof. intros tr i s g H. eapply run_ok; [exact H | apply st0_ok]. Qed.

(* Pr of the state of lock g is left only by the event X, which establishes Post *)
Definition left_by (g : lock) (Pr Post : lst -> Prop) (X : event) : Prop :=
  forall s e s', step s e = Some s' -> Pr (s g) -> Pr (s' g) \/ (e = X /\ Post (s' g)).

(* hence between a position where Pr holds and a later one where it does not lies an X *)
Lemma first_change : forall g Pr Post X tr j sB,
  left_by g Pr Post X -> j <= length tr -> at_pos tr j sB ->
  forall d i sA, i + d = j -> at_pos tr i sA -> Pr (sA g) ->
    Pr (sB g) \/ exists k s1, i <= k < j /\ nth_error tr k = Some X /\ at_pos tr (S k) s1 /\ Post (s1 g).
Proof.
  intros g Pr Post X tr j sB Hstep Hlen HB. induction d as [|d IH]; intros i sA Hd HA HP.
  - left. replace i with j in HA by lia. unfold at_pos in *. congruence.
  - destruct (nth_error tr i) as [e|] eqn:He; [|apply nth_error_None in He; lia].
    destruct (at_pos_le tr (S i) j sB HB) as [s1 H1]; [lia|].
    pose proof H1 as Hs. unfold at_pos in Hs. rewrite (at_pos_S tr i sA e HA He) in Hs.
    destruct (Hstep _ _ _ Hs HP) as [HP1|[-> HQ]].
    + destruct (IH (S i) s1) as [|(k & s2 & Hk & R)]; auto; [lia|]. right. exists k, s2. split; [lia | exact R].
    + right. exists i, s1. repeat split; auto; lia.
Qed.

Lemma write_section_left : forall g t,
  left_by g (fun v => lst_ok v /\ wr v = Some t) (fun v => v = free) (Rel t g).
Proof.
  intros g t s e s' Hst [Hok Hw]. pose proof (step_ok s e s' g Hst Hok) as Hok'.
  destruct (step_view s e s' g Hst) as [E|[(u & _ & F & _)|[(u & -> & F & E)|[(u & _ & F & _)|(u & _ & F & _)]]]].
  - left. rewrite E. auto.
  - congruence.
  - right. rewrite E, Hok by congruence. split; [congruence | reflexivity].
  - congruence.
  - rewrite Hok in F by congruence. destruct F.
Qed.

Lemma read_section_left : forall g t,
  left_by g (fun v => lst_ok v /\ In t (rds v)) (fun v => wr v = None) (RRel t g).
Proof.
  intros g t s e s' Hst [Hok Hin]. pose proof (step_ok s e s' g Hst Hok) as Hok'.
  assert (Hw : wr (s g) = None).
  { destruct (wr (s g)) eqn:Hw; auto. rewrite Hok in Hin by congruence. destruct Hin. }
  destruct (step_view s e s' g Hst) as [E|[(u & _ & _ & F & _)|[(u & _ & F & _)|[(u & _ & _ & E)|(u & -> & _ & E)]]]].
  - left. rewrite E. auto.
  - rewrite F in Hin. destruct Hin.
  - congruence.
  - left. split; [exact Hok'|]. rewrite E. cbn. auto.
  - destruct (Nat.eq_dec t u) as [<-|Hne].
    + right. rewrite E. auto.
    + left. split; [exact Hok'|]. rewrite E. cbn. now apply remove_one_other.
Qed.

Lemma write_section_entered : forall g t, left_by g (fun v => wr v <> Some t) (fun _ => True) (Acq t g).
Proof.
  intros g t s e s' Hst Hne.
  destruct (step_view s e s' g Hst) as [E|[(u & -> & _ & _ & E)|[(u & _ & _ & E)|[(u & _ & _ & E)|(u & _ & _ & E)]]]];
    try (left; rewrite E; cbn; congruence).
  destruct (Nat.eq_dec u t) as [->|Hut]; [now right | left; rewrite E; cbn; congruence].
Qed.

Lemma read_section_entered : forall g t, left_by g (fun v => ~ In t (rds v)) (fun _ => True) (RAcq t g).
Proof.
  intros g t s e s' Hst Hne.
  destruct (step_view s e s' g Hst) as [E|[(u & _ & _ & _ & E)|[(u & _ & _ & E)|[(u & -> & _ & E)|(u & _ & _ & E)]]]].
  - left. now rewrite E.
  - left. rewrite E. cbn. tauto.
  - left. rewrite E. exact Hne.
  - destruct (Nat.eq_dec u t) as [->|Hut]; [now right | left; rewrite E; cbn; tauto].
  - left. rewrite E. cbn. intros H. apply Hne. eapply remove_one_In; eauto.
Qed.

Lemma hb_lt : forall tr i j, hb tr i j -> i < j.
Proof. induction 1; lia. Qed.

(* the first edge of a happens-before chain: its source ends a section, forks, or is followed
   by an event of its own thread *)
Lemma hb_first_edge : forall tr i j, hb tr i j ->
  exists e1, nth_error tr i = Some e1 /\
    ((exists t l, e1 = Rel t l \/ e1 = RRel t l) \/ is_fork e1 = true \/
     exists k e2, i < k <= j /\ nth_error tr k = Some e2 /\ thr e1 = thr e2).
Proof.
  induction 1 as [i j e1 e2 Hij H1 H2 Ht|i j t t' l Hij H1 H2|i j t t' l Hij H1 H2|i j t t' l Hij H1 H2
                  |i j t t' e Hij H1 H2 Ht|i j k _ IH1 H2 _].
  - exists e1. split; [exact H1|]. right; right. exists j, e2. auto.
  - exists (Rel t l). eauto 6.
  - exists (Rel t l). eauto 6.
  - exists (RRel t l). eauto 6.
  - exists (Fork t t'). auto.
  - destruct IH1 as (e1 & H1 & [R|[F|(m & e2 & Hm & Hn & Ht)]]); exists e1; (split; [exact H1|]); auto.
    right; right. exists m, e2. apply hb_lt in H2. split; [lia | auto].
Qed.

(* so a plain access is not ordered before the next event when that is of another thread *)
Lemma next_event_unordered : forall tr i e1 e2 x,
  nth_error tr i = Some e1 -> nth_error tr (S i) = Some e2 -> accesses e1 x -> thr e1 <> thr e2 ->
  ~ hb tr i (S i).
Proof.
  intros tr i e1 e2 x H1 H2 Ha Ht H. destruct (hb_first_edge tr i (S i) H) as (e & He & C).
  rewrite H1 in He. injection He as <-. unfold accesses in Ha.
  destruct C as [(t & l & [-> | ->])|[F|(k & e3 & Hk & Hn & Hte)]]; try discriminate.
  - destruct e1; discriminate.
  - replace k with (S i) in Hn by lia. congruence.
Qed.

Lemma read_only_not_write : forall e, is_read_only e = true -> is_write e = false.
Proof. intros e H. destruct e; try discriminate. reflexivity. Qed.

Lemma access_not_fork : forall e x, accesses e x -> is_fork e = false.
Proof. intros e x H. destruct e; cbn in *; auto; unfold accesses in H; cbn in H; discriminate. Qed.

(* Two sections of one lock g around the accesses e1 (at i) and e2 (at j > i): the first is left only by X, an
   event of e1's thread, the second entered only by Y, an event of e2's thread, and X synchronises with every
   later Y.  If the first section is over at j and leaving it excludes being inside the second, then X lies
   behind i, Y between X and j, and e1 -> X -> Y -> e2 orders the accesses. *)
Lemma sections_ordered : forall tr g (In1 Mid Out2 : lst -> Prop) X Y i j e1 e2 x sA sB,
  left_by g In1 Mid X -> left_by g Out2 (fun _ => True) Y -> (forall v, Mid v -> Out2 v) ->
  acc_loc X = None -> thr X = thr e1 -> thr Y = thr e2 ->
  (forall k m, k < m -> nth_error tr k = Some X -> nth_error tr m = Some Y -> hb tr k m) ->
  i < j -> nth_error tr i = Some e1 -> nth_error tr j = Some e2 -> accesses e1 x ->
  at_pos tr i sA -> at_pos tr j sB -> In1 (sA g) -> ~ In1 (sB g) -> ~ Out2 (sB g) -> hb tr i j.
Proof.
  intros tr g In1 Mid Out2 X Y i j e1 e2 x sA sB HX HY HM Xacc Xthr Ythr Hsync Hij Hi Hj Hacc HA HB H1 Hn1 Hn2.
  assert (Hlen : j <= length tr) by (apply Nat.lt_le_incl, nth_error_Some; congruence).
  destruct (first_change g In1 Mid X tr j sB HX Hlen HB (j - i) i sA) as [|(k & s1 & Hk & Xk & Hs1 & Hmid)];
    [lia | exact HA | exact H1 | contradiction |].
  destruct (first_change g Out2 _ Y tr j sB HY Hlen HB (j - S k) (S k) s1) as [|(m & _ & Hm & Ym & _)];
    [lia | exact Hs1 | apply HM, Hmid | contradiction |].
  assert (i <> k) by (intros ->; unfold accesses in Hacc; congruence).
  apply hb_trans with k; [eapply hb_po; eauto; lia|].
  apply hb_trans with m; [apply Hsync; auto; lia | eapply hb_po; eauto; lia].
Qed.

(* two sections of the same lock by different threads, at least one of them a write
   section, are ordered *)
Lemma sections_ordered_ww : forall tr i j e1 e2 x g,
  i < j -> nth_error tr i = Some e1 -> nth_error tr j = Some e2 ->
  accesses e1 x -> thr e1 <> thr e2 ->
  holds tr i (thr e1) g -> holds tr j (thr e2) g -> hb tr i j.
Proof.
  intros tr i j e1 e2 x g Hij Hi Hj Hacc Hthr (sA & HrA & HA) (sB & HrB & HB).
  apply (sections_ordered tr g _ _ _ _ _ i j e1 e2 x sA sB (write_section_left g (thr e1)) (write_section_entered g (thr e2)));
    auto.
  - intros v ->. discriminate.
  - intros k m Hkm Hk Hm. eapply hb_sync; eauto.
  - split; [eapply at_pos_ok; eauto | exact HA].
  - intros [_ F]. congruence.
Qed.

Lemma sections_ordered_wr : forall tr i j e1 e2 x g,
  i < j -> nth_error tr i = Some e1 -> nth_error tr j = Some e2 ->
  accesses e1 x ->
  holds tr i (thr e1) g -> holds_r tr j (thr e2) g -> hb tr i j.
Proof.
  intros tr i j e1 e2 x g Hij Hi Hj Hacc (sA & HrA & HA) (sB & HrB & HB).
  apply (sections_ordered tr g _ _ _ _ _ i j e1 e2 x sA sB (write_section_left g (thr e1)) (read_section_entered g (thr e2)));
    auto.
  - intros v ->. exact (fun F => F).
  - intros k m Hkm Hk Hm. eapply hb_sync_wr; eauto.
  - split; [eapply at_pos_ok; eauto | exact HA].
  - intros [Hok F]. rewrite Hok in HB by congruence. exact HB.
Qed.

Lemma sections_ordered_rw : forall tr i j e1 e2 x g,
  i < j -> nth_error tr i = Some e1 -> nth_error tr j = Some e2 ->
  accesses e1 x ->
  holds_r tr i (thr e1) g -> holds tr j (thr e2) g -> hb tr i j.
Proof.
  intros tr i j e1 e2 x g Hij Hi Hj Hacc (sA & HrA & HA) (sB & HrB & HB).
  apply (sections_ordered tr g _ _ _ _ _ i j e1 e2 x sA sB (read_section_left g (thr e1)) (write_section_entered g (thr e2)));
    auto.
  - intros v F. congruence.
  - intros k m Hkm Hk Hm. eapply hb_sync_rw; eauto.
  - split; [eapply at_pos_ok; eauto | exact HA].
  - intros [Hok F]. rewrite Hok in F by congruence. exact F.
Qed.

Lemma init_is_main : forall tr i e,
  wf_threads tr -> init_at tr i -> nth_error tr i = Some e -> thr e = main_thread.
Proof.
  intros tr i e Hwf Hinit Hi.
  destruct (Nat.eq_dec (thr e) main_thread) as [|Hne]; auto.
  destruct (Hwf i e Hi Hne) as (k & t0 & Hk & Hf).
  assert (Hc : is_fork (Fork t0 (thr e)) = false) by (apply (Hinit k); [lia|exact Hf]).
  cbn in Hc. discriminate.
Qed.

Lemma init_before_all : forall tr i e1,
  wf_threads tr -> init_at tr i -> nth_error tr i = Some e1 ->
  forall j e2, i < j -> nth_error tr j = Some e2 -> hb tr i j.
Proof.
  intros tr i e1 Hwf Hinit Hi j.
  induction j as [j IH] using lt_wf_ind. intros e2 Hij Hj.
  destruct (Nat.eq_dec (thr e2) main_thread) as [Hm|Hne].
  - eapply hb_po; eauto. rewrite Hm. eapply init_is_main; eauto.
  - destruct (Hwf j e2 Hj Hne) as (k & t0 & Hkj & Hf).
    assert (Hik : i < k).
    { destruct (le_lt_dec k i) as [Hle|]; auto.
      assert (Hc : is_fork (Fork t0 (thr e2)) = false) by (apply (Hinit k); auto).
      cbn in Hc. discriminate. }
    apply hb_trans with k.
    + eapply IH; eauto.
    + eapply hb_fork; eauto.
Qed.

Lemma init_at_mono : forall tr i j, i <= j -> init_at tr j -> init_at tr i.
Proof. intros tr i j Hij H k e Hk. apply H. lia. Qed.

(* no premise on the lock operations of the whole trace: `holds` / `holds_r` at a position already say
   that the trace runs up to there, and nothing behind the later access matters.  [lockset_drf] below is
   the same statement with the premise [wf_locks tr], which Properties/C20.v carries and the proof ignores. *)
Theorem lockset_race_free : forall tr,
  wf_threads tr -> forall x, disciplined tr x -> race_free_on tr x.
Proof.
  intros tr Hwt x Hd i j e1 e2 Hij Hi Hj (Ha1 & Ha2 & Hthr & Hw & Hat).
  (* an access of the initialisation phase at i, or at j, settles the matter *)
  assert (Hinit_i : init_at tr i -> hb tr i j).
  { intros Hin. apply (init_before_all tr i e1 Hwt Hin Hi j e2 Hij Hj). }
  assert (Hinit_j : init_at tr j -> hb tr i j).
  { intros Hin. exfalso. apply Hthr.
    rewrite (init_is_main tr j e2 Hwt Hin Hj).
    apply (init_is_main tr i e1 Hwt); auto. eapply init_at_mono; [|exact Hin]. apply Nat.lt_le_incl, Hij. }
  destruct Hd as [HA|[(g & HB)|HC]].
  - destruct (HA i e1 Hi Ha1) as [|At1]; auto.
    destruct (HA j e2 Hj Ha2) as [|At2]; auto.
    destruct Hat as [F|F]; congruence.
  - destruct (HB i e1 Hi Ha1) as [|[W1|[R1 H1]]]; auto;
    destruct (HB j e2 Hj Ha2) as [|[W2|[R2 H2]]]; auto.
    + eapply sections_ordered_ww; eauto.
    + eapply sections_ordered_wr; eauto.
    + eapply sections_ordered_rw; eauto.
    + (* two plain reads inside read sections: not a conflict *)
      rewrite (read_only_not_write e1 R1), (read_only_not_write e2 R2) in Hw. destruct Hw; discriminate.
  - destruct (HC i e1 Hi Ha1) as [|R1]; auto.
    destruct (HC j e2 Hj Ha2) as [|R2]; auto.
    rewrite (read_only_not_write e1 R1), (read_only_not_write e2 R2) in Hw. destruct Hw; discriminate.
Qed.

Theorem lockset_drf : forall tr,
  wf_locks tr -> wf_threads tr ->
  forall x, disciplined tr x -> race_free_on tr x.
Proof. intros tr _. apply lockset_race_free. Qed.

Lemma mem_str_In : forall g l, mem_str g l = true <-> In g l.
Proof.
  intros g l. unfold mem_str. rewrite existsb_exists. split.
  - intros (y & Hy & He). apply String.eqb_eq in He. now subst.
  - intros H. exists g. split; auto. apply String.eqb_refl.
Qed.

Lemma nodup_str_In : forall l a, In a (nodup_str l) <-> In a l.
Proof.
  induction l as [|b l IH]; intros a; cbn; [tauto|].
  destruct (mem_str b l) eqn:Hb.
  - rewrite IH. split; auto. intros [->|]; auto. now apply mem_str_In.
  - cbn. rewrite IH. tauto.
Qed.

Lemma live_rows_In : forall f tbl r,
  In r (live_rows f tbl) <-> In r tbl /\ field r = f /\ kind_is_init (kind r) = false.
Proof.
  intros f tbl r. unfold live_rows. rewrite filter_In, andb_true_iff, negb_true_iff, String.eqb_eq. tauto.
Qed.

Lemma common_locks_held : forall rows g r,
  In g (common_locks rows) -> In r rows -> In g (held r).
Proof.
  intros rows g r Hg Hr. destruct rows as [|r0 rs]; [contradiction|].
  cbn in Hg. apply filter_In in Hg. destruct Hg as [Hg0 Hall].
  destruct Hr as [<-|Hr]; auto.
  rewrite forallb_forall in Hall. apply mem_str_In. now apply Hall.
Qed.

Lemma not_rname_strip : forall g, is_rname g = false -> strip_R g = g.
Proof. intros g H. unfold is_rname in H. apply negb_false_iff in H. now apply String.eqb_eq. Qed.

Section Soundness.
  Variable field_of : loc -> string.
  Variable inst : loc -> string -> lock.

  (* outside the initialisation phase an access is an instance of a live row of its field *)
  Lemma respects_live_row : forall tbl tr i e x,
    respects field_of inst tbl tr -> nth_error tr i = Some e -> accesses e x ->
    init_at tr i \/ exists r, In r (live_rows (field_of x) tbl) /\ kind_matches tr i e (kind r) /\
                              forall g, In g (held r) -> name_held tr i (thr e) (inst x) g.
  Proof.
    intros tbl tr i e x Hres Hi Ha. destruct (Hres i e x Hi Ha) as (r & Hr & Hf & Hk & Hh).
    destruct (kind_is_init (kind r)) eqn:Hki.
    - left. destruct (kind r); try discriminate. exact Hk.
    - right. exists r. split; [apply live_rows_In; auto | auto].
  Qed.

  (* discipline_ok on the table gives the dynamic discipline for every location of every
     trace that respects the table *)
  Theorem discipline_sound : forall tbl,
    discipline_ok tbl = true ->
    forall tr, respects field_of inst tbl tr -> forall x, disciplined tr x.
  Proof.
    intros tbl Hok tr Hres x.
    destruct (in_dec string_dec (field_of x) (fields_of tbl)) as [Hin|Hnin].
    - unfold discipline_ok in Hok. rewrite forallb_forall in Hok.
      specialize (Hok _ Hin). unfold field_ok in Hok. rewrite !orb_true_iff, !forallb_forall in Hok.
      destruct Hok as [[Hat|Hrd]|Hlk].
      + left. intros i e Hi Ha.
        destruct (respects_live_row tbl tr i e x Hres Hi Ha) as [|(r & Hl & Hk & _)]; [now left|].
        right. specialize (Hat r Hl). destruct (kind r); try discriminate. exact Hk.
      + right; right. intros i e Hi Ha.
        destruct (respects_live_row tbl tr i e x Hres Hi Ha) as [|(r & Hl & Hk & _)]; [now left|].
        right. specialize (Hrd r Hl). destruct (kind r); try discriminate. exact Hk.
      + right; left.
        apply existsb_exists in Hlk. destruct Hlk as (g0 & Hg0 & Hgd).
        unfold guards in Hgd. apply andb_true_iff in Hgd. destruct Hgd as [Hbase Hrows].
        apply negb_true_iff in Hbase. rewrite forallb_forall in Hrows.
        exists (inst x (strip_R g0)). intros i e Hi Ha.
        destruct (respects_live_row tbl tr i e x Hres Hi Ha) as [|(r & Hl & Hk & Hh)]; [now left|].
        right.
        assert (Hg0r : In g0 (held r)) by (eapply common_locks_held; eauto).
        specialize (Hrows r Hl). apply orb_true_iff in Hrows. destruct Hrows as [Hrd|Hw].
        * (* a plain-read row: the common lock, in the mode its name says *)
          assert (Hro : is_read_only e = true) by (destruct (kind r); try discriminate; exact Hk).
          specialize (Hh g0 Hg0r). unfold name_held in Hh.
          destruct (is_rname g0) eqn:Hrn.
          -- destruct Hh as [Hw|Hrm]; [now left | right; split; auto].
          -- left. rewrite (not_rname_strip g0 Hrn). exact Hh.
        * (* any other row lists the base name: write mode *)
          apply mem_str_In in Hw. specialize (Hh (strip_R g0) Hw). unfold name_held in Hh.
          rewrite Hbase in Hh. now left.
    - (* no row for this field: a trace that respects the table never touches x *)
      left. intros i e Hi Ha. exfalso.
      destruct (Hres i e x Hi Ha) as (r & Hr & Hf & _).
      apply Hnin. unfold fields_of. apply nodup_str_In. rewrite <- Hf. now apply in_map.
  Qed.

  (* the two together: what a passing table means *)
  Corollary table_gives_race_freedom : forall tbl,
    discipline_ok tbl = true ->
    forall tr, wf_threads tr -> respects field_of inst tbl tr ->
    forall x, race_free_on tr x.
  Proof.
    intros tbl Hok tr Hwt Hres x.
    apply lockset_race_free; auto. eapply discipline_sound; eauto.
  Qed.

  Lemma opt_tid_is_spec : forall o t, opt_tid_is o t = true <-> o = Some t.
  Proof.
    intros [t'|] t; cbn; [|split; discriminate]. rewrite Nat.eqb_eq. split; congruence.
  Qed.

  Lemma name_held_of_b : forall tr k s t x g,
    at_pos tr k s -> name_heldb s t (inst x) g = true -> name_held tr k t (inst x) g.
  Proof.
    intros tr k s t x g Hs Hb. unfold name_heldb in Hb. unfold name_held.
    destruct (is_rname g).
    - apply orb_true_iff in Hb. destruct Hb as [Hb|Hb]; [left | right]; exists s; split; auto.
      + now apply opt_tid_is_spec.
      + now apply mem_tid_In.
    - exists s. split; auto. now apply opt_tid_is_spec.
  Qed.

  (* the checker has reached position k of tr in lock state s: every event from k on is of the main or
     of an already forked thread and, if it is an access, an instance of a row whose locks are held *)
  Lemma check_sound_gen : forall tbl tr q k s init forked,
    skipn k tr = q -> at_pos tr k s ->
    (init = true -> forall m e, m < k -> nth_error tr m = Some e -> is_fork e = false) ->
    (forall t, In t forked -> exists m t0, m < k /\ nth_error tr m = Some (Fork t0 t)) ->
    check field_of inst tbl q s init forked = true ->
    wf_locks tr /\
    forall i e, k <= i -> nth_error tr i = Some e ->
      (thr e <> main_thread -> exists m t0, m < i /\ nth_error tr m = Some (Fork t0 (thr e))) /\
      (forall x, accesses e x ->
         exists r, In r tbl /\ field r = field_of x /\ kind_matches tr i e (kind r) /\
                   forall g, In g (held r) -> name_held tr i (thr e) (inst x) g).
  Proof.
    intros tbl tr q. induction q as [|e q IH]; intros k s init forked Hq Hs Hinit Hforked Hc.
    - assert (Hlen : length tr <= k).
      { destruct (Nat.le_gt_cases (length tr) k) as [|Hlt]; auto.
        apply (f_equal (@length _)) in Hq. rewrite skipn_length in Hq. cbn in Hq. lia. }
      split; [exists s; unfold at_pos in Hs; now rewrite firstn_all2 in Hs|].
      intros i e Hle Hn. apply (Nat.le_trans _ _ _ Hlen), nth_error_None in Hle. congruence.
    - destruct (skipn_cons_nth _ tr k e q Hq) as [Hn Hq'].
      cbn [check] in Hc. apply andb_true_iff in Hc. destruct Hc as [Hc Hstep].
      apply andb_true_iff in Hc. destruct Hc as [Hthr Hrow].
      destruct (step s e) as [s1|] eqn:Hst; [|discriminate].
      set (init' := init && negb (is_fork e)) in *.
      assert (Hinit1 : init' = true -> forall m e', m < S k -> nth_error tr m = Some e' -> is_fork e' = false).
      { unfold init'. intros H m e' Hm He'. apply andb_true_iff in H. destruct H as [H1 H2]. apply negb_true_iff in H2.
        apply (proj1 (Nat.lt_succ_r m k)), Nat.lt_eq_cases in Hm. destruct Hm as [Hm| ->]; [apply (Hinit H1 m); auto | congruence]. }
      set (forked' := match e with Fork _ t' => t' :: forked | _ => forked end) in *.
      destruct (IH (S k) s1 init' forked' Hq') as (Hwf & Hrest); auto.
      { unfold at_pos. now rewrite (at_pos_S tr k s e Hs Hn). }
      { intros t Hin. unfold forked' in Hin. assert (Hold : In t forked -> exists m t0, m < S k /\ nth_error tr m = Some (Fork t0 t)).
        { intros Ho. destruct (Hforked t Ho) as (m & t0 & Hm & Hnm). exists m, t0. split; [apply Nat.lt_lt_succ_r, Hm | exact Hnm]. }
        destruct e as [a l|a l|a l|a l|a y|a y|a y|a b]; auto.
        destruct Hin as [<-|Hin]; auto. exists k, a. auto. }
      split; [exact Hwf|]. intros i e' Hle Hi.
      apply Nat.lt_eq_cases in Hle. destruct Hle as [Hlt| <-]; [apply Hrest; auto|].
      (* the event at k *)
      rewrite Hn in Hi. injection Hi as <-. split.
      + intros Hnm. apply orb_true_iff in Hthr. destruct Hthr as [Hm|Hm].
        * apply Nat.eqb_eq in Hm. contradiction.
        * apply mem_tid_In in Hm. apply Hforked, Hm.
      + intros x Hacc. unfold accesses in Hacc. rewrite Hacc in Hrow.
        apply existsb_exists in Hrow. destruct Hrow as (r & Hr & Hok).
        unfold row_okb in Hok. apply andb_true_iff in Hok. destruct Hok as [Hok Hheld].
        apply andb_true_iff in Hok. destruct Hok as [Hf Hk]. apply String.eqb_eq in Hf.
        exists r. split; auto. split; auto. split.
        * destruct (kind r); cbn in Hk |- *; auto.
          intros m e' Hm. apply (Hinit1 Hk), Nat.lt_succ_r, Hm.
        * intros g Hg. rewrite forallb_forall in Hheld. eapply name_held_of_b; eauto.
  Qed.

  Theorem check_sound : forall tbl tr,
    check_trace field_of inst tbl tr = true ->
    wf_locks tr /\ wf_threads tr /\ respects field_of inst tbl tr.
  Proof.
    intros tbl tr H. unfold check_trace in H.
    destruct (check_sound_gen tbl tr tr 0 st0 true [] eq_refl eq_refl) as (Hwf & Hrest); auto.
    - intros _ m e Hm. lia.
    - intros t [].
    - split; [exact Hwf|]. split.
      + intros j e Hn. apply (Hrest j e); auto. lia.
      + intros i e x Hn. apply (Hrest i e); auto. lia.
  Qed.
End Soundness.

Lemma failing_fields_nil : forall tbl, failing_fields tbl = [] <-> discipline_ok tbl = true.
Proof.
  intros tbl. unfold failing_fields, discipline_ok. generalize (fields_of tbl) as fs.
  induction fs as [|f fs IH]; cbn; [tauto|].
  destruct (field_ok f tbl); cbn.
  - exact IH.
  - split; discriminate.
Qed.

Lemma failing_fields_cons : forall tbl f l, failing_fields tbl = f :: l -> discipline_ok tbl = false.
Proof.
  intros tbl f l H. destruct (discipline_ok tbl) eqn:E; [|reflexivity]. apply failing_fields_nil in E. congruence.
Qed.
