(* ProxySessionLiveProofs.v — the general form of "it polls again with full capacity" for the proxy
   session machine (Model/ProxySession.v, repaired code V1): slot accounting at EVERY reachable state
   (not only when all sessions have ended), when the poll loop is enabled, and that no session can
   sit on a slot with nothing left to run.

   occupied = sessions whose get completed and that have not finished their ret
            = in_use (ret not called) + releasing (ret called, channel receive still to come). *)
From Coq Require Import List ZArith Arith Bool Lia.
From Snow Require Import Model.Tokens Model.TokensConc Proofs.TokensConcProofs Model.ProxySession Proofs.ProxySessionProofs.
Import ListNotations.
Local Open Scope nat_scope.

Definition releasing (st : state) : nat := tot pend st + mpend (mn st).
Definition occupied (st : state) : nat := in_use st + releasing st.
Definition free_slots (N : nat) (st : state) : nat := N - occupied st.

Lemma inv_occupied : forall N st, N <> 0 -> Inv N st ->
  chlen (tok st) = occupied st /\ occupied st <= N /\ free_slots N st + occupied st = N.
Proof.
  intros N st HN I. destruct (inv_ch _ _ I HN) as [E L]. unfold free_slots, occupied, releasing.
  rewrite in_use_tot. lia.
Qed.

Lemma inv_count : forall N st, Inv N st -> count (tok st) = (Z.of_nat (in_use st) + mget (mn st))%Z.
Proof. intros N st I. unfold count. rewrite in_use_tot. apply (inv_tok _ _ I). Qed.

(* the second half of get (the channel send) is enabled exactly when a slot is free *)
Lemma inv_send_ready_iff : forall N st, N <> 0 -> Inv N st ->
  (send_ready (tok st) = true <-> 0 < free_slots N st).
Proof.
  intros N st HN I. destruct (inv_occupied _ _ HN I) as (E & L & F). unfold send_ready.
  rewrite (inv_cap _ _ I). destruct (Nat.eqb_spec N 0) as [|_]; [contradiction|]. cbn [orb].
  rewrite Nat.ltb_lt. unfold free_slots in *. lia.
Qed.

(* the loop head: get's first half is always enabled; its second half iff a slot is free; when it
   goes through, the loop polls and exactly one more slot is in use *)
Lemma inv_poll_loop : forall N st, Inv N st -> mn st = MTop ->
  exists st1, step V1 st LGet = Some st1 /\ mn st1 = MGetSend /\ in_use st1 = in_use st /\
              releasing st1 = releasing st /\
              ((N = 0 \/ 0 < free_slots N st) ->
                 exists st2, step V1 st1 LGetSend = Some st2 /\ mn st2 = MPoll /\
                             in_use st2 = in_use st + 1 /\ releasing st2 = releasing st /\
                             gets st2 = S (gets st)) /\
              (N <> 0 -> free_slots N st = 0 -> step V1 st1 LGetSend = None).
Proof.
  intros N st I Hm. assert (Hcap := inv_cap _ _ I). assert (Hcur := inv_cur _ _ I).
  destruct st as [t m b cu ps g]. cbn [tok mn bg cur polls gets] in *. subst m.
  destruct cu as [c|]; [discriminate (cur_ok_idle _ _ Hcur)|].
  eexists. split; [reflexivity|]. split; [reflexivity|].
  unfold in_use, releasing, tot, sessions, set_mn, set_tok. cbn [tok mn bg cur polls gets mpend].
  split; [reflexivity|]. split; [reflexivity|].
  (* the counter's half of get leaves the channel alone *)
  assert (SRiff : N <> 0 -> (send_ready (tok_inc t) = true <-> 0 < free_slots N (mkSt t MTop b None ps g))).
  { intros HN. exact (inv_send_ready_iff N _ HN I). }
  split.
  - intros Hfree. cbn [step mn tok].
    assert (SR : send_ready (tok_inc t) = true).
    { destruct (Nat.eq_dec N 0) as [E0|HN].
      - unfold send_ready. cbn [tok_inc cap]. rewrite Hcap, E0. reflexivity.
      - apply SRiff; [exact HN|]. destruct Hfree; [contradiction|assumption]. }
    rewrite SR. eexists. split; [reflexivity|]. cbn [mn bg cur gets]. split; [reflexivity|].
    rewrite !app_nil_r, sum_map_app. cbn. split; [lia|]. split; reflexivity.
  - intros HN Hz. cbn [step mn tok].
    pose proof (SRiff HN) as [S1 _].
    destruct (send_ready (tok_inc t)); [specialize (S1 eq_refl); lia | reflexivity].
Qed.

(* after all sessions have ended the loop head finds every slot free *)
Lemma inv_polls_again : forall N st, Inv N st -> all_terminated st = true -> mn st = MTop ->
  exists st1 st2, step V1 st LGet = Some st1 /\ step V1 st1 LGetSend = Some st2 /\
                  mn st2 = MPoll /\ in_use st2 = 1.
Proof.
  intros N st I Ht Hm. destruct (inv_all_terminated _ _ I Ht) as (Hu & _ & Hch & _).
  destruct (inv_poll_loop _ _ I Hm) as (st1 & S1 & _ & _ & _ & Hgo & _).
  destruct Hgo as (st2 & S2 & M2 & U2 & _).
  { destruct (Nat.eq_dec N 0) as [|HN]; [left; assumption | right].
    destruct (inv_occupied _ _ HN I) as (E & _ & F). rewrite (Hch HN) in E. lia. }
  exists st1, st2. rewrite U2, Hu. auto.
Qed.

Lemma nth_error_upd_eq : forall A (l : list A) i (f : A -> A) c,
  nth_error l i = Some c -> nth_error (upd i f l) i = Some (f c).
Proof.
  induction l as [|x l IH]; intros [|k] f c H; cbn in *; try discriminate.
  - inversion H; subst. reflexivity.
  - apply IH. exact H.
Qed.

Lemma nth_error_upd_neq : forall A (l : list A) i j (f : A -> A), i <> j -> nth_error (upd j f l) i = nth_error l i.
Proof. induction l as [|x l IH]; intros [|i] [|j] f H; cbn; auto; congruence. Qed.

Lemma run_cons : forall v st l ls,
  run v st (l :: ls) = match step v st l with Some st' => run v st' ls | None => None end.
Proof. reflexivity. Qed.

Lemma run_app : forall v tr1 tr2 st st1, run v st tr1 = Some st1 -> run v st (tr1 ++ tr2) = run v st1 tr2.
Proof.
  induction tr1 as [|l tr1 IH]; intros tr2 st st1 H; cbn in *.
  - inversion H; subst. reflexivity.
  - destruct (step v st l); [|discriminate]. apply IH. exact H.
Qed.

Lemma chlen_recv : forall t, cap t <> 0 -> recv_ready t = true -> S (chlen (tok_recv t)) = chlen t.
Proof. intros t Hc Hr. destruct (chlen_apply t MRecv Hc Hr) as [E _]. cbn [micro_apply net_h] in E. lia. Qed.

(* the steps the handler goroutine of a session still has to take to give the slot back; they are
   its own steps only: nothing is asked of the loop, of another session, of the peer - or of the RELAY:
   while the relay is being dialled the path takes the handshake timer (HDialTimer), never an answer of
   the relay (HDialOk / HDialFail) *)
Definition handler_path (i : nat) (c : sess) : list label :=
  match hp c with
  | HStart => [LH i HClaim; LH i HDialTimer; LH i HRecv]
  | HDial => [LH i HDialTimer; LH i HRecv]
  | HRun => [LH i HEnd; LH i HRecv]
  | HRetRecv => [LH i HRecv]
  | _ => []
  end.

Definition own_handler_step (i : nat) (l : label) : Prop := exists a, l = LH i a.

Lemma handler_path_own : forall i c, Forall (own_handler_step i) (handler_path i c).
Proof.
  intros i c. unfold handler_path. destruct (hp c); repeat constructor; eexists; reflexivity.
Qed.

Lemma handler_path_short : forall i c, length (handler_path i c) <= 3.
Proof. intros i c. unfold handler_path. destruct (hp c); cbn; lia. Qed.

(* what the steps of the handler of background session i leave alone, and what they do to the slots in use *)
Definition bg_moved (i : nat) (st st' : state) (c c' : sess) : Prop :=
  nth_error (bg st') i = Some c' /\ mn st' = mn st /\ cur st' = cur st /\ length (bg st') = length (bg st) /\
  in_use st' + holds c = in_use st + holds c'.

Lemma bg_moved_trans : forall i st st1 st2 c c1 c2,
  bg_moved i st st1 c c1 -> bg_moved i st1 st2 c1 c2 -> bg_moved i st st2 c c2.
Proof. intros i st st1 st2 c c1 c2 (_ & M1 & C1 & L1 & U1) (N2 & M2 & C2 & L2 & U2). repeat split; try congruence. lia. Qed.

Lemma bg_step : forall v st i c a c' t', nth_error (bg st) i = Some c -> hstep v a (tok st) c = Some (c', t') ->
  exists st', step v st (LH i a) = Some st' /\ tok st' = t' /\ bg_moved i st st' c c'.
Proof.
  intros v st i c a c' t' Hn Hs. cbn [step]. rewrite Hn, Hs. eexists. split; [reflexivity|]. split; [reflexivity|].
  unfold bg_moved, set_tok, set_bg. cbn [tok bg cur mn]. rewrite (nth_error_upd_eq _ _ _ _ _ Hn), length_upd.
  repeat split. rewrite !in_use_tot. unfold tot. cbn [bg cur].
  destruct (sum_upd holds _ _ _ Hn) as (r & E & E'). rewrite E, E'. lia.
Qed.

Definition handler_done : sess := mkSess HDone true OHandler false true.

(* the channel receive that ends a handler's ret *)
Lemma release_recv : forall N st i, Inv N st -> nth_error (bg st) i = Some (mkSess HRetRecv true OHandler false true) ->
  exists st', run V1 st [LH i HRecv] = Some st' /\ bg_moved i st st' (mkSess HRetRecv true OHandler false true) handler_done /\
    (N <> 0 -> S (chlen (tok st')) = chlen (tok st)).
Proof.
  intros N st i I Hn.
  assert (R : recv_ready (tok st) = true).
  { apply (inv_ret_never_blocks N st I). right. eexists.
    split; [unfold sessions; apply in_or_app; left; eapply nth_error_In; exact Hn | reflexivity]. }
  destruct (bg_step V1 st i _ HRecv handler_done (tok_recv (tok st)) Hn) as (st' & S & T & B).
  { cbn [hstep hp]. rewrite R. reflexivity. }
  exists st'. rewrite run_cons, S. split; [reflexivity|]. split; [exact B|].
  intros HN. rewrite T. apply chlen_recv; [rewrite (inv_cap _ _ I); exact HN | exact R].
Qed.

(* a handler that still holds the slot: the step by which it calls ret, then the receive *)
Lemma release_ret : forall N st i c a, Inv N st -> nth_error (bg st) i = Some c ->
  hstep V1 a (tok st) c = Some (mkSess HRetRecv true OHandler false true, tok_dec (tok st)) ->
  exists st', run V1 st [LH i a; LH i HRecv] = Some st' /\ bg_moved i st st' c handler_done /\
    (N <> 0 -> S (chlen (tok st')) = chlen (tok st)).
Proof.
  intros N st i c a I Hn Hs. destruct (bg_step V1 st i c a _ _ Hn Hs) as (st1 & S1 & T1 & B1).
  destruct (release_recv N st1 i (Inv_step _ _ _ _ I S1) (proj1 B1)) as (st' & R & B & Ch).
  exists st'. rewrite run_cons, S1. split; [exact R|]. split; [exact (bg_moved_trans _ _ _ _ _ _ _ B1 B)|].
  intros HN. rewrite (Ch HN), T1. reflexivity.
Qed.

(* a background session (runSession has returned from it) that still occupies a slot *)
Lemma bg_release_path : forall N st i c, Inv N st ->
  nth_error (bg st) i = Some c -> holds c + pend c = 1 ->
  handler_path i c <> [] /\
  exists st', run V1 st (handler_path i c) = Some st' /\ bg_moved i st st' c handler_done /\
    (N <> 0 -> S (chlen (tok st')) = chlen (tok st)).
Proof.
  intros N st i c I Hn Hocc. unfold handler_path.
  destruct (inv_bg_nth _ _ _ _ I Hn) as [|c []|c []]; try discriminate; cbn [hp]; (split; [discriminate|]).
  - (* not yet claimed: the claim, then as from the dial *)
    destruct (bg_step V1 st i _ HClaim _ _ Hn eq_refl) as (st1 & S1 & T1 & B1).
    destruct (release_ret N st1 i _ HDialTimer (Inv_step _ _ _ _ I S1) (proj1 B1) eq_refl) as (st' & R & B & Ch).
    exists st'. rewrite run_cons, S1. split; [exact R|]. split; [exact (bg_moved_trans _ _ _ _ _ _ _ B1 B)|].
    intros HN. rewrite (Ch HN), T1. reflexivity.
  - (* the relay is being dialled: the handshake timer *) exact (release_ret N st i _ HDialTimer I Hn eq_refl).
  - exact (release_ret N st i _ HEnd I Hn eq_refl).
  - exact (release_recv N st i I Hn).
Qed.

(* the steps of the Start goroutine that end runSession from any stage without the peer's help: the
   broker's error answer where one is awaited, the 20 s timer where the data channel is awaited *)
Definition give_up_tail (o : owner) : list label :=
  match o with OHandler => [LGiveUp] | _ => [LGiveUp; LClose; LMainRecv] end.

Definition main_exit (m : mpc) (o : owner) : list label :=
  match m with
  | MPoll => [LPollNil; LMainRecv]
  | MRelay => [LRelayBad; LMainRecv]
  | MMakePC => [LPcFail; LMainRecv]
  | MAnswer => LAnswerFail :: give_up_tail o
  | MSelect => LSelectTimeout :: give_up_tail o
  | MGiveUp => give_up_tail o
  | MClosing => [LClose; LMainRecv]
  | MRetRecv => [LMainRecv]
  | _ => []
  end.

Definition main_step (l : label) : bool :=
  match l with LH _ _ | LDcOpen | LGet | LGetSend | LStop => false | _ => true end.

Lemma main_exit_main : forall m o, forallb main_step (main_exit m o) = true.
Proof. intros m o. destruct m, o; reflexivity. Qed.

Lemma main_exit_short : forall m o, length (main_exit m o) <= 4.
Proof. intros m o. destruct m, o; cbn; lia. Qed.

Lemma main_exit_nonempty : forall m o, idle m = false -> main_exit m o <> [].
Proof. intros m o. destruct m, o; discriminate. Qed.

(* runSession has returned and session c, now c', is in the background: the slot was given back by runSession, or is
   left to the handler that claimed the session *)
Definition exits (N : nat) (st : state) (path : list label) (c : sess) : Prop :=
  exists st' c', run V1 st path = Some st' /\ mn st' = MTop /\ cur st' = None /\ bg st' = bg st ++ [c'] /\
    ((own c <> OHandler /\ given_up true c' /\ (N <> 0 -> S (chlen (tok st')) = chlen (tok st)))
     \/ (own c = OHandler /\ c' = c /\ tok st' = tok st)).

Lemma exit_recv : forall N st c, Inv N st -> mn st = MRetRecv -> cur st = Some c -> exits N st [LMainRecv] c.
Proof.
  intros N st c I M C. assert (R := inv_ret_never_blocks N st I (or_introl M)).
  assert (G : given_up true c).
  { pose proof (inv_cur _ _ I) as K. rewrite C, M in K. inversion K; subst; try discriminate. assumption. }
  eexists. exists c. rewrite run_cons. cbn [step]. rewrite M, R. split; [reflexivity|].
  cbn [finish set_tok mn cur bg tok]. rewrite C. repeat split. left.
  split; [destruct G; discriminate|]. split; [exact G|].
  intros HN. apply chlen_recv; [rewrite (inv_cap _ _ I); exact HN | exact R].
Qed.

(* runSession calls ret (after pollOffer has recorded its figure, at MPoll) and receives *)
Lemma exit_ret : forall N st l c, Inv N st -> cur st = Some c -> ret_stage (mn st) = true ->
  step V1 st l = main_ret st \/ step V1 st l = main_ret (record_poll st) -> exits N st [l; LMainRecv] c.
Proof.
  intros N st l c I C Hr Hs.
  destruct (cur_ok_ret (mn st) c) as (O & _); [pose proof (inv_cur _ _ I) as K; rewrite C in K; exact K | exact Hr |].
  assert (S1 : exists ps, step V1 st l = Some (mkSt (tok_dec (tok st)) MRetRecv (bg st)
                                                 (Some (mkSess (hp c) (dc c) OMain true (hrel c))) ps (gets st))).
  { destruct Hs as [->| ->]; unfold main_ret; cbn [record_poll cur tok bg polls gets]; rewrite C; eexists; reflexivity. }
  destruct S1 as (ps & S1).
  destruct (exit_recv N _ _ (Inv_step _ _ _ _ I S1) eq_refl eq_refl) as (st' & c' & R & M' & C' & B' & [(_ & G' & Ch)|(O' & _)]);
    [|discriminate].
  exists st', c'. rewrite run_cons, S1. repeat (split; [assumption|]). left. auto.
Qed.

(* a step before the exit path that leaves the tokens, the session and the background sessions as they are *)
Lemma exits_stage : forall N st l m' path c, step V1 st l = Some (set_mn st m') ->
  exits N (set_mn st m') path c -> exits N st (l :: path) c.
Proof. intros N st l m' path c S (st' & c' & R & rest). exists st', c'. rewrite run_cons, S. exact (conj R rest). Qed.

(* runSession gives up: it finds the session claimed and leaves the slot to the handler, or takes the session, closes
   the peer connection and releases *)
Lemma exit_giveup : forall N st c, Inv N st -> mn st = MGiveUp -> cur st = Some c -> exits N st (give_up_tail (own c)) c.
Proof.
  intros N st c I M C.
  assert (S : step V1 st LGiveUp =
              match own c with
              | OHandler => Some (finish st)
              | _ => Some (set_mn (set_cur st (mkSess (hp c) (dc c) OMain (mrel c) (hrel c))) MClosing)
              end) by (cbn [step]; rewrite M, C; destruct (own c); reflexivity).
  assert (Other : own c <> OHandler ->
            step V1 st LGiveUp = Some (set_mn (set_cur st (mkSess (hp c) (dc c) OMain (mrel c) (hrel c))) MClosing) ->
            exits N st [LGiveUp; LClose; LMainRecv] c).
  { intros Ho S1.
    destruct (exit_ret N _ LClose _ (Inv_step _ _ _ _ I S1) eq_refl eq_refl (or_introl eq_refl))
      as (st' & c' & R & M' & C' & B' & [(_ & G & Ch)|(O' & _)]); [|discriminate].
    exists st', c'. rewrite run_cons, S1. repeat (split; [assumption|]). left. repeat split; assumption. }
  destruct (own c) eqn:O; cbn [give_up_tail].
  - (* ONone *) apply Other; [discriminate | exact S].
  - (* OMain *) apply Other; [discriminate | exact S].
  - (* OHandler: the slot is left to the handler *)
    exists (finish st), c. rewrite run_cons, S. cbn [finish mn cur bg tok]. rewrite C, O. auto 10.
Qed.

Lemma cur_exit_path : forall N st c, Inv N st -> cur st = Some c -> exits N st (main_exit (mn st) (own c)) c.
Proof.
  intros N st c I C. pose proof (inv_cur _ _ I) as K. rewrite C in K. apply cur_ok_idle in K.
  destruct (mn st) eqn:M; try discriminate; cbn [main_exit].
  - apply exit_ret; [exact I | exact C | rewrite M; reflexivity | right; cbn [step]; rewrite M; reflexivity].
  - apply exit_ret; [exact I | exact C | rewrite M; reflexivity | left; cbn [step]; rewrite M; reflexivity].
  - apply exit_ret; [exact I | exact C | rewrite M; reflexivity | left; cbn [step]; rewrite M; reflexivity].
  - assert (S : step V1 st LAnswerFail = Some (set_mn st MGiveUp)) by (cbn [step]; rewrite M; reflexivity).
    apply (exits_stage _ _ _ _ _ _ S). exact (exit_giveup N _ c (Inv_step _ _ _ _ I S) eq_refl C).
  - assert (S : step V1 st LSelectTimeout = Some (set_mn st MGiveUp)) by (cbn [step]; rewrite M; reflexivity).
    apply (exits_stage _ _ _ _ _ _ S). exact (exit_giveup N _ c (Inv_step _ _ _ _ I S) eq_refl C).
  - exact (exit_giveup N st c I M C).
  - apply exit_ret; [exact I | exact C | rewrite M; reflexivity | left; cbn [step]; rewrite M; reflexivity].
  - exact (exit_recv N st c I M C).
Qed.

(* steps of the session with id i when it is the one runSession is in: steps of the Start goroutine
   inside runSession (never the peer's LDcOpen, never the loop's get) and steps of the session's own
   handler goroutine *)
Definition cur_session_step (i : nat) (l : label) : bool :=
  match l with LH j _ => j =? i | _ => main_step l end.

Definition cur_release (st : state) (c : sess) : list label :=
  main_exit (mn st) (own c) ++
  match own c with OHandler => handler_path (length (bg st)) c | _ => [] end.

Lemma cur_release_steps : forall st c, forallb (cur_session_step (length (bg st))) (cur_release st c) = true.
Proof.
  intros st c. unfold cur_release. rewrite forallb_app. apply andb_true_iff. split.
  - assert (H := main_exit_main (mn st) (own c)). revert H. generalize (main_exit (mn st) (own c)).
    induction l as [|x l IH]; cbn; [auto|]. intros H. apply andb_true_iff in H as [H1 H2].
    rewrite IH by exact H2. destruct x; cbn in *; try discriminate; auto.
  - destruct (own c); try reflexivity. unfold handler_path. destruct (hp c); cbn; rewrite ?Nat.eqb_refl; reflexivity.
Qed.

Lemma cur_release_short : forall st c, length (cur_release st c) <= 6.
Proof.
  intros st c. unfold cur_release. rewrite app_length.
  pose proof (handler_path_short (length (bg st)) c). destruct (mn st), (own c); cbn in *; lia.
Qed.

Lemma given_up_released : forall c, given_up true c -> holds c = 0 /\ pend c = 0 /\ released c = 1.
Proof. intros c []; repeat split. Qed.

Lemma cur_ok_handler : forall m c, cur_ok m c -> own c = OHandler -> mpend m = 0.
Proof. intros m c H O. destruct H as [m H|m H|c []|c []|m c H _]; try discriminate; destruct m; try discriminate; reflexivity. Qed.

Lemma cur_release_path : forall N st c, Inv N st -> cur st = Some c ->
  holds c + pend c + mpend (mn st) = 1 ->
  exists st' c', run V1 st (cur_release st c) = Some st' /\ cur_release st c <> [] /\
    mn st' = MTop /\ cur st' = None /\
    nth_error (bg st') (length (bg st)) = Some c' /\ length (bg st') = S (length (bg st)) /\
    holds c' = 0 /\ pend c' = 0 /\ released c' = 1 /\
    (N <> 0 -> S (chlen (tok st')) = chlen (tok st)).
Proof.
  intros N st c I Hc Hocc. pose proof (inv_cur _ _ I) as Hok. rewrite Hc in Hok.
  pose proof (main_exit_nonempty _ (own c) (cur_ok_idle _ _ Hok)) as Hne.
  destruct (cur_exit_path N st c I Hc) as (st1 & c1 & R1 & M1 & C1 & B1 & Hslot). unfold cur_release.
  assert (Hnth : nth_error (bg st1) (length (bg st)) = Some c1).
  { rewrite B1, nth_error_app2, Nat.sub_diag by lia. reflexivity. }
  assert (Hlen : length (bg st1) = S (length (bg st))) by (rewrite B1, app_length; cbn; lia).
  destruct Hslot as [(Hown & G & Hch) | (Hown & -> & Htok)].
  - destruct (given_up_released _ G) as (Hh & Hp & Hr).
    replace (match own c with OHandler => handler_path (length (bg st)) c | _ => [] end) with (@nil label)
      by (destruct (own c); congruence).
    rewrite app_nil_r. exists st1, c1. auto 12.
  - (* the handler owns the session: runSession is not releasing, so the slot is the handler's to give back *)
    pose proof (cur_ok_handler _ _ Hok Hown) as Hmp.
    rewrite Hown in *.
    destruct (bg_release_path N st1 _ c (run_inv_from _ _ _ _ I R1) Hnth ltac:(lia))
      as (_ & st2 & R2 & (N2 & M2 & C2 & L2 & _) & Hch2).
    exists st2, handler_done. rewrite (run_app _ _ _ _ _ R1). split; [exact R2|].
    split; [intros E; apply app_eq_nil in E as [E _]; exact (Hne E)|].
    rewrite M2, C2, L2, <- Htok. auto 12.
Qed.

(* a stage of runSession at which the only things awaited are the broker or the peer has, for each
   of them, the bounded alternative the path above takes: the broker's request fails or times out,
   the data channel timer fires *)
Lemma main_exit_waits : forall m o,
  match m with
  | MPoll => In LPollNil (main_exit m o)
  | MAnswer => In LAnswerFail (main_exit m o)
  | MSelect => In LSelectTimeout (main_exit m o)
  | _ => True
  end.
Proof. intros m o. destruct m; cbn; auto. Qed.

(* the Start goroutine does nothing to the background list but append the session it returns from *)
Lemma main_effect_bg : forall v st st', main_effect v st st' -> exists x, bg st' = bg st ++ x.
Proof.
  intros v st st' E.
  assert (Same : forall b, b = bg st -> exists x, b = bg st ++ x) by (intros b ->; exists []; symmetry; apply app_nil_r).
  assert (Hpoll : forall st0, polled st st0 -> bg st0 = bg st) by (intros st0 [->|[_ ->]]; reflexivity).
  destruct E as [M | st0 m' Hp Hs | st0 st' Hp Hs Hr | M | M S | c C F | c M C O | M R | c D C Dc].
  - apply Same. reflexivity.
  - apply Same. exact (Hpoll _ Hp).
  - apply Same. unfold main_ret in Hr. destruct (cur st0); [injection Hr as <-; exact (Hpoll _ Hp) | discriminate].
  - apply Same. reflexivity.
  - apply Same. reflexivity.
  - (* runSession returns *) eexists. reflexivity.
  - apply Same. reflexivity.
  - (* runSession returns *) eexists. reflexivity.
  - apply Same. reflexivity.
Qed.

(* a session runSession has returned from is touched by the steps of its own handler goroutine only (both code versions) *)
Lemma bg_frame : forall v st l st' i c, step v st l = Some st' -> (forall a, l <> LH i a) ->
  nth_error (bg st) i = Some c -> nth_error (bg st') i = Some c.
Proof.
  intros v st l st' i c H Hl Hn. destruct (label_cases l) as [(j & a & ->)|Hm].
  - (* the handler of another session *)
    cbn [step] in H. assert (Hne : i <> j) by (intros ->; eapply Hl; reflexivity).
    destruct (nth_error (bg st) j) as [c0|].
    + destruct (hstep v a (tok st) c0) as [[c' t']|]; [|discriminate]. injection H as <-.
      cbn [set_tok set_bg bg]. rewrite nth_error_upd_neq by exact Hne. exact Hn.
    + destruct (j =? length (bg st)); [|discriminate]. destruct (cur st) as [c0|]; [|discriminate].
      destruct (hstep v a (tok st) c0) as [[c' t']|]; [|discriminate]. injection H as <-. exact Hn.
  - destruct (main_effect_bg _ _ _ (step_main_effect _ _ _ _ H Hm)) as [x ->].
    rewrite nth_error_app1; [exact Hn | apply nth_error_Some; congruence].
Qed.

(* what the relay, or the handler's own timer, can make of a dial in progress *)
Definition dial_event (i : nat) (l : label) : bool :=
  match l with
  | LH j HDialOk | LH j HDialFail | LH j HDialTimer => j =? i
  | _ => false
  end.

(* the other steps of the handler are not enabled while it dials *)
Lemma hstep_dial_only : forall v a t c, hp c = HDial -> a <> HDialOk -> a <> HDialFail -> a <> HDialTimer -> hstep v a t c = None.
Proof. intros v a t c Hh H1 H2 H3. unfold hstep. rewrite Hh. destruct a; congruence. Qed.

(* A relay that hangs (accepts the connection and never answers) with no timer bounding the dial: whatever else
   happens - any number of steps of the loop, of other sessions, of the broker - the session stays where it is,
   holding its slot.  (Both code versions; this is what the handshake timer of the dialer is for.) *)
Lemma hang_holds_slot : forall v tr st st' i c, nth_error (bg st) i = Some c -> hp c = HDial ->
  forallb (fun l => negb (dial_event i l)) tr = true -> run v st tr = Some st' ->
  nth_error (bg st') i = Some c.
Proof.
  induction tr as [|l tr IH]; intros st st' i c Hn Hh Hf H; cbn in *.
  - inversion H; subst. exact Hn.
  - apply andb_true_iff in Hf as [Hl Hf]. destruct (step v st l) as [st1|] eqn:E; [|discriminate].
    apply (IH st1 st' i c); auto. eapply bg_frame; [exact E| |exact Hn]. intros a ->.
    (* a step of the session's own handler: only the dial events are enabled at HDial *)
    cbn [step] in E. rewrite Hn in E.
    rewrite hstep_dial_only in E; [discriminate|exact Hh| | |];
      intros ->; cbn in Hl; rewrite Nat.eqb_refl in Hl; discriminate.
Qed.

(* a well-formed served session that is dialling the relay holds exactly one slot, and its own timer gives it back *)
Lemma dial_timer_releases : forall N st i c, Inv N st -> nth_error (bg st) i = Some c -> hp c = HDial ->
  holds c = 1 /\
  exists st' c', run V1 st [LH i HDialTimer; LH i HRecv] = Some st' /\
    nth_error (bg st') i = Some c' /\ holds c' = 0 /\ pend c' = 0 /\ hp c' = HDone /\ released c' = 1 /\
    mn st' = mn st /\ cur st' = cur st /\ in_use st' + 1 = in_use st /\
    (N <> 0 -> S (chlen (tok st')) = chlen (tok st)).
Proof.
  intros N st i c I Hn Hh.
  assert (E : c = mkSess HDial true OHandler false false)
    by (destruct (inv_bg_nth _ _ _ _ I Hn) as [|c []|c []]; try discriminate; reflexivity).
  subst c. split; [reflexivity|].
  destruct (bg_release_path N st i _ I Hn eq_refl) as (_ & st' & R & (N' & M & C & _ & U) & Ch).
  exists st', handler_done. cbn [holds mrel orb handler_done] in U. rewrite Nat.add_0_r in U. auto 12.
Qed.
