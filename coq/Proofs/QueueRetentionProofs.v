(* QueueRetentionProofs.v — the outgoing queues of QueuePacketConn (Model/QueueConn.v over
   Model/ClientMap.v) over ARBITRARY histories: writes, receives through OutgoingQueue, receives on
   a queue obtained earlier, and sweeps, with real queue contents.

   1. [qstep_rec]: the exact effect of every operation on the record (last seen, queue identity,
      queue contents) of every client address; from it, that a write never waits, the bound on every
      queue, and first-in-first-out for histories without expiry.
   2. retention at a sweep ([sweep_kept], [sweep_not_early], [sweep_removed]) with contents, and the
      closed-queue bookkeeping ([dead_ok]: a queue that is in the map is not closed).
   3. [epoch_fifo]: first-in-first-out per address over arbitrary histories, counted since the
      address's queue was (re)created; what was queued at an expiry goes with the closed queue.
   4. [swept_idle]: an idle client over a history cut at sweeps made at arbitrary instants: kept by every
      sweep before last_seen + timeout, gone from the first one at or after it.  The sweeper goroutine's own
      schedule ([ticked]: sweeps at phase + k*period) is defined here; what follows for it is in
      Proofs/SweeperLockProofs.v. *)
From Coq Require Import List NArith ZArith Bool Arith Lia Permutation.
From Snow Require Import Model.ClientMap Model.QueueConn.
From Snow Require Import Proofs.ClientMapProofs Proofs.QueueConnProofs Proofs.QueueOutProofs.
Import ListNotations.

Definition rcv_of (q : list payload) : rcv := match q with [] => RcvEmpty | p :: _ => RcvPkt p end.

Lemma q_send_rec : forall cap p c b rb, cm_inv c -> rec_of c b = Some rb ->
  snd (q_send cap (c_qid rb) p c) = (length (c_q rb) <? cap) /\
  cm_inv (fst (q_send cap (c_qid rb) p c)) /\
  dead (fst (q_send cap (c_qid rb) p c)) = dead c /\
  next_qid (fst (q_send cap (c_qid rb) p c)) = next_qid c /\
  (forall x, rec_of (fst (q_send cap (c_qid rb) p c)) x =
     if N.eqb b x then Some (if length (c_q rb) <? cap then set_q rb (c_q rb ++ [p]) else rb) else rec_of c x).
Proof.
  intros cap p c b rb Hinv Hrec.
  destruct (q_send_by_addr cap p c b rb Hinv Hrec) as [Hans Hrec2].
  split; [exact Hans|]. split; [apply q_send_inv, Hinv|].
  split; [apply q_send_frame|]. split; [apply q_send_frame | exact Hrec2].
Qed.

Lemma q_recv_rec : forall c b rb, cm_inv c -> rec_of c b = Some rb ->
  snd (q_recv (c_qid rb) c) = rcv_of (c_q rb) /\
  cm_inv (fst (q_recv (c_qid rb) c)) /\
  dead (fst (q_recv (c_qid rb) c)) = dead c /\
  next_qid (fst (q_recv (c_qid rb) c)) = next_qid c /\
  (forall x, rec_of (fst (q_recv (c_qid rb) c)) x =
     if N.eqb b x then Some (set_q rb (tl (c_q rb))) else rec_of c x).
Proof.
  intros c b rb Hinv Hrec. destruct (q_recv_by_addr c b rb Hinv Hrec) as (Hans & Hdead & Hrec2).
  split; [exact Hans|]. split; [apply q_recv_inv, Hinv|].
  split; [exact Hdead|]. split; [apply q_recv_frame | exact Hrec2].
Qed.

(* what an operation does to the record of address [a]: [ro] is the record before (None: the
   address has no queue), [nq] the next fresh queue identity, [closed] the connection's flag *)
Definition rec_after (cap : nat) (timeout : Z) (a : N) (nq : nat) (closed : bool)
                     (ro : option crec) (o : qop) : option crec :=
  match o with
  | QWrite p b now =>
      if closed then ro
      else if N.eqb b a then
        let r := touch_rec a now nq ro in
        Some (if length (c_q r) <? cap then set_q r (c_q r ++ [p]) else r)
      else ro
  | QOutRecv b now =>
      if N.eqb b a then let r := touch_rec a now nq ro in Some (set_q r (tl (c_q r))) else ro
  | QHeldRecv k =>
      match ro with
      | Some r => if Nat.eqb (c_qid r) k then Some (set_q r (tl (c_q r))) else ro
      | None => None
      end
  | QSweep now =>
      match ro with
      | Some r => if expired now timeout r then None else ro
      | None => None
      end
  | _ => ro
  end.

(* the answer of an operation that concerns address [a] *)
Definition out_after (cap : nat) (a : N) (nq : nat) (closed : bool) (ro : option crec) (o : qop) : option qout :=
  match o with
  | QWrite p b now =>
      if closed then Some OErrClosed
      else if N.eqb b a then
        let r := touch_rec a now nq ro in Some (OWrote (length p) (c_qid r) (length (c_q r) <? cap))
      else None
  | QOutRecv b now =>
      if N.eqb b a then let r := touch_rec a now nq ro in Some (ORecv (c_qid r) (rcv_of (c_q r))) else None
  | QHeldRecv k =>
      match ro with
      | Some r => if Nat.eqb (c_qid r) k then Some (ORecv k (rcv_of (c_q r))) else None
      | None => None
      end
  | _ => None
  end.

Lemma touch_rec_addr : forall c a now, (forall r, rec_of c a = Some r -> c_addr r = a) ->
  c_addr (touch_rec a now (next_qid c) (rec_of c a)) = a.
Proof.
  intros c a now H. destruct (rec_of c a) as [r|] eqn:E; simpl; auto.
Qed.

Lemma touch_rec_q : forall c a now nq, c_q (touch_rec a now nq (rec_of c a)) = out_q c a.
Proof. intros. unfold out_q. destruct (rec_of c a); reflexivity. Qed.

(* on the client map: SendQueue touches the record of the address, then the channel operation acts
   on the queue SendQueue answered, which is that record's *)
Lemma clients_after_rec : forall cap timeout closed c o a, cm_inv c ->
  rec_of (clients_after cap timeout closed c o) a = rec_after cap timeout a (next_qid c) closed (rec_of c a) o /\
  (forall x, out_after cap a (next_qid c) closed (rec_of c a) o = Some x -> cout cap closed c o = x).
Proof.
  intros cap timeout closed c o a Hinv.
  destruct o as [p b|n|p b now|b now|k|now|]; cbn [clients_after cout rec_after out_after];
    try (split; [reflexivity | discriminate]).
  - destruct closed; [split; [reflexivity | intros x [= <-]; reflexivity]|].
    destruct (send_queue_full b now c Hinv) as (Hinv1 & Hrec1 & Hk & Hoth & _). rewrite Hk.
    destruct (q_send_rec cap p _ b _ Hinv1 Hrec1) as (Hok & _ & _ & _ & Hrec2). rewrite Hrec2, Hok.
    destruct (N.eqb_spec b a) as [->|Hne].
    + split; [reflexivity | intros x [= <-]; reflexivity].
    + split; [apply Hoth; congruence | discriminate].
  - destruct (send_queue_full b now c Hinv) as (Hinv1 & Hrec1 & Hk & Hoth & _). rewrite Hk.
    destruct (q_recv_rec _ b _ Hinv1 Hrec1) as (Hok & _ & _ & _ & Hrec2). rewrite Hrec2, Hok.
    destruct (N.eqb_spec b a) as [->|Hne].
    + split; [reflexivity | intros x [= <-]; reflexivity].
    + split; [apply Hoth; congruence | discriminate].
  - rewrite rec_of_q_recv by exact Hinv. destruct (rec_of c a) as [r|] eqn:E; [|split; [reflexivity | discriminate]].
    simpl. destruct (Nat.eqb_spec (c_qid r) k) as [<-|]; [|split; [reflexivity | discriminate]].
    split; [reflexivity|]. intros x [= <-]. rewrite (proj1 (q_recv_by_addr c a r Hinv E)). reflexivity.
  - split; [|discriminate]. rewrite rec_of_remove_expired by exact Hinv.
    destruct (rec_of c a); reflexivity.
Qed.

Theorem qstep_rec : forall cap timeout s o a, cm_inv (clients s) ->
  let ro := rec_of (clients s) a in
  let nq := next_qid (clients s) in
  cm_inv (clients (fst (qstep cap timeout s o))) /\
  rec_of (clients (fst (qstep cap timeout s o))) a = rec_after cap timeout a nq (qclosed s) ro o /\
  (forall x, out_after cap a nq (qclosed s) ro o = Some x -> snd (qstep cap timeout s o) = x).
Proof.
  intros cap timeout s o a Hinv ro nq.
  destruct (clients_after_rec cap timeout (qclosed s) (clients s) o a Hinv) as [Hrec Hout].
  split; [apply qstep_inv; exact Hinv|]. split; [rewrite qstep_clients; exact Hrec|].
  destruct (is_cm_op o) eqn:E; [rewrite (qstep_cm cap timeout s o E); exact Hout|].
  destruct o; try discriminate; discriminate.
Qed.

Theorem qwrite_out : forall cap timeout s p a now, cm_inv (clients s) -> qclosed s = false ->
  let '(s', o) := qstep cap timeout s (QWrite p a now) in
  cm_inv (clients s') /\ recvq s' = recvq s /\ qclosed s' = false /\
  out_q (clients s') a = (if length (out_q (clients s) a) <? cap then out_q (clients s) a ++ [p] else out_q (clients s) a) /\
  (exists k, o = OWrote (length p) k (length (out_q (clients s) a) <? cap)) /\
  (forall b, b <> a -> out_q (clients s') b = out_q (clients s) b).
Proof.
  intros cap timeout s p a now Hinv Hc.
  rewrite (qstep_cm cap timeout s (QWrite p a now) eq_refl), Hc. cbn [clients recvq qclosed].
  split; [apply clients_after_inv, Hinv|]. split; [reflexivity|]. split; [reflexivity|].
  destruct (clients_after_rec cap timeout false (clients s) (QWrite p a now) a Hinv) as [Hrec Hout].
  cbn [rec_after out_after] in Hrec, Hout. rewrite N.eqb_refl, touch_rec_q in Hrec, Hout.
  split; [|split].
  - unfold out_q at 1. rewrite Hrec. destruct (length (out_q (clients s) a) <? cap); [reflexivity | apply touch_rec_q].
  - eexists. apply Hout. reflexivity.
  - intros b Hb. unfold out_q.
    rewrite (proj1 (clients_after_rec cap timeout false (clients s) (QWrite p a now) b Hinv)).
    cbn [rec_after]. destruct (N.eqb_spec a b); [congruence | reflexivity].
Qed.

Lemma out_q_rec : forall c a ro, rec_of c a = ro -> out_q c a = match ro with Some r => c_q r | None => [] end.
Proof. intros c a ro <-. reflexivity. Qed.

Lemma qstep_fifo : forall cap timeout s o a, cm_inv (clients s) -> no_expiry o = true ->
  out_q (clients s) a ++ w1 a o (snd (qstep cap timeout s o)) =
  r1 a o (snd (qstep cap timeout s o)) ++ out_q (clients (fst (qstep cap timeout s o))) a.
Proof.
  intros cap timeout s o a Hinv Hne.
  destruct (qstep_rec cap timeout s o a Hinv) as (_ & Hrec & Hout).
  rewrite (out_q_rec _ _ _ Hrec).
  destruct o as [p b|n|p b now|b now|k|now|]; try discriminate; cbn [rec_after out_after w1 r1] in *;
    try (rewrite app_nil_r; reflexivity).
  - destruct (qclosed s); [rewrite (Hout _ eq_refl); apply app_nil_r|].
    destruct (N.eqb b a) eqn:E.
    + rewrite (Hout _ eq_refl), touch_rec_q.
      destruct (length (out_q (clients s) a) <? cap); simpl; rewrite ?app_nil_r, ?touch_rec_q; reflexivity.
    + destruct (snd (qstep cap timeout s (QWrite p b now))) as [| | | | |l k [|]|k x|]; apply app_nil_r.
  - destruct (N.eqb b a) eqn:E.
    + rewrite (Hout _ eq_refl), touch_rec_q. destruct (out_q (clients s) a); simpl; rewrite ?app_nil_r; reflexivity.
    + destruct (snd (qstep cap timeout s (QOutRecv b now))) as [| | | | |l k ok|k [x| |]|]; apply app_nil_r.
Qed.

(* C17: per address, what OutgoingQueue hands out is a prefix of what WriteTo accepted, in
   order; what is still queued is exactly the rest. *)
Theorem outgoing_fifo_per_addr : forall cap timeout ops a s,
  cm_inv (clients s) -> forallb no_expiry ops = true ->
  let '(s', outs) := qrun cap timeout ops s in
  cm_inv (clients s') /\ out_q (clients s) a ++ written a ops outs = received a ops outs ++ out_q (clients s') a.
Proof.
  intros cap timeout ops a. induction ops as [|o ops IH]; intros s Hinv Hne.
  - simpl. split; auto. apply app_nil_r.
  - simpl in Hne. apply andb_prop in Hne. destruct Hne as [Hne1 Hne2].
    rewrite qrun_cons. pose proof (qstep_fifo cap timeout s o a Hinv Hne1) as Hstep.
    specialize (IH _ (qstep_inv cap timeout s o Hinv) Hne2).
    destruct (qrun cap timeout ops (fst (qstep cap timeout s o))) as [s2 rs]. destruct IH as [Hinv2 IH].
    split; [exact Hinv2|]. cbn [fst snd]. rewrite written_cons, received_cons.
    rewrite app_assoc, Hstep, <- app_assoc, IH, app_assoc. reflexivity.
Qed.

(* the bound: memory per client.  Only a write lengthens a queue, and only one shorter than cap. *)
Lemma rec_after_bound : forall cap timeout a nq closed ro o,
  let len ro := length (match ro with Some r => c_q r | None => [] end) in
  len ro <= cap -> len (rec_after cap timeout a nq closed ro o) <= cap.
Proof.
  intros cap timeout a nq closed ro o len H.
  assert (Ht : forall now, length (c_q (touch_rec a now nq ro)) <= cap) by (intro; destruct ro; exact H).
  assert (Htl : forall r : crec, length (c_q r) <= cap -> length (tl (c_q r)) <= cap)
    by (intros r; destruct (c_q r); simpl; lia).
  destruct o as [p b|n|p b now|b now|k|now|]; cbn [rec_after]; try exact H.
  - destruct closed; [exact H|]. destruct (N.eqb b a); [|exact H]. specialize (Ht now).
    destruct (length (c_q (touch_rec a now nq ro)) <? cap) eqn:L; [|exact Ht].
    apply Nat.ltb_lt in L. unfold len. simpl. rewrite app_length. simpl. lia.
  - destruct (N.eqb b a); [|exact H]. apply Htl, Ht.
  - destruct ro as [r|]; [|exact H]. destruct (c_qid r =? k); [apply Htl, H | exact H].
  - destruct ro as [r|]; [|exact H]. destruct (expired now timeout r); [apply Nat.le_0_l | exact H].
Qed.

Theorem outgoing_bounded : forall cap timeout ops a s, cm_inv (clients s) ->
  length (out_q (clients s) a) <= cap ->
  length (out_q (clients (fst (qrun cap timeout ops s))) a) <= cap.
Proof.
  intros cap timeout ops a s Hinv Hlen.
  apply (qrun_preserves cap timeout
           (fun s => cm_inv (clients s) /\ length (out_q (clients s) a) <= cap)); [|auto].
  clear. intros s o [Hinv Hlen]. destruct (qstep_rec cap timeout s o a Hinv) as (Hinv1 & Hrec & _).
  split; [exact Hinv1|]. rewrite (out_q_rec _ _ _ Hrec). apply rec_after_bound. exact Hlen.
Qed.

(* a queue that is in the map has not been closed; identities of closed queues are never handed out again *)
Definition dead_ok (c : cmap) : Prop :=
  forall k, In k (map fst (dead c)) -> k < next_qid c /\ ~ In k (map c_qid (byAge c)).

Lemma dead_ok_empty : dead_ok cm_empty.
Proof. intros k []. Qed.

Lemma send_queue_dead_ok : forall a now c, cm_inv c -> dead_ok c -> dead_ok (fst (send_queue a now c)).
Proof.
  intros a now c Hinv D k Hk. destruct (send_queue_spec a now c Hinv) as (_ & Hdead & H).
  rewrite Hdead in Hk. destruct (D k Hk) as [D1 D2].
  destruct (amap_get a (byAddr c)) as [i|].
  - destruct H as (r & Hr & _ & Hp & ->). split; [exact D1|]. intro X. apply D2.
    apply (Permutation_in _ (Permutation_map c_qid Hp)) in X.
    rewrite (map_set_nth_same _ _ c_qid _ i (set_seen r now) r Hr eq_refl) in X. exact X.
  - destruct H as (_ & Hp & ->). split; [lia|]. intro X.
    apply (Permutation_in _ (Permutation_map c_qid Hp)) in X. destruct X as [X|X]; [simpl in X; lia | exact (D2 X)].
Qed.

Lemma q_send_qids : forall cap k p c, map c_qid (byAge (fst (q_send cap k p c))) = map c_qid (byAge c).
Proof.
  intros cap k p c. unfold q_send. destruct (find_qid k (byAge c)) as [i|]; auto.
  destruct (nth_error (byAge c) i) as [r|] eqn:Hr; auto. destruct (length (c_q r) <? cap); auto.
  apply (map_set_nth_same _ _ c_qid _ i (set_q r (c_q r ++ [p])) r Hr eq_refl).
Qed.

Lemma q_recv_qids : forall k c, map c_qid (byAge (fst (q_recv k c))) = map c_qid (byAge c).
Proof.
  intros k c. unfold q_recv. destruct (find_qid k (byAge c)) as [i|].
  - destruct (nth_error (byAge c) i) as [r|] eqn:Hr; auto. destruct (c_q r) as [|p q']; auto.
    apply (map_set_nth_same _ _ c_qid _ i (set_q r q') r Hr eq_refl).
  - destruct (dead_take k (dead c)). reflexivity.
Qed.

Lemma q_send_dead_ok : forall cap k p c, dead_ok c -> dead_ok (fst (q_send cap k p c)).
Proof.
  intros cap k p c D k0. destruct (q_send_frame cap k p c) as [-> ->]. rewrite q_send_qids. apply D.
Qed.

Lemma q_recv_dead_ok : forall k c, dead_ok c -> dead_ok (fst (q_recv k c)).
Proof.
  intros k c D k0. destruct (q_recv_frame k c) as [-> ->]. rewrite q_recv_qids. apply D.
Qed.

Lemma remove_expired_dead_ok : forall now timeout c, cm_inv c -> dead_ok c ->
  dead_ok (remove_expired now timeout c).
Proof.
  intros now timeout c Hinv D k Hk.
  destruct (remove_expired_spec now timeout c Hinv) as (_ & I2 & _ & _ & I5 & _ & I7).
  set (c' := remove_expired now timeout c) in *. rewrite I2.
  assert (Hsub : forall x, In x (map c_qid (byAge c')) -> exists r', In r' (byAge c) /\ In r' (byAge c') /\ c_qid r' = x).
  { intros x X. apply in_map_iff in X. destruct X as (r' & <- & Hr'). eauto. }
  apply in_map_iff in Hk. destruct Hk as (e & <- & He). destruct (I7 e He) as [H|(r & R1 & -> & _ & R4)].
  - destruct (D (fst e) (in_map fst _ _ H)) as [D1 D2]. split; [exact D1|].
    intro X. destruct (Hsub _ X) as (r' & H1 & _ & E). apply D2. rewrite <- E. apply in_map, H1.
  - simpl. split; [apply cm_inv_bound; assumption|].
    intro X. destruct (Hsub _ X) as (r' & H1 & H2 & E). apply R4.
    rewrite <- (qid_unique c r' r Hinv H1 R1 E). exact H2.
Qed.

Lemma qstep_dead_ok : forall cap timeout s o, cm_inv (clients s) -> dead_ok (clients s) ->
  dead_ok (clients (fst (qstep cap timeout s o))).
Proof.
  intros cap timeout s o Hinv Hd. rewrite qstep_clients. destruct o; simpl; auto.
  - destruct (qclosed s); auto. apply q_send_dead_ok, send_queue_dead_ok; assumption.
  - apply q_recv_dead_ok, send_queue_dead_ok; assumption.
  - apply q_recv_dead_ok, Hd.
  - apply remove_expired_dead_ok; assumption.
Qed.

Lemma qrun_dead_ok : forall cap timeout ops s, cm_inv (clients s) -> dead_ok (clients s) ->
  dead_ok (clients (fst (qrun cap timeout ops s))).
Proof.
  intros cap timeout ops s Hinv Hd.
  apply (qrun_preserves cap timeout (fun s => cm_inv (clients s) /\ dead_ok (clients s))); [|auto].
  clear. intros s o [Hinv Hd]. split; [apply qstep_inv | apply qstep_dead_ok]; assumption.
Qed.

Lemma qstep_dead_keys : forall cap timeout s o k, cm_inv (clients s) ->
  In k (map fst (dead (clients s))) -> In k (map fst (dead (clients (fst (qstep cap timeout s o))))).
Proof.
  intros cap timeout s o k Hinv Hk. rewrite qstep_clients.
  assert (Hsq : forall a now, dead (fst (send_queue a now (clients s))) = dead (clients s))
    by (intros; apply send_queue_spec, Hinv).
  destruct o; simpl; auto.
  - destruct (qclosed s); auto. rewrite (proj1 (q_send_frame _ _ _ _)), Hsq. exact Hk.
  - rewrite (proj1 (q_recv_frame _ _)), Hsq. exact Hk.
  - rewrite (proj1 (q_recv_frame _ _)). exact Hk.
  - revert Hk. apply incl_map. intro e. apply (remove_expired_spec now timeout _ Hinv).
Qed.

Lemma qrun_dead_keys : forall cap timeout ops s k, cm_inv (clients s) ->
  In k (map fst (dead (clients s))) -> In k (map fst (dead (clients (fst (qrun cap timeout ops s))))).
Proof.
  intros cap timeout ops s k Hinv Hk.
  apply (qrun_preserves cap timeout (fun s => cm_inv (clients s) /\ In k (map fst (dead (clients s))))); [|auto].
  clear. intros s o [Hinv Hk]. split; [apply qstep_inv | apply qstep_dead_keys]; assumption.
Qed.

Section Sweep.
  Variable cap : nat.
  Variable timeout : Z.

  Definition after_sweep (s : qconn) (now : Z) : qconn := fst (qstep cap timeout s (QSweep now)).

  (* kept: the same record -- same queue identity, same last-seen, same contents in the same
     order -- and the queue is not closed *)
  Theorem sweep_kept : forall s now a r, cm_inv (clients s) -> dead_ok (clients s) ->
    rec_of (clients s) a = Some r -> (now - c_seen r < timeout)%Z ->
    rec_of (clients (after_sweep s now)) a = Some r /\
    out_q (clients (after_sweep s now)) a = c_q r /\
    ~ In (c_qid r) (map fst (dead (clients (after_sweep s now)))).
  Proof.
    intros s now a r Hinv Hd Hrec Hlt. unfold after_sweep. simpl.
    assert (Hrec1 : rec_of (remove_expired now timeout (clients s)) a = Some r).
    { rewrite rec_of_remove_expired, Hrec by exact Hinv. apply expired_false_iff in Hlt. rewrite Hlt. reflexivity. }
    split; [exact Hrec1|]. split; [rewrite (out_q_rec _ _ _ Hrec1); reflexivity|].
    intro X. apply (remove_expired_dead_ok now timeout _ Hinv Hd) in X. apply (proj2 X).
    apply in_map, (rec_of_some _ _ _ Hrec1).
  Qed.

  Theorem sweep_not_early : forall s now, cm_inv (clients s) ->
    (forall a r, rec_of (clients s) a = Some r -> rec_of (clients (after_sweep s now)) a <> Some r ->
       (now - c_seen r >= timeout)%Z /\ rec_of (clients (after_sweep s now)) a = None) /\
    (forall e, In e (dead (clients (after_sweep s now))) -> ~ In e (dead (clients s)) ->
       exists r, rec_of (clients s) (c_addr r) = Some r /\ e = (c_qid r, c_q r) /\ (now - c_seen r >= timeout)%Z) /\
    (forall a r, rec_of (clients (after_sweep s now)) a = Some r -> rec_of (clients s) a = Some r).
  Proof.
    intros s now Hinv. unfold after_sweep. simpl. split; [|split].
    - intros a r Hrec. rewrite rec_of_remove_expired, Hrec by exact Hinv.
      destruct (expired now timeout r) eqn:Ex; [|congruence]. intros _. split; [apply expired_true_iff, Ex | reflexivity].
    - intros e He Hn.
      destruct (proj2 (proj2 (proj2 (proj2 (proj2 (proj2 (remove_expired_spec now timeout _ Hinv)))))) e He)
        as [H|(r & R1 & R2 & R3 & _)]; [contradiction|].
      exists r. split; [apply rec_of_in; assumption|]. split; [exact R2 | apply expired_true_iff, R3].
    - intros a r. rewrite rec_of_remove_expired by exact Hinv.
      destruct (rec_of (clients s) a) as [r0|]; [|discriminate]. destruct (expired now timeout r0); [discriminate | auto].
  Qed.

  (* removed: the address has no queue any more, the queue is closed with exactly what was in it *)
  Theorem sweep_removed : forall s now a r, cm_inv (clients s) ->
    rec_of (clients s) a = Some r -> (now - c_seen r >= timeout)%Z ->
    rec_of (clients (after_sweep s now)) a = None /\
    out_q (clients (after_sweep s now)) a = [] /\
    In (c_qid r, c_q r) (dead (clients (after_sweep s now))) /\
    (forall r', In r' (byAge (clients (after_sweep s now))) -> c_qid r' <> c_qid r).
  Proof.
    intros s now a r Hinv Hrec Hge. unfold after_sweep. simpl. apply expired_true_iff in Hge.
    assert (Hrec1 : rec_of (remove_expired now timeout (clients s)) a = None)
      by (rewrite rec_of_remove_expired, Hrec, Hge by exact Hinv; reflexivity).
    split; [exact Hrec1|]. split; [rewrite (out_q_rec _ _ _ Hrec1); reflexivity|].
    destruct (remove_expired_spec now timeout _ Hinv) as (_ & _ & I3 & I4 & I5 & _).
    destruct (rec_of_some _ _ _ Hrec) as [Hin _].
    split.
    - destruct (I4 r Hin) as [H|[_ H]]; [rewrite (I3 _ H) in Hge; discriminate | exact H].
    - intros r' Hr' E. rewrite (qid_unique _ r' r Hinv (I5 _ Hr') Hin E) in Hr'.
      rewrite (I3 _ Hr') in Hge. discriminate.
  Qed.
End Sweep.

(* after an expiry the address gets a NEW queue: a fresh identity (greater than that of every queue
   ever made, open or closed), empty -- what was queued before the expiry is not in it *)
Theorem new_queue_fresh : forall c a now, cm_inv c -> dead_ok c -> rec_of c a = None ->
  let c' := fst (send_queue a now c) in
  let k := snd (send_queue a now c) in
  rec_of c' a = Some (mkrec a now k []) /\ k = next_qid c /\
  (forall r, In r (byAge c) -> c_qid r < k) /\ (forall e, In e (dead c) -> fst e < k).
Proof.
  intros c a now Hinv D Hnone.
  destruct (send_queue_full a now c Hinv) as (_ & Hrec1 & Hk & _).
  rewrite Hnone in Hrec1, Hk. simpl in *. rewrite Hk. split; [exact Hrec1|]. split; [reflexivity|].
  split; [intros r; apply cm_inv_bound, Hinv | intros e He; apply D, in_map, He].
Qed.

(* operations, other than sweeps, that can change the record of [a] (whose queue is [k]) *)
Definition mentions (a : N) (k : nat) (o : qop) : bool :=
  match o with
  | QWrite _ b _ | QOutRecv b _ => N.eqb b a
  | QHeldRecv k' => Nat.eqb k k'
  | _ => false
  end.

Definition is_sweep (o : qop) : bool := match o with QSweep _ => true | _ => false end.

Definition idle_op (a : N) (k : nat) (o : qop) : bool := negb (is_sweep o) && negb (mentions a k o).

Lemma rec_after_idle : forall cap timeout a nq closed ro o k,
  (forall r, ro = Some r -> c_qid r = k) -> idle_op a k o = true ->
  rec_after cap timeout a nq closed ro o = ro.
Proof.
  intros cap timeout a nq closed ro o k Hk Hidle. unfold idle_op in Hidle.
  destruct o as [p b|n|p b now|b now|k'|now|]; simpl in *; try reflexivity; try discriminate.
  - destruct closed; [reflexivity|]. destruct (N.eqb b a); [discriminate | reflexivity].
  - destruct (N.eqb b a); [discriminate | reflexivity].
  - destruct ro as [r|]; [|reflexivity]. rewrite (Hk r eq_refl). destruct (k =? k'); [discriminate | reflexivity].
Qed.

(* Bookkeeping over the observable trace (operations and their answers) for one address [a]:
   None = [a] has no queue; Some e = [a] has a queue, e_seen = the clock reading of the last
   operation that looked it up, e_qid = its identity, e_w = the packets WriteTo(_, a) enqueued and
   e_r = the packets receivers took from it, both SINCE THE QUEUE WAS CREATED.  A sweep at [now]
   ends the epoch iff now - e_seen >= timeout. *)
Record epoch := mkep { e_seen : Z; e_qid : nat; e_w : list payload; e_r : list payload }.

Definition ep_step (timeout : Z) (a : N) (st : option epoch) (o : qop) (r : qout) : option epoch :=
  match o, r with
  | QWrite p b now, OWrote _ k ok =>
      if N.eqb b a then
        match st with
        | Some e => Some (mkep now (e_qid e) (if ok then e_w e ++ [p] else e_w e) (e_r e))
        | None => Some (mkep now k (if ok then [p] else []) [])
        end
      else st
  | QOutRecv b now, ORecv k x =>
      if N.eqb b a then
        let got := match x with RcvPkt p => [p] | _ => [] end in
        match st with
        | Some e => Some (mkep now (e_qid e) (e_w e) (e_r e ++ got))
        | None => Some (mkep now k [] got)
        end
      else st
  | QHeldRecv k', ORecv _ (RcvPkt p) =>
      match st with
      | Some e => if Nat.eqb (e_qid e) k' then Some (mkep (e_seen e) (e_qid e) (e_w e) (e_r e ++ [p])) else st
      | None => None
      end
  | QSweep now, _ =>
      match st with
      | Some e => if (now - e_seen e >=? timeout)%Z then None else st
      | None => None
      end
  | _, _ => st
  end.

Fixpoint ep_run (timeout : Z) (a : N) (st : option epoch) (ops : list qop) (outs : list qout) : option epoch :=
  match ops, outs with
  | o :: ops', r :: outs' => ep_run timeout a (ep_step timeout a st o r) ops' outs'
  | _, _ => st
  end.

Definition ep_inv (a : N) (st : option epoch) (c : cmap) : Prop :=
  match st with
  | None => rec_of c a = None
  | Some e => exists r, rec_of c a = Some r /\ c_seen r = e_seen e /\ c_qid r = e_qid e /\
                        e_w e = e_r e ++ c_q r
  end.

Lemma ep_inv_same : forall a st c c', rec_of c' a = rec_of c a -> ep_inv a st c -> ep_inv a st c'.
Proof. intros a st c c' E H. unfold ep_inv in *. destruct st; rewrite E; auto. Qed.

Lemma ep_step_idle : forall timeout a st o r k,
  (forall e, st = Some e -> e_qid e = k) -> idle_op a k o = true -> ep_step timeout a st o r = st.
Proof.
  intros timeout a st o r k Hk Hidle. unfold idle_op in Hidle.
  destruct o as [p b|n|p b now|b now|k'|now|]; simpl in *; try discriminate; destruct r; try reflexivity.
  - destruct (N.eqb b a); [discriminate | reflexivity].
  - destruct (N.eqb b a); [discriminate | reflexivity].
  - destruct r; try reflexivity. destruct st as [e|]; [|reflexivity].
    rewrite (Hk e eq_refl). destruct (k =? k'); [discriminate | reflexivity].
Qed.

Lemma ep_step_inv : forall cap timeout s o a st, cm_inv (clients s) -> ep_inv a st (clients s) ->
  ep_inv a (ep_step timeout a st o (snd (qstep cap timeout s o))) (clients (fst (qstep cap timeout s o))).
Proof.
  intros cap timeout s o a st Hinv Hep.
  destruct (qstep_rec cap timeout s o a Hinv) as (_ & Hrec & Hout).
  (* an operation that neither is a sweep nor mentions [a] or its queue changes neither side *)
  set (k := match st with Some e => e_qid e | None => 0 end).
  destruct (idle_op a k o) eqn:Hidle.
  { rewrite (ep_step_idle timeout a st o _ k) by (exact Hidle || intros e ->; reflexivity).
    rewrite (rec_after_idle cap timeout a _ _ _ o k) in Hrec; [eapply ep_inv_same; eauto | | exact Hidle].
    intros r Hr. destruct st as [e|]; simpl in Hep; [|congruence].
    destruct Hep as (r0 & H1 & _ & H3 & _). unfold k. congruence. }
  unfold idle_op in Hidle.
  destruct o as [p b|n|p b now|b now|k'|now|]; simpl in Hidle; try discriminate;
    cbn [rec_after out_after] in Hrec, Hout.
  - destruct (qclosed s); [rewrite (Hout _ eq_refl); eapply ep_inv_same; eauto|].
    destruct (N.eqb b a) eqn:E; [|discriminate]. rewrite (Hout _ eq_refl). simpl. rewrite E.
    destruct st as [e|]; simpl in Hep.
    + destruct Hep as (r & H1 & H2 & H3 & H4). rewrite H1 in Hrec |- *. simpl in Hrec |- *.
      eexists. split; [exact Hrec|]. destruct (length (c_q r) <? cap); simpl; repeat split; auto.
      rewrite H4, app_assoc. reflexivity.
    + rewrite Hep in Hrec |- *. simpl in Hrec |- *.
      eexists. split; [exact Hrec|]. destruct (0 <? cap); simpl; auto.
  - destruct (N.eqb b a) eqn:E; [|discriminate]. rewrite (Hout _ eq_refl). simpl. rewrite E.
    destruct st as [e|]; simpl in Hep.
    + destruct Hep as (r & H1 & H2 & H3 & H4). rewrite H1 in Hrec |- *. simpl in Hrec |- *.
      eexists. split; [exact Hrec|]. simpl. repeat split; auto.
      rewrite H4. destruct (c_q r); simpl; rewrite ?app_nil_r, <- ?app_assoc; reflexivity.
    + rewrite Hep in Hrec |- *. simpl in Hrec |- *. eexists. split; [exact Hrec|]. simpl. auto.
  - (* a receive on a's queue through a held reference *)
    destruct st as [e|].
    2:{ (* a has no queue: whatever queue k' is, it is not a's *)
        simpl in Hep. rewrite Hep in Hrec.
        destruct (snd (qstep cap timeout s (QHeldRecv k'))) as [| | | | | |k0 [x| |]|]; exact Hrec. }
    simpl in Hep. destruct Hep as (r & H1 & H2 & H3 & H4).
    unfold k in Hidle. rewrite <- H3 in Hidle. rewrite H1 in Hrec, Hout. cbv iota beta in Hrec, Hout.
    destruct (c_qid r =? k') eqn:Ek; [|discriminate]. rewrite (Hout _ eq_refl).
    destruct (c_q r) as [|p q'] eqn:Hq; cbn [ep_step rcv_of]; [|rewrite <- H3, Ek]; cbn [ep_inv e_seen e_qid e_w e_r].
    + exists r. split; [|rewrite Hq; auto]. rewrite Hrec. cbn [tl]. rewrite <- Hq. f_equal. apply set_q_id.
    + eexists. split; [exact Hrec|]. simpl. repeat split; auto. rewrite H4, <- app_assoc. reflexivity.
  - simpl. destruct st as [e|]; simpl in Hep.
    + destruct Hep as (r & H1 & H2 & H3 & H4). rewrite H1 in Hrec. unfold expired in Hrec. rewrite H2 in Hrec.
      destruct (now - e_seen e >=? timeout)%Z; simpl; [exact Hrec | exists r; auto].
    + rewrite Hep in Hrec. exact Hrec.
Qed.

Theorem epoch_fifo : forall cap timeout ops a s st, cm_inv (clients s) -> ep_inv a st (clients s) ->
  cm_inv (clients (fst (qrun cap timeout ops s))) /\
  ep_inv a (ep_run timeout a st ops (snd (qrun cap timeout ops s))) (clients (fst (qrun cap timeout ops s))).
Proof.
  intros cap timeout ops a. induction ops as [|o ops IH]; intros s st Hinv Hep; [simpl; auto|].
  rewrite qrun_cons. cbn [fst snd ep_run]. apply IH; [apply qstep_inv, Hinv | apply ep_step_inv; assumption].
Qed.

Lemma idle_step : forall cap timeout s o a r, cm_inv (clients s) ->
  rec_of (clients s) a = Some r -> idle_op a (c_qid r) o = true ->
  rec_of (clients (fst (qstep cap timeout s o))) a = Some r.
Proof.
  intros cap timeout s o a r Hinv Hrec Hidle.
  destruct (qstep_rec cap timeout s o a Hinv) as (_ & H & _). rewrite H, Hrec.
  apply (rec_after_idle _ _ _ _ _ _ _ (c_qid r)); [congruence | exact Hidle].
Qed.

Lemma gone_step : forall cap timeout s o a k, cm_inv (clients s) ->
  rec_of (clients s) a = None -> idle_op a k o || is_sweep o = true ->
  rec_of (clients (fst (qstep cap timeout s o))) a = None.
Proof.
  intros cap timeout s o a k Hinv Hrec Hidle.
  destruct (qstep_rec cap timeout s o a Hinv) as (_ & H & _). rewrite H, Hrec.
  apply orb_prop in Hidle. destruct Hidle as [Hi|Hs].
  - apply (rec_after_idle _ _ _ _ _ _ _ k); [discriminate | exact Hi].
  - destruct o; try discriminate. reflexivity.
Qed.

Lemma idle_run : forall cap timeout ops s a r, cm_inv (clients s) ->
  rec_of (clients s) a = Some r -> forallb (idle_op a (c_qid r)) ops = true ->
  rec_of (clients (fst (qrun cap timeout ops s))) a = Some r.
Proof.
  intros cap timeout ops s a r Hinv Hrec Hidle.
  apply (qrun_preserves_if cap timeout (fun s => cm_inv (clients s) /\ rec_of (clients s) a = Some r)
           (idle_op a (c_qid r))); [|exact Hidle|auto].
  clear. intros s o Ho [Hinv Hrec]. split; [apply qstep_inv | apply idle_step]; assumption.
Qed.

Lemma gone_run : forall cap timeout ops s a k, cm_inv (clients s) ->
  rec_of (clients s) a = None -> forallb (fun o => idle_op a k o || is_sweep o) ops = true ->
  rec_of (clients (fst (qrun cap timeout ops s))) a = None.
Proof.
  intros cap timeout ops s a k Hinv Hrec Hidle.
  apply (qrun_preserves_if cap timeout (fun s => cm_inv (clients s) /\ rec_of (clients s) a = None)
           (fun o => idle_op a k o || is_sweep o)); [|exact Hidle|auto].
  clear. intros s o Ho [Hinv Hrec]. split; [apply qstep_inv | apply (gone_step _ _ _ _ _ k)]; assumption.
Qed.

(* a history cut at its sweeps: segments of other operations, each followed by a sweep at the given instant *)
Fixpoint swept (segs : list (list qop * Z)) : list qop :=
  match segs with
  | [] => []
  | (seg, tau) :: rest => seg ++ QSweep tau :: swept rest
  end.

Definition idle_segs (a : N) (k : nat) (segs : list (list qop * Z)) : Prop :=
  Forall (fun x => forallb (idle_op a k) (fst x) = true) segs.

Lemma swept_idle_or_sweep : forall a k segs, idle_segs a k segs ->
  forallb (fun o => idle_op a k o || is_sweep o) (swept segs) = true.
Proof.
  intros a k segs H. induction H as [|[seg tau] rest H _ IH]; simpl; auto.
  rewrite forallb_app. apply andb_true_intro. split.
  - apply forallb_forall. intros o Ho. simpl in H.
    rewrite (proj1 (forallb_forall _ _) H o Ho). reflexivity.
  - simpl. exact IH.
Qed.

Lemma idle_segs_gone : forall cap timeout segs s a k, cm_inv (clients s) -> idle_segs a k segs ->
  rec_of (clients s) a = None -> In k (map fst (dead (clients s))) ->
  rec_of (clients (fst (qrun cap timeout (swept segs) s))) a = None /\
  In k (map fst (dead (clients (fst (qrun cap timeout (swept segs) s))))).
Proof.
  intros cap timeout segs s a k Hinv Hidle Hrec Hk. split.
  - apply (gone_run cap timeout (swept segs) s a k Hinv Hrec). apply swept_idle_or_sweep; auto.
  - apply qrun_dead_keys; auto.
Qed.

Theorem swept_idle : forall cap timeout segs s a r, cm_inv (clients s) ->
  rec_of (clients s) a = Some r -> idle_segs a (c_qid r) segs ->
  let s' := fst (qrun cap timeout (swept segs) s) in
  (Forall (fun x => (snd x - c_seen r < timeout)%Z) segs -> rec_of (clients s') a = Some r) /\
  (Exists (fun x => (snd x - c_seen r >= timeout)%Z) segs ->
     rec_of (clients s') a = None /\ In (c_qid r) (map fst (dead (clients s')))).
Proof.
  intros cap timeout segs. induction segs as [|[seg tau] rest IH]; intros s a r Hinv Hrec Hidle; simpl.
  - split; auto. intro X. inversion X.
  - inversion Hidle as [|x l Hseg Hrest]; subst. simpl in Hseg.
    rewrite qrun_app, qrun_cons. cbn [fst].
    set (s1 := fst (qrun cap timeout seg s)).
    assert (Hinv1 : cm_inv (clients s1)) by (apply qrun_inv; auto).
    assert (Hrec1 : rec_of (clients s1) a = Some r) by (apply idle_run; auto).
    pose proof (qstep_inv cap timeout s1 (QSweep tau) Hinv1) as Hinv2.
    destruct (Z_lt_ge_dec (tau - c_seen r) timeout) as [Hlt|Hge].
    + (* kept at this sweep *)
      assert (Hrec2 : rec_of (clients (fst (qstep cap timeout s1 (QSweep tau)))) a = Some r).
      { simpl. rewrite rec_of_remove_expired, Hrec1 by exact Hinv1.
        apply expired_false_iff in Hlt. rewrite Hlt. reflexivity. }
      destruct (IH _ a r Hinv2 Hrec2 Hrest) as [IH1 IH2]. split.
      * intro F. inversion F; subst. auto.
      * intro E. inversion E; subst; auto. simpl in *. lia.
    + (* removed at this sweep, and stays removed *)
      destruct (sweep_removed cap timeout s1 tau a r Hinv1 Hrec1 Hge) as (Hrec2 & _ & Hdead2 & _).
      unfold after_sweep in Hrec2, Hdead2.
      split; [intro F; inversion F; subst; simpl in *; lia|]. intros _.
      apply idle_segs_gone; [exact Hinv2 | exact Hrest | exact Hrec2|].
      apply in_map_iff. exists (c_qid r, c_q r). auto.
Qed.

(* for { time.Sleep(period); removeExpired(time.Now(), timeout) }, idealised: the k-th sweep is at
   phase + k*period (k = 1, 2, ...; any phase); NewClientMap uses period = timeout/2 *)
Definition tick (phase period : Z) (k : nat) : Z := (phase + Z.of_nat k * period)%Z.

Fixpoint with_ticks (phase period : Z) (k : nat) (segs : list (list qop)) : list (list qop * Z) :=
  match segs with
  | [] => []
  | seg :: rest => (seg, tick phase period (S k)) :: with_ticks phase period (S k) rest
  end.

(* the history: segments of operations that are not sweeps, the i-th followed by the (k+i)-th sweep *)
Definition ticked (phase period : Z) (k : nat) (segs : list (list qop)) : list qop :=
  swept (with_ticks phase period k segs).

Lemma swept_app : forall l1 l2, swept (l1 ++ l2) = swept l1 ++ swept l2.
Proof.
  induction l1 as [|[seg tau] l1 IH]; intros l2; simpl; auto.
  rewrite IH, <- app_assoc. reflexivity.
Qed.

Lemma with_ticks_app : forall phase period l1 l2 k,
  with_ticks phase period k (l1 ++ l2) = with_ticks phase period k l1 ++ with_ticks phase period (k + length l1) l2.
Proof.
  intros phase period l1. induction l1 as [|seg l1 IH]; intros l2 k; simpl.
  - rewrite Nat.add_0_r. reflexivity.
  - rewrite IH. replace (k + S (length l1)) with (S k + length l1) by lia. reflexivity.
Qed.

Lemma ticked_app : forall phase period l1 l2,
  ticked phase period 0 (l1 ++ l2) = ticked phase period 0 l1 ++ ticked phase period (length l1) l2.
Proof. intros. unfold ticked. rewrite with_ticks_app, swept_app. reflexivity. Qed.

(* the least multiple of [period] at or above x *)
Lemma next_multiple : forall period x, (0 < period)%Z ->
  (x <= (x + period - 1) / period * period < x + period)%Z.
Proof.
  intros period x Hp.
  pose proof (Z.div_mod (x + period - 1) period ltac:(lia)) as Hdm.
  pose proof (Z.mod_pos_bound (x + period - 1) period Hp) as Hmb.
  lia.
Qed.

(* the first tick at or after [t] (when the k0-th tick is before t) comes before t + period *)
Lemma first_tick : forall phase period k0 t, (0 < period)%Z -> (tick phase period k0 < t)%Z ->
  exists n, 1 <= n /\ (t <= tick phase period (k0 + n) < t + period)%Z /\
            (forall i, i < n -> (tick phase period (k0 + i) < t)%Z).
Proof.
  intros phase period k0 t Hp Hlt. unfold tick in *.
  set (d := (t - (phase + Z.of_nat k0 * period))%Z).
  pose proof (next_multiple period d Hp) as Hm.
  set (q := ((d + period - 1) / period)%Z) in Hm.
  assert (Hq : (1 <= q)%Z) by (unfold d in Hm; nia).
  exists (Z.to_nat q). split; [lia|]. split.
  - rewrite Nat2Z.inj_add, Z2Nat.id by lia. unfold d in Hm. lia.
  - intros i Hi. rewrite Nat2Z.inj_add.
    assert (Z.of_nat i <= q - 1)%Z by lia. unfold d in Hm. nia.
Qed.

Lemma reach_inv : forall cap timeout ops,
  cm_inv (clients (fst (qrun cap timeout ops qc_empty))) /\ dead_ok (clients (fst (qrun cap timeout ops qc_empty))).
Proof.
  intros. split; [apply qrun_inv; exact cm_inv_empty | apply qrun_dead_ok; [exact cm_inv_empty | exact dead_ok_empty]].
Qed.
