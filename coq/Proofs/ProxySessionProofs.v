(* ProxySessionProofs.v — the proxy session machine (Model/ProxySession.v).  V1 (repaired code): the invariant of all
   schedules (token account, shape of every session) and its consequences.  V0 (pinned code): the schedules on which
   a slot is released twice, and the transfer of the V1 results to tie-free schedules. *)
From Coq Require Import List ZArith Arith Bool Lia.
From Snow Require Import Model.Tokens Model.TokensConc Proofs.TokensConcProofs Model.ProxySession.
Import ListNotations.
Local Open Scope nat_scope.

Definition pend (c : sess) : nat := match hp c with HRetRecv => 1 | _ => 0 end.
Definition mpend (m : mpc) : nat := match m with MRetRecv => 1 | _ => 0 end.
Definition mget (m : mpc) : Z := match m with MGetSend => 1%Z | _ => 0%Z end.
Definition idle (m : mpc) : bool := match m with MTop | MGetSend | MStopped => true | _ => false end.

Definition tot (f : sess -> nat) (st : state) : nat :=
  sum (map f (bg st)) + match cur st with Some c => f c | None => 0 end.

Lemma sum_app : forall l1 l2, sum (l1 ++ l2) = sum l1 + sum l2.
Proof. induction l1 as [|x l IH]; intros; cbn; [lia | rewrite IH; lia]. Qed.

Lemma sum_map_app : forall (f : sess -> nat) l c, sum (map f (l ++ [c])) = sum (map f l) + f c.
Proof. intros. rewrite map_app, sum_app. cbn. lia. Qed.

Lemma sum_sessions : forall f st, sum (map f (sessions st)) = tot f st.
Proof.
  intros f st. unfold sessions, tot. destruct (cur st) as [c|].
  - apply sum_map_app.
  - rewrite app_nil_r. lia.
Qed.

Lemma in_use_tot : forall st, in_use st = tot holds st.
Proof. intros. unfold in_use. apply sum_sessions. Qed.

(* replacing one element: the sum is the rest plus the element *)
Lemma sum_upd : forall (f : sess -> nat) l i c, nth_error l i = Some c ->
  exists rest, sum (map f l) = rest + f c /\ forall c', sum (map f (upd i (fun _ => c') l)) = rest + f c'.
Proof.
  induction l as [|x l IH]; intros [|k] c H; cbn in H; try discriminate.
  - injection H as ->. exists (sum (map f l)). split; [cbn; lia | intros; cbn; lia].
  - destruct (IH k c H) as (r & E & E'). exists (f x + r). split; [cbn; lia | intros c'; cbn; rewrite E'; lia].
Qed.

Lemma length_upd : forall A (g : A -> A) l i, length (upd i g l) = length l.
Proof. induction l as [|x l IH]; intros [|k]; cbn; auto. Qed.

Lemma Forall_upd : forall (P : sess -> Prop) l i c',
  Forall P l -> P c' -> Forall P (upd i (fun _ => c') l).
Proof.
  induction l as [|x l IH]; intros i c' HF Hc; [destruct i; cbn; auto|].
  inversion HF; subst. destruct i; cbn; constructor; auto.
Qed.

Lemma length_sessions : forall st,
  length (sessions st) = length (bg st) + match cur st with Some _ => 1 | None => 0 end.
Proof. intros. unfold sessions. rewrite app_length. destruct (cur st); cbn; lia. Qed.

(* the counter stands at used + g (g = 1 between the two halves of a get); the channel, if there is one, holds an
   element for every slot in use and for every release whose receive is still to come *)
Definition tok_ok (N : nat) (t : tokens) (used rel : nat) (g : Z) : Prop :=
  cap t = N /\ clients t = (Z.of_nat used + g)%Z /\ (N <> 0 -> chlen t = used + rel /\ chlen t <= N).

(* one atomic step of get or ret moves the account by what the step adds to the counter and to the channel *)
Lemma tok_ok_micro : forall N t used rel g m used' rel' g', tok_ok N t used rel g -> micro_ready t m = true ->
  (Z.of_nat used' + g' = Z.of_nat used + g + net_c m)%Z ->
  (Z.of_nat (used' + rel') = Z.of_nat (used + rel) + net_h m)%Z ->
  tok_ok N (micro_apply t m) used' rel' g'.
Proof.
  intros N t used rel g m used' rel' g' (Hc & Hcl & Hch) Hr Ec Eh. unfold tok_ok.
  rewrite cap_apply, clients_apply, Hcl. split; [exact Hc|]. split; [lia|].
  intros HN. destruct (Hch HN) as [E L]. rewrite <- Hc in HN, L. destruct (chlen_apply t m HN Hr) as [E' L'].
  rewrite <- Hc. split; [lia | exact (L' L)].
Qed.

Lemma tok_ok_eq : forall N t used rel g used' rel', tok_ok N t used rel g -> used' = used -> rel' = rel ->
  tok_ok N t used' rel' g.
Proof. intros; subst; assumption. Qed.

(* a release whose receive is still to come finds its element in the channel *)
Lemma tok_ok_recv_ready : forall N t used rel g, tok_ok N t used (S rel) g -> recv_ready t = true.
Proof.
  intros N t used rel g (Hc & _ & Hch). unfold recv_ready. destruct (Nat.eqb_spec (cap t) 0) as [|n]; [reflexivity|].
  rewrite Hc in n. destruct (Hch n) as [E _]. apply Nat.ltb_lt. lia.
Qed.

Lemma recv_ready_pos : forall t, cap t <> 0 -> recv_ready t = true -> 0 < chlen t.
Proof.
  intros t Hc H. unfold recv_ready in H. apply orb_true_iff in H as [H|H].
  - apply Nat.eqb_eq in H. contradiction.
  - apply Nat.ltb_lt in H. exact H.
Qed.

Lemma cap_eqb_false : forall t, cap t <> 0 -> (cap t =? 0) = false.
Proof. intros. apply Nat.eqb_neq. assumption. Qed.

(* runSession has given the session up (mr: it has also called ret); a handler can only find that out and stop *)
Inductive given_up (mr : bool) : sess -> Prop :=
| gu_none : given_up mr (mkSess HNone false OMain mr false)
| gu_start : given_up mr (mkSess HStart true OMain mr false)
| gu_done : given_up mr (mkSess HDone true OMain mr false).

(* the handler has claimed the session: it holds the slot until it calls ret *)
Inductive served : sess -> Prop :=
| sv_dial : served (mkSess HDial true OHandler false false)
| sv_run : served (mkSess HRun true OHandler false false)
| sv_ret : served (mkSess HRetRecv true OHandler false true)
| sv_done : served (mkSess HDone true OHandler false true).

(* a session runSession has returned from *)
Inductive bg_ok : sess -> Prop :=
| bg_unclaimed : bg_ok (mkSess HStart true ONone false false)
| bg_given_up c : given_up true c -> bg_ok c
| bg_served c : served c -> bg_ok c.

Definition unowned_stage (m : mpc) : bool :=
  match m with MPoll | MRelay | MMakePC | MAnswer | MSelect | MGiveUp => true | _ => false end.
Definition late_stage (m : mpc) : bool := match m with MAnswer | MSelect | MGiveUp => true | _ => false end.

(* the session runSession is in, at main stage m *)
Inductive cur_ok : mpc -> sess -> Prop :=
| cur_fresh m : unowned_stage m = true -> cur_ok m new_sess
| cur_opened m : late_stage m = true -> cur_ok m (mkSess HStart true ONone false false)
| cur_closing c : given_up false c -> cur_ok MClosing c
| cur_retrecv c : given_up true c -> cur_ok MRetRecv c
| cur_served m c : late_stage m = true -> served c -> cur_ok m c.

Definition poll_ok (p : Z * nat) : Prop :=
  (8 | fst p)%Z /\ (0 <= fst p <= Z.of_nat (snd p))%Z.

Record Inv (N : nat) (st : state) : Prop := mkInv {
  inv_tok : tok_ok N (tok st) (tot holds st) (tot pend st + mpend (mn st)) (mget (mn st));
  inv_bg : Forall bg_ok (bg st);
  inv_cur : match cur st with Some c => cur_ok (mn st) c | None => idle (mn st) = true end;
  inv_gets : gets st = length (bg st) + match cur st with Some _ => 1 | None => 0 end;
  inv_polls : Forall poll_ok (polls st)
}.

Lemma inv_cap : forall N st, Inv N st -> cap (tok st) = N.
Proof. intros N st I. apply (inv_tok _ _ I). Qed.

Lemma inv_ch : forall N st, Inv N st -> N <> 0 ->
  chlen (tok st) = tot holds st + (tot pend st + mpend (mn st)) /\ chlen (tok st) <= N.
Proof. intros N st I. apply (inv_tok _ _ I). Qed.

Lemma Inv_init : forall N, Inv N (init N).
Proof. intros N. constructor; cbn; auto. repeat split; try reflexivity. apply Nat.le_0_l. Qed.

Lemma inv_bg_nth : forall N st i c, Inv N st -> nth_error (bg st) i = Some c -> bg_ok c.
Proof. intros N st i c I Hn. eapply Forall_forall; [exact (inv_bg _ _ I) | eapply nth_error_In; eauto]. Qed.

(* a step that takes session c to c' and the tokens from t to t' keeps the account, whatever the other sessions hold *)
Definition acct_step (t : tokens) (c : sess) (t' : tokens) (c' : sess) : Prop :=
  forall N used rel g, tok_ok N t (used + holds c) (rel + pend c) g -> tok_ok N t' (used + holds c') (rel + pend c') g.

Lemma acct_step_use : forall t c t' c' N U R g U' R', acct_step t c t' c' -> tok_ok N t U R g ->
  holds c <= U -> pend c <= R -> U' + holds c = U + holds c' -> R' + pend c = R + pend c' -> tok_ok N t' U' R' g.
Proof.
  intros t c t' c' N U R g U' R' H K Lh Lp Eh Ep.
  eapply tok_ok_eq; [apply (H N (U - holds c) (R - pend c) g); eapply tok_ok_eq; [exact K| |]| |]; lia.
Qed.

Lemma acct_ret : forall t c c', holds c = 1 -> holds c' = 0 -> pend c' = S (pend c) -> acct_step t c (tok_dec t) c'.
Proof.
  intros t c c' H1 H2 H3 N used rel g K. rewrite H1 in K. rewrite H2, H3.
  apply (tok_ok_micro _ _ _ _ _ MDec _ _ _ K eq_refl); cbn [net_c net_h]; lia.
Qed.

Lemma acct_recv : forall t c c', holds c' = holds c -> pend c = S (pend c') -> acct_step t c (tok_recv t) c'.
Proof.
  intros t c c' H1 H2 N used rel g K. rewrite H1. rewrite H2 in K.
  refine (tok_ok_micro _ _ _ _ _ MRecv _ _ _ K _ _ _); cbn [net_c net_h micro_ready]; [|lia..].
  apply (tok_ok_recv_ready N t (used + holds c) (rel + pend c') g). eapply tok_ok_eq; [exact K| |]; lia.
Qed.

Lemma hstep_served : forall a t c c' t', hstep V1 a t c = Some (c', t') -> served c -> served c' /\ acct_step t c t' c'.
Proof.
  intros a t c c' t' H Hs. destruct a; destruct Hs; cbn [hstep hp] in H; try discriminate.
  - injection H as <- <-. split; [constructor | exact (fun _ _ _ _ K => K)].
  - injection H as <- <-. split; [constructor | apply acct_ret; reflexivity].
  - injection H as <- <-. split; [constructor | apply acct_ret; reflexivity].
  - injection H as <- <-. split; [constructor | apply acct_ret; reflexivity].
  - destruct (recv_ready t); [|discriminate]. injection H as <- <-. split; [constructor | apply acct_recv; reflexivity].
Qed.

(* the handler of a session runSession has given up finds the owner word taken and stops *)
Lemma hstep_given_up : forall a t mr c c' t', hstep V1 a t c = Some (c', t') -> given_up mr c ->
  given_up mr c' /\ acct_step t c t' c'.
Proof.
  intros a t mr c c' t' H Hs. destruct a; destruct Hs; cbn [hstep hp own] in H; try discriminate.
  injection H as <- <-. split; [constructor | exact (fun _ _ _ _ K => K)].
Qed.

Lemma hstep_unclaimed : forall a t c' t', hstep V1 a t (mkSess HStart true ONone false false) = Some (c', t') ->
  served c' /\ acct_step t (mkSess HStart true ONone false false) t' c'.
Proof.
  intros a t c' t' H. destruct a; cbn [hstep hp own] in H; try discriminate.
  injection H as <- <-. split; [constructor | exact (fun _ _ _ _ K => K)].
Qed.

Lemma hstep_bg : forall a t c c' t', hstep V1 a t c = Some (c', t') -> bg_ok c -> bg_ok c' /\ acct_step t c t' c'.
Proof.
  intros a t c c' t' H Hok. destruct Hok as [|c Hc|c Hc].
  - destruct (hstep_unclaimed _ _ _ _ H). auto using bg_ok.
  - destruct (hstep_given_up _ _ _ _ _ _ H Hc). auto using bg_ok.
  - destruct (hstep_served _ _ _ _ _ H Hc). auto using bg_ok.
Qed.

Lemma hstep_cur : forall a t m c c' t', hstep V1 a t c = Some (c', t') -> cur_ok m c -> cur_ok m c' /\ acct_step t c t' c'.
Proof.
  intros a t m c c' t' H Hok. destruct Hok as [m Hm|m Hm|c Hc|c Hc|m c Hm Hc].
  - destruct a; discriminate.
  - destruct (hstep_unclaimed _ _ _ _ H). auto using cur_ok.
  - destruct (hstep_given_up _ _ _ _ _ _ H Hc). auto using cur_ok.
  - destruct (hstep_given_up _ _ _ _ _ _ H Hc). auto using cur_ok.
  - destruct (hstep_served _ _ _ _ _ H Hc). auto using cur_ok.
Qed.

Lemma step_handler_inv : forall N st i a st',
  Inv N st -> step V1 st (LH i a) = Some st' -> Inv N st'.
Proof.
  intros N st i a st' I H. assert (Hbg := fun c => inv_bg_nth N st i c I). destruct I as [It Ibg Icur Ig Ip].
  destruct st as [t m b cu ps g]. cbn [step tok bg cur mn polls gets] in *. unfold tot in It. cbn [bg cur] in It.
  destruct (nth_error b i) as [c|] eqn:Hn.
  - destruct (hstep V1 a t c) as [[c' t']|] eqn:Hs; [|discriminate]. injection H as <-.
    destruct (hstep_bg _ _ _ _ _ Hs (Hbg c eq_refl)) as [Hok Hacct].
    destruct (sum_upd holds b i c Hn) as (rh & Eh & Eh'). destruct (sum_upd pend b i c Hn) as (rp & Ep & Ep').
    constructor; unfold tot; cbn [tok bg cur mn polls gets set_tok set_bg]; auto.
    + rewrite Eh', Ep'. rewrite Eh, Ep in It. eapply acct_step_use; [exact Hacct | exact It | lia..].
    + apply Forall_upd; auto.
    + rewrite length_upd. exact Ig.
  - destruct (i =? length b); [|discriminate]. destruct cu as [c|]; [|discriminate].
    destruct (hstep V1 a t c) as [[c' t']|] eqn:Hs; [|discriminate]. injection H as <-.
    destruct (hstep_cur _ _ _ _ _ _ Hs Icur) as [Hok Hacct].
    constructor; unfold tot; cbn [tok bg cur mn polls gets set_tok set_cur]; auto.
    + eapply acct_step_use; [exact Hacct | exact It | lia..].
Qed.

Lemma reported_ok : forall t u, clients t = Z.of_nat u -> poll_ok (reported t, u).
Proof.
  intros t u H. unfold poll_ok, reported, count. cbn [fst snd]. rewrite H.
  assert (Hq : (0 <= Z.quot (Z.of_nat u) 8)%Z) by (apply Z.quot_pos; lia).
  assert (Hm : (8 * Z.quot (Z.of_nat u) 8 <= Z.of_nat u)%Z) by (apply Z.mul_quot_le; lia).
  split.
  - exists (Z.quot (Z.of_nat u) 8). reflexivity.
  - lia.
Qed.

(* stage changes of runSession that touch neither the tokens nor the session *)
Definition stage_next (m m' : mpc) : bool :=
  match m, m' with
  | MTop, MStopped | MPoll, MRelay | MRelay, MMakePC | MMakePC, MAnswer | MAnswer, MGiveUp | MAnswer, MSelect
  | MSelect, MGiveUp => true
  | _, _ => false
  end.
(* stages at which runSession may call tokens.ret() *)
Definition ret_stage (m : mpc) : bool := match m with MPoll | MRelay | MMakePC | MClosing => true | _ => false end.
(* pollOffer may have recorded a load figure first *)
Definition polled (st st0 : state) : Prop := st0 = st \/ (mn st = MPoll /\ st0 = record_poll st).

(* what a step of the Start goroutine does to the state, the labels forgotten *)
Inductive main_effect (v : version) (st : state) : state -> Prop :=
| me_poll : mn st = MPoll -> main_effect v st (record_poll st)
| me_stage st0 m' : polled st st0 -> stage_next (mn st) m' = true -> main_effect v st (set_mn st0 m')
| me_ret st0 st' : polled st st0 -> ret_stage (mn st) = true -> main_ret st0 = Some st' -> main_effect v st st'
| me_get : mn st = MTop -> main_effect v st (set_mn (set_tok st (tok_inc (tok st))) MGetSend)
| me_getsend : mn st = MGetSend -> send_ready (tok st) = true ->
    main_effect v st (mkSt (tok_send (tok st)) MPoll (bg st) (Some new_sess) (polls st) (S (gets st)))
| me_finish c : cur st = Some c -> (mn st = MSelect /\ dc c = true) \/ (mn st = MGiveUp /\ v = V1 /\ own c = OHandler) ->
    main_effect v st (finish st)
| me_giveup c : mn st = MGiveUp -> cur st = Some c -> v = V0 \/ own c <> OHandler ->
    main_effect v st (set_mn (set_cur st (mkSess (hp c) (dc c) OMain (mrel c) (hrel c))) MClosing)
| me_recv : mn st = MRetRecv -> recv_ready (tok st) = true -> main_effect v st (finish (set_tok st (tok_recv (tok st))))
| me_dcopen c : dc_stage (mn st) = true -> cur st = Some c -> dc c = false ->
    main_effect v st (set_cur st (mkSess HStart true (own c) (mrel c) (hrel c))).

Lemma stage_effect : forall v st m', stage_next (mn st) m' = true -> main_effect v st (set_mn st m').
Proof. intros v st m' H. exact (me_stage v st st m' (or_introl eq_refl) H). Qed.

Lemma ret_effect : forall v st st', ret_stage (mn st) = true -> main_ret st = Some st' -> main_effect v st st'.
Proof. intros v st st' Hr H. exact (me_ret v st st st' (or_introl eq_refl) Hr H). Qed.

(* a label is a step of a handler goroutine or one of the Start goroutine *)
Lemma label_cases : forall l, (exists i a, l = LH i a) \/ (forall i a, l <> LH i a).
Proof. intros l. destruct l; [right; discriminate .. | left; eauto]. Qed.

Lemma step_main_effect : forall v st l st', step v st l = Some st' -> (forall i a, l <> LH i a) -> main_effect v st st'.
Proof.
  intros v st l st' H Hl.
  (* every label of the Start goroutine but LDcOpen is enabled at one stage, M *)
  destruct l; cbn [step] in H; try (destruct (mn st) eqn:M; try discriminate H; []).
  - (* LGet *) injection H as <-. apply me_get, M.
  - (* LGetSend *) destruct (send_ready (tok st)) eqn:S; [|discriminate]. injection H as <-. apply me_getsend; assumption.
  - (* LStop *) injection H as <-. apply stage_effect. rewrite M. reflexivity.
  - (* LPollNoMatch *) injection H as <-. apply me_poll, M.
  - (* LPollNil *) apply (me_ret v st (record_poll st)); [right; auto | rewrite M; reflexivity | exact H].
  - (* LPollShutdown *) apply ret_effect; [rewrite M; reflexivity | exact H].
  - (* LPollOffer *) injection H as <-. apply (me_stage v st (record_poll st)); [right; auto | rewrite M; reflexivity].
  - (* LRelayBad *) apply ret_effect; [rewrite M; reflexivity | exact H].
  - (* LRelayOk *) injection H as <-. apply stage_effect. rewrite M. reflexivity.
  - (* LPcFail *) apply ret_effect; [rewrite M; reflexivity | exact H].
  - (* LPcOk *) injection H as <-. apply stage_effect. rewrite M. reflexivity.
  - (* LAnswerFail *) injection H as <-. apply stage_effect. rewrite M. reflexivity.
  - (* LAnswerOk *) injection H as <-. apply stage_effect. rewrite M. reflexivity.
  - (* LSelectOpen *)
    destruct (cur st) as [c|] eqn:C; [|discriminate]. destruct (dc c) eqn:D; [|discriminate]. injection H as <-.
    apply (me_finish v st c); auto.
  - (* LSelectTimeout *) injection H as <-. apply stage_effect. rewrite M. reflexivity.
  - (* LGiveUp *)
    destruct (cur st) as [c|] eqn:C; [|discriminate].
    destruct v; [injection H as <-; apply me_giveup; auto|].
    destruct (own c) eqn:O; injection H as <-;
      first [apply (me_finish V1 st c); auto | apply me_giveup; auto; right; congruence].
  - (* LClose *) apply ret_effect; [rewrite M; reflexivity | exact H].
  - (* LMainRecv *) destruct (recv_ready (tok st)) eqn:R; [|discriminate]. injection H as <-. apply me_recv; assumption.
  - (* LDcOpen *)
    destruct (cur st) as [c|] eqn:C; [|discriminate]. destruct (dc_stage (mn st)) eqn:D; [|discriminate].
    destruct (dc c) eqn:Dc; [discriminate|]. injection H as <-. apply me_dcopen; auto.
  - (* LH *) exfalso. exact (Hl i a eq_refl).
Qed.

Lemma cur_ok_idle : forall m c, cur_ok m c -> idle m = false.
Proof. intros m c [m' H|m' H|? _|? _|m' ? H _]; try reflexivity; destruct m'; try discriminate; reflexivity. Qed.

Lemma cur_ok_stage : forall m m' c, cur_ok m c -> stage_next m m' = true -> cur_ok m' c.
Proof.
  intros m m' c H Hs. destruct m, m'; try discriminate; inversion H; subst; try discriminate; auto using cur_ok.
Qed.

Lemma cur_ok_ret : forall m c, cur_ok m c -> ret_stage m = true ->
  own c <> OHandler /\ given_up true (mkSess (hp c) (dc c) OMain true (hrel c)) /\ holds c = 1 /\ mpend m = 0 /\ mget m = 0%Z.
Proof.
  intros m c H Hr. destruct H as [m H|m H|c []|c []|m c H Hc]; try (destruct m); try discriminate;
    repeat split; try constructor; discriminate.
Qed.

Lemma cur_ok_finish : forall m c, cur_ok m c -> (m = MSelect /\ dc c = true) \/ (m = MGiveUp /\ own c = OHandler) ->
  bg_ok c /\ mpend m = 0 /\ mget m = 0%Z.
Proof.
  intros m c H [[-> Hd]|[-> Ho]]; inversion H; subst; try discriminate; repeat split; auto using bg_ok.
Qed.

Lemma cur_ok_giveup : forall c, cur_ok MGiveUp c -> own c <> OHandler ->
  given_up false (mkSess (hp c) (dc c) OMain (mrel c) (hrel c)).
Proof. intros c H Ho. inversion H as [| | | |? ? _ []]; subst; try constructor; contradiction Ho; reflexivity. Qed.

Lemma cur_ok_dcopen : forall m c, cur_ok m c -> dc_stage m = true -> dc c = false ->
  cur_ok m (mkSess HStart true (own c) (mrel c) (hrel c)) /\ pend c = 0.
Proof.
  intros m c H Hm Hd. destruct H as [m H|m H|c []|c []|m c H []]; try discriminate.
  - split; [apply cur_opened; destruct m; try discriminate; reflexivity | reflexivity].
  - split; [apply cur_closing; constructor | reflexivity].
Qed.

Lemma main_effect_inv : forall N st st', Inv N st -> main_effect V1 st st' -> Inv N st'.
Proof.
  intros N st st' I E.
  assert (Hpoll : forall st0, polled st st0 ->
            exists ps0, st0 = mkSt (tok st) (mn st) (bg st) (cur st) ps0 (gets st) /\ Forall poll_ok ps0).
  { intros st0 [->|[M ->]].
    - exists (polls st). split; [destruct st; reflexivity | apply (inv_polls _ _ I)].
    - eexists. split; [reflexivity|]. apply Forall_app. split; [apply (inv_polls _ _ I) | apply Forall_cons; [|apply Forall_nil]].
      apply reported_ok. rewrite in_use_tot, (proj1 (proj2 (inv_tok _ _ I))), M. apply Z.add_0_r. }
  destruct I as [It Ibg Icur Ig Ip]. destruct st as [t m b cu ps g]. unfold tot in It.
  cbn [tok mn bg cur polls gets] in *.
  destruct E as [M | st0 m' Hp Hs | st0 st' Hp Hs Hr | M | M S | c C F | c M C O | M R | c D C Dc];
    cbn [tok mn bg cur polls gets] in *.
  - destruct (Hpoll _ (or_intror (conj M eq_refl))) as (ps0 & E & Hps). rewrite E. constructor; assumption.
  - destruct (Hpoll _ Hp) as (ps0 & -> & Hps). constructor; unfold tot; cbn [tok mn bg cur polls gets set_mn]; try assumption.
    + destruct m, m'; try discriminate; exact It.
    + destruct cu as [c|]; [exact (cur_ok_stage _ _ _ Icur Hs) | destruct m, m'; try discriminate; reflexivity].
  - destruct (Hpoll _ Hp) as (ps0 & -> & Hps). unfold main_ret in Hr. cbn [cur tok bg polls gets] in Hr.
    destruct cu as [c|]; [|discriminate]. injection Hr as <-. destruct (cur_ok_ret _ _ Icur Hs) as (_ & Hg & Hh & Hm & Hz).
    constructor; unfold tot; cbn [tok mn bg cur polls gets]; try assumption; [|apply cur_retrecv, Hg].
    rewrite Hh, Hm, Hz in It. apply (tok_ok_micro _ _ _ _ _ MDec _ _ _ It eq_refl); cbn [net_c net_h mpend mget holds mrel orb];
      change (pend (mkSess (hp c) (dc c) OMain true (hrel c))) with (pend c); lia.
  - subst m. destruct cu as [c|]; [discriminate (cur_ok_idle _ _ Icur)|].
    constructor; unfold tot; cbn [tok mn bg cur polls gets set_mn set_tok]; try assumption.
    apply (tok_ok_micro _ _ _ _ _ MInc _ _ _ It eq_refl); cbn [net_c net_h mpend mget]; lia.
  - subst m. destruct cu as [c|]; [discriminate (cur_ok_idle _ _ Icur)|].
    constructor; unfold tot; cbn [tok mn bg cur polls gets]; try assumption; [|apply cur_fresh; reflexivity|].
    + apply (tok_ok_micro _ _ _ _ _ MSend _ _ _ It S); cbn [net_c net_h mpend mget holds pend new_sess mrel hrel hp orb]; lia.
    + lia.
  - subst cu. assert (F' : m = MSelect /\ dc c = true \/ m = MGiveUp /\ own c = OHandler) by tauto.
    destruct (cur_ok_finish _ _ Icur F') as (Hb & Hm & Hz).
    constructor; unfold tot; cbn [tok mn bg cur polls gets finish]; try assumption; [| |reflexivity|].
    + rewrite !sum_map_app. rewrite Hm, Hz in It. eapply tok_ok_eq; [exact It | |]; cbn [mpend]; lia.
    + apply Forall_app. auto.
    + rewrite app_length. cbn [length]. lia.
  - subst m cu. destruct O as [O|O]; [discriminate|].
    constructor; unfold tot; cbn [tok mn bg cur polls gets set_mn set_cur]; try assumption.
    apply cur_closing, cur_ok_giveup; assumption.
  - subst m. destruct cu as [c|]; [|discriminate]. inversion Icur as [| | |? Hg|]; subst; try discriminate.
    constructor; unfold tot; cbn [tok mn bg cur polls gets finish set_tok]; try assumption; [| |reflexivity|].
    + rewrite !sum_map_app. apply (tok_ok_micro _ _ _ _ _ MRecv _ _ _ It); cbn [net_c net_h mpend mget micro_ready]; [exact R|lia..].
    + apply Forall_app. auto using bg_ok.
    + rewrite app_length. cbn [length]. lia.
  - subst cu. destruct (cur_ok_dcopen _ _ Icur D Dc) as [Hok Hp].
    constructor; unfold tot; cbn [tok mn bg cur polls gets set_cur]; try assumption.
    eapply tok_ok_eq; [exact It | reflexivity | rewrite Hp; reflexivity].
Qed.

Lemma Inv_step : forall N st l st', Inv N st -> step V1 st l = Some st' -> Inv N st'.
Proof.
  intros N st l st' I H. destruct (label_cases l) as [(i & a & ->)|Hl].
  - exact (step_handler_inv N st i a st' I H).
  - exact (main_effect_inv N st st' I (step_main_effect _ _ _ _ H Hl)).
Qed.

Lemma run_inv_from : forall N ls st st', Inv N st -> run V1 st ls = Some st' -> Inv N st'.
Proof.
  induction ls as [|l ls IH]; intros st st' I H; cbn in H.
  - inversion H; subst; auto.
  - destruct (step V1 st l) as [s1|] eqn:E; [|discriminate]. eapply IH; [|exact H]. eapply Inv_step; eauto.
Qed.

Lemma run_inv : forall N ls st, run V1 (init N) ls = Some st -> Inv N st.
Proof. intros. eapply run_inv_from; [apply Inv_init | eauto]. Qed.

Lemma bg_active_le : forall l, Forall bg_ok l ->
  sum (map (fun c => if serving c then 1 else 0) l) <= sum (map holds l).
Proof.
  induction 1 as [|c l Hc _ IH]; cbn; [lia|].
  assert ((if serving c then 1 else 0) <= holds c) by (destruct Hc as [|c []|c []]; cbn; lia). lia.
Qed.

Lemma inv_active_le_in_use : forall N st, Inv N st -> n_active st <= in_use st.
Proof.
  intros N st [_ Ibg Icur _ _]. rewrite in_use_tot. unfold n_active, tot.
  assert (H := bg_active_le _ Ibg).
  destruct (cur st) as [c|]; [|lia].
  assert ((if serving c || (negotiating (mn st) && handler_pending c) then 1 else 0) <= holds c).
  { destruct Icur as [m Hm|m Hm|c []|c []|m c Hm []]; try (destruct m; try discriminate); cbn; lia. }
  lia.
Qed.

Lemma inv_in_use_le_cap : forall N st, N <> 0 -> Inv N st -> in_use st <= N.
Proof. intros N st HN I. rewrite in_use_tot. destruct (inv_ch _ _ I HN). lia. Qed.

Lemma sess_released_le1 : forall N st c, Inv N st -> In c (sessions st) -> released c <= 1.
Proof.
  intros N st c [_ Ibg Icur _ _] Hin. unfold sessions in Hin. apply in_app_or in Hin as [Hin|Hin].
  - rewrite Forall_forall in Ibg. destruct (Ibg _ Hin) as [|c []|c []]; cbn; lia.
  - destruct (cur st) as [c0|]; [|contradiction]. destruct Hin as [<-|[]].
    destruct Icur as [| |c []|c []|? c ? []]; cbn; lia.
Qed.

Lemma bg_quiet : forall c, bg_ok c -> handler_quiet c = true -> released c = 1 /\ holds c = 0 /\ pend c = 0.
Proof. intros c [|c' []|c' []] Hq; try discriminate; repeat split. Qed.

Lemma sess_terminated_released : forall N st c, Inv N st ->
  In c (bg st) -> handler_quiet c = true -> released c = 1.
Proof.
  intros N st c I Hin Hq. apply bg_quiet; [|exact Hq]. eapply Forall_forall; [exact (inv_bg _ _ I) | exact Hin].
Qed.

Lemma quiet_holds0 : forall l, Forall bg_ok l -> forallb handler_quiet l = true ->
  sum (map holds l) = 0 /\ sum (map pend l) = 0.
Proof.
  induction 1 as [|c l Hc _ IH]; cbn; intros Hq; [auto|].
  apply andb_true_iff in Hq as [Hq1 Hq2]. destruct (IH Hq2) as [E1 E2].
  destruct (bg_quiet c Hc Hq1) as (_ & E3 & E4). lia.
Qed.

Lemma inv_all_terminated : forall N st, Inv N st -> all_terminated st = true ->
  in_use st = 0 /\ count (tok st) = mget (mn st) /\ (N <> 0 -> chlen (tok st) = 0) /\ idle (mn st) = true.
Proof.
  intros N st I Ht. unfold all_terminated in Ht. apply andb_true_iff in Ht as [Hc Hq].
  destruct I as [(_ & Icl & Ich) Ibg Icur _ _]. rewrite in_use_tot. unfold tot, count in *.
  destruct (cur st); [discriminate|]. destruct (quiet_holds0 _ Ibg Hq) as [E1 E2].
  rewrite E1, E2 in *. repeat split; auto; try lia.
  intros HN. specialize (Ich HN). destruct (mn st); cbn in *; try discriminate; lia.
Qed.

Lemma inv_ret_never_blocks : forall N st, Inv N st ->
  (mn st = MRetRecv \/ exists c, In c (sessions st) /\ hp c = HRetRecv) -> recv_ready (tok st) = true.
Proof.
  intros N st I H.
  assert (P : 1 <= tot pend st + mpend (mn st)).
  { destruct H as [-> | (c & Hin & Hc)]; [cbn; lia|]. rewrite <- sum_sessions.
    induction (sessions st) as [|x l IH]; [contradiction|].
    cbn. destruct Hin as [->|Hin]; [unfold pend at 1; rewrite Hc; lia | specialize (IH Hin); lia]. }
  destruct (tot pend st + mpend (mn st)) as [|r] eqn:E; [lia|].
  apply (tok_ok_recv_ready N _ (tot holds st) r (mget (mn st))). rewrite <- E. exact (inv_tok _ _ I).
Qed.

Lemma nth_sessions : forall st i,
  nth_error (sessions st) i =
  match nth_error (bg st) i with
  | Some c => Some c
  | None => if i =? length (bg st) then cur st else None
  end.
Proof.
  intros st i. unfold sessions. destruct (nth_error (bg st) i) as [c|] eqn:E.
  - rewrite nth_error_app1; [auto|]. apply nth_error_Some. congruence.
  - apply nth_error_None in E. rewrite nth_error_app2 by lia.
    destruct (Nat.eqb_spec i (length (bg st))) as [->|n].
    + rewrite Nat.sub_diag. destruct (cur st); reflexivity.
    + destruct (cur st); [|apply nth_error_None; cbn; lia].
      destruct (i - length (bg st)) as [|k] eqn:D; [lia|]. cbn. destruct k; reflexivity.
Qed.

Lemma step_v0_v1 : forall st l, tie_step st l = false -> step V0 st l = step V1 st l.
Proof.
  intros st l Ht. destruct l; try reflexivity.
  - cbn [step]. destruct (mn st); try reflexivity. cbn in Ht.
    destruct (cur st) as [c|]; [|reflexivity]. destruct (own c); try reflexivity. discriminate.
  - cbn [step]. cbn [tie_step] in Ht. destruct a; try reflexivity.
    rewrite nth_sessions in Ht.
    destruct (nth_error (bg st) i) as [c|].
    + unfold hstep. destruct (hp c); try reflexivity. destruct (own c); try reflexivity. discriminate.
    + destruct (i =? length (bg st)); [|reflexivity]. destruct (cur st) as [c|]; [|reflexivity].
      unfold hstep. destruct (hp c); try reflexivity. destruct (own c); try reflexivity. discriminate.
Qed.

Lemma run_v0_v1 : forall ls st, tie_free V0 st ls = true -> run V0 st ls = run V1 st ls.
Proof.
  induction ls as [|l ls IH]; intros st Ht; [reflexivity|].
  cbn in *. apply andb_true_iff in Ht as [H1 H2]. apply negb_true_iff in H1.
  rewrite <- (step_v0_v1 _ _ H1). destruct (step V0 st l); [apply IH; exact H2 | reflexivity].
Qed.

(* sendAnswer reports an error after the broker has forwarded the answer and the client has
   opened its data channel: runSession releases, and the handler releases again when it ends. *)
Definition w_answer_fail : list label :=
  [LGet; LGetSend; LPollOffer; LRelayOk; LPcOk; LDcOpen; LH 0 HClaim;
   LAnswerFail; LGiveUp; LClose; LMainRecv; LH 0 HDialOk; LH 0 HEnd].

(* the data channel opens while the 20 s timer fires: the select takes the timer case *)
Definition w_select_tie : list label :=
  [LGet; LGetSend; LPollOffer; LRelayOk; LPcOk; LAnswerOk; LDcOpen; LH 0 HClaim;
   LSelectTimeout; LGiveUp; LClose; LMainRecv; LH 0 HDialOk; LH 0 HEnd].

Definition w_open (i : nat) : list label :=
  [LGet; LGetSend; LPollOffer; LRelayOk; LPcOk; LAnswerOk; LDcOpen; LH i HClaim; LH i HDialOk; LSelectOpen].

(* capacity 2: a served client, then a doubly released session, then two more served clients *)
Definition w_capacity : list label :=
  w_open 0 ++
  [LGet; LGetSend; LPollOffer; LRelayOk; LPcOk; LDcOpen; LH 1 HClaim;
   LAnswerFail; LGiveUp; LClose; LMainRecv; LH 1 HDialOk; LH 1 HEnd; LH 1 HRecv] ++
  w_open 2 ++ w_open 3.

(* the same races on the repaired machine: runSession sees that the handler owns the session *)
Definition w1_answer_fail : list label :=
  [LGet; LGetSend; LPollOffer; LRelayOk; LPcOk; LDcOpen; LH 0 HClaim;
   LAnswerFail; LGiveUp; LH 0 HDialFail; LH 0 HRecv].
Definition w1_select_tie_late_handler : list label :=
  [LGet; LGetSend; LPollOffer; LRelayOk; LPcOk; LAnswerOk; LSelectTimeout; LGiveUp; LDcOpen;
   LClose; LH 0 HClaim; LMainRecv].

Lemma v1_race_schedules_ok :
  (exists st, run V1 (init 1) w1_answer_fail = Some st /\ all_terminated st = true /\
              in_use st = 0 /\ count (tok st) = 0%Z) /\
  (exists st, run V1 (init 1) w1_select_tie_late_handler = Some st /\ all_terminated st = true /\
              in_use st = 0 /\ count (tok st) = 0%Z).
Proof. split; eexists; vm_compute; repeat split. Qed.
