(* EncapServerProofs.v — the chunk stream of a server carrier starts right after the 16-byte preamble. *)
From Coq Require Import List NArith Lia.
From Snow Require Import Lib.ListFacts Model.Encap Model.EncapServer Proofs.EncapProofs.
Import ListNotations.
Open Scope N_scope.

Lemma read_full_exact sc n pre rest : length pre = n ->
  exists sc', read_full sc n [] (pre ++ rest) = ROk pre rest sc'.
Proof.
  intros Hn.
  destruct (read_full_spec sc n [] (pre ++ rest)) as [sc' H]; [rewrite app_length; lia|].
  exists sc'. rewrite H. cbn [app]. rewrite (firstn_exact_app pre rest n Hn), (skipn_exact_app pre rest n Hn). reflexivity.
Qed.

Theorem stream_after_preamble tok cid s sc :
  length tok = TOKEN_LEN -> length cid = CLIENTID_LEN ->
  server_read (tok ++ cid ++ s) sc = SOk tok cid (fst (decode_stream s)) (snd (decode_stream s)).
Proof.
  intros Ht Hc. unfold server_read.
  destruct (read_full_exact sc TOKEN_LEN tok (cid ++ s) Ht) as [sc1 H1]. rewrite H1.
  destruct (read_full_exact sc1 CLIENTID_LEN cid s Hc) as [sc2 H2]. rewrite H2.
  rewrite read_all_independent by lia. fold (decode_stream s).
  destruct (decode_stream s) as [ps e]. reflexivity.
Qed.
