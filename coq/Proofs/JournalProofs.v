(* JournalProofs.v — the distinct-IP journal (Model/Journal.v).  The reader's window count is the number of distinct
   masked addresses in the chunks that lie inside the window ([window]); a reader that stops at a long line counts the
   chunks in front of it ([count_v0_cut]); the writer splits the recorded events, in order, into one segment per emitted
   chunk plus the open sketch, and the chunk intervals tile the time line ([partition]); with a sink whose writes
   fail, every chunk that can be read back still holds only recorded events inside its span ([failed_writes]), and with
   a sink that never fails that writer is the plain one ([never_failing_sink]). *)
From Coq Require Import List ZArith Lia Bool.
From Snow Require Import Lib.ListFacts Model.Journal.
Import ListNotations.
Open Scope Z_scope.

Section JournalProofs.
  Variables addr hash : Type.
  Variable mask : addr -> hash.
  Variable heqb : hash -> hash -> bool.
  Hypothesis heqb_spec : forall a b, heqb a b = true <-> a = b.

  Notation hmem := (hmem hash heqb).
  Notation sk_add := (sk_add hash heqb).
  Notation sk_merge := (sk_merge hash heqb).
  Notation sk_of := (sk_of hash heqb).
  Notation skipped := (skipped hash).
  Notation count_loop := (count_loop hash heqb).
  Notation count := (count hash heqb).
  Notation flush := (flush hash).
  Notation add := (add addr hash mask heqb).
  Notation japply := (japply addr hash mask heqb).
  Notation jrun := (jrun addr hash mask heqb).

  Lemma hmem_In : forall h l, hmem h l = true <-> In h l.
  Proof.
    induction l as [|x l IH]; cbn [Journal.hmem In]; split; intro H; try discriminate; try contradiction.
    - apply orb_true_iff in H. destruct H as [H|H]; [left; symmetry; apply heqb_spec; exact H | right; apply IH; exact H].
    - apply orb_true_iff. destruct H as [H|H]; [left; apply heqb_spec; auto | right; apply IH; exact H].
  Qed.

  Lemma sk_add_spec : forall l h, NoDup l -> NoDup (sk_add l h) /\ (forall x, In x (sk_add l h) <-> In x l \/ x = h).
  Proof.
    intros l h ND. unfold Journal.sk_add. destruct (hmem h l) eqn:E.
    - apply hmem_In in E. split; [exact ND|]. intro x. split; [auto | intros [H| ->]; assumption].
    - split.
      + apply NoDup_snoc; [exact ND | intro H; apply hmem_In in H; congruence].
      + intro x. rewrite in_app_iff. cbn [In]. intuition.
  Qed.

  Lemma sk_merge_spec : forall b a, NoDup a -> NoDup (sk_merge a b) /\ (forall x, In x (sk_merge a b) <-> In x a \/ In x b).
  Proof.
    unfold Journal.sk_merge. induction b as [|h b IH]; intros a ND; cbn [fold_left].
    - split; [exact ND|]. intro x. cbn [In]. intuition.
    - destruct (sk_add_spec a h ND) as [ND1 M1]. destruct (IH _ ND1) as [ND2 M2]. split; [exact ND2|].
      intro x. rewrite M2, M1. cbn [In]. intuition.
  Qed.

  Lemma sk_of_spec : forall hs, NoDup (sk_of hs) /\ (forall x, In x (sk_of hs) <-> In x hs).
  Proof.
    intro hs. unfold Journal.sk_of. destruct (sk_merge_spec hs [] (NoDup_nil _)) as [ND M]. split; [exact ND|].
    intro x. unfold Journal.sk_merge in M. rewrite M. cbn [In]. tauto.
  Qed.

  (* the reader's test, as the code writes it, is the closed-interval containment *)
  Lemma skipped_spec : forall from to c, skipped from to c = false <-> (from <= c_start c /\ c_end c <= to).
  Proof. intros. unfold Journal.skipped. lia. Qed.

  Definition insideb (from to : Z) (c : chunk hash) : bool := (from <=? c_start c) && (c_end c <=? to).

  (* the reader's loop merges the sketches of the chunks inside the window, in order, and counts them *)
  Lemma count_loop_fold : forall from to j acc n,
    count_loop from to j acc n =
    (fold_left sk_merge (map (@c_sk hash) (filter (insideb from to) j)) acc,
     (n + N.of_nat (length (filter (insideb from to) j)))%N).
  Proof.
    intros from to. induction j as [|c j IH]; intros acc n; cbn [Journal.count_loop filter map fold_left length].
    - rewrite N.add_0_r. reflexivity.
    - replace (insideb from to c) with (negb (skipped from to c)) by (unfold insideb, Journal.skipped; lia).
      destruct (skipped from to c); cbn [negb map fold_left length]; rewrite IH; [reflexivity | f_equal; lia].
  Qed.

  Lemma fold_merge_spec : forall ls acc, NoDup acc ->
    NoDup (fold_left sk_merge ls acc) /\
    forall x, In x (fold_left sk_merge ls acc) <-> In x acc \/ exists l, In l ls /\ In x l.
  Proof.
    induction ls as [|l ls IH]; intros acc ND; cbn [fold_left].
    - split; [exact ND|]. intro x. split; [auto | intros [H|[l [[] _]]]; exact H].
    - destruct (sk_merge_spec l acc ND) as [ND1 M1]. destruct (IH _ ND1) as [ND2 M2].
      split; [exact ND2|]. intro x. rewrite M2, M1. cbn [In]. split.
      + intros [[H|H]|[l' [Hl Hx]]]; eauto.
      + intros [H|[l' [[<-|Hl] Hx]]]; eauto.
  Qed.

  Lemma window : forall from to j,
    exists l, NoDup l /\
      (forall x, In x l <-> exists c, In c j /\ from <= c_start c /\ c_end c <= to /\ In x (c_sk c)) /\
      fst (count from to j) = N.of_nat (length l) /\
      snd (count from to j) = N.of_nat (length (filter (insideb from to) j)).
  Proof.
    intros from to j. unfold Journal.count. rewrite count_loop_fold. cbn [fst snd].
    destruct (fold_merge_spec (map (@c_sk hash) (filter (insideb from to) j)) [] (NoDup_nil _)) as [ND M].
    eexists. split; [exact ND|]. split; [|split; [reflexivity | apply N.add_0_l]].
    intro x. rewrite M. split.
    - intros [[]|[l [Hl Hx]]]. apply in_map_iff in Hl. destruct Hl as [c [<- Hc]]. apply filter_In in Hc.
      destruct Hc as [Hc Hi]. exists c. unfold insideb in Hi. repeat split; auto; lia.
    - intros [c [Hc [Ha [Hb Hx]]]]. right. exists (c_sk c). split; [|exact Hx].
      apply in_map, filter_In. split; [exact Hc | unfold insideb; lia].
  Qed.

  (* the pinned reader stops, silently, at the first line its scanner cannot take *)
  Section LongLine.
    Variable long : chunk hash -> bool.
    Notation scanned := (scanned hash long).
    Notation count_v0 := (count_v0 hash heqb long).

    Lemma scanned_all : forall j, (forall c, In c j -> long c = false) -> scanned j = j.
    Proof.
      induction j as [|c j IH]; intro H; cbn [Journal.scanned]; [reflexivity|].
      rewrite (H c (or_introl eq_refl)). f_equal. apply IH. intros c' Hc. apply H. right. exact Hc.
    Qed.

    (* what is read is the part of the journal in front of the first long line *)
    Lemma scanned_prefix : forall j,
      (scanned j = j /\ forall c, In c j -> long c = false) \/
      exists pre c post, j = pre ++ c :: post /\ long c = true /\ scanned j = pre /\ forall c', In c' pre -> long c' = false.
    Proof.
      induction j as [|c j IH]; cbn [Journal.scanned].
      - left. split; [reflexivity | intros c []].
      - destruct (long c) eqn:E.
        + right. exists [], c, j. split; [reflexivity|]. split; [exact E|]. split; [reflexivity | intros c' []].
        + destruct IH as [[H1 H2]|[pre [c0 [post [H1 [H2 [H3 H4]]]]]]].
          * left. split; [rewrite H1; reflexivity|]. intros c' [<-|Hc]; [exact E | apply H2; exact Hc].
          * right. exists (c :: pre), c0, post. split; [rewrite H1; reflexivity|]. split; [exact H2|].
            split; [rewrite H3; reflexivity|]. intros c' [<-|Hc]; [exact E | apply H4; exact Hc].
    Qed.

    Lemma count_v0_no_long : forall from to j, (forall c, In c j -> long c = false) -> count_v0 from to j = count from to j.
    Proof. intros from to j H. unfold Journal.count_v0. rewrite (scanned_all j H). reflexivity. Qed.

    Lemma count_v0_cut : forall from to pre c post,
      long c = true -> (forall c', In c' pre -> long c' = false) ->
      count_v0 from to (pre ++ c :: post) = count from to pre.
    Proof.
      intros from to pre c post Hc Hpre. unfold Journal.count_v0. f_equal.
      induction pre as [|x pre IH]; cbn [app Journal.scanned]; [rewrite Hc; reflexivity|].
      rewrite (Hpre x (or_introl eq_refl)). f_equal. apply IH. intros c' H'. apply Hpre. right. exact H'.
    Qed.
  End LongLine.

  (* the journal depends on addresses only through [mask] *)
  Lemma mask_only : forall now a b w, mask a = mask b -> add now a w = add now b w.
  Proof. intros now a b w H. unfold Journal.add. rewrite H. reflexivity. Qed.

  Definition event := (Z * addr)%type.
  Definition masks (evs : list event) : list hash := map (fun e => mask (snd e)) evs.
  Definition op_time (o : jop addr) : Z := match o with Add t _ => t | Flush t => t end.
  Definition op_events (o : jop addr) : list event := match o with Add t ip => [(t, ip)] | Flush _ => [] end.
  Fixpoint mono (t : Z) (ops : list (jop addr)) : Prop :=
    match ops with [] => True | o :: r => t <= op_time o /\ mono (op_time o) r end.

  Fixpoint tiled (a : Z) (cs : list (chunk hash)) (b : Z) : Prop :=
    match cs with [] => a = b | c :: r => c_start c = a /\ tiled (c_end c) r b end.

  Lemma tiled_snoc : forall cs a b c, tiled a cs b -> c_start c = b -> tiled a (cs ++ [c]) (c_end c).
  Proof.
    induction cs as [|x cs IH]; intros a b c H Hc; cbn [tiled app] in *.
    - subst. auto.
    - destruct H as [H1 H2]. split; [exact H1 | eapply IH; eauto].
  Qed.

  (* chunk [c] holds exactly the events of segment [seg] *)
  Definition chunk_ok (c : chunk hash) (seg : list event) : Prop :=
    c_sk c = sk_of (masks seg) /\ c_start c <= c_end c /\ Forall (fun e => c_start c <= fst e <= c_end c) seg.

  (* ghost state: events of the open sketch, events of each emitted chunk *)
  Definition Jinv (t0 : Z) (w : writer hash) (gout : list (list event)) (gcur : list event) (tmax : Z) : Prop :=
    w_cur w = sk_of (masks gcur) /\
    Forall2 chunk_ok (w_out w) gout /\
    tiled t0 (w_out w) (w_last w) /\
    Forall (fun e => w_last w <= fst e <= tmax) gcur /\
    w_last w <= tmax.

  Lemma sk_of_snoc : forall hs h, sk_of (hs ++ [h]) = sk_add (sk_of hs) h.
  Proof. intros. unfold Journal.sk_of. rewrite fold_left_app. reflexivity. Qed.

  Lemma Jinv_flush : forall t0 w gout gcur tmax now,
    Jinv t0 w gout gcur tmax -> tmax <= now -> Jinv t0 (flush now w) (gout ++ [gcur]) [] now.
  Proof.
    intros t0 w gout gcur tmax now [H1 [H2 [H3 [H4 H5]]]] Hn. unfold Jinv, Journal.flush. cbn [w_cur w_out w_last].
    split; [reflexivity|]. split; [|split; [|split; [constructor | lia]]].
    - apply Forall2_app; [exact H2|]. constructor; [|constructor]. unfold chunk_ok. cbn [c_sk c_start c_end].
      split; [exact H1|]. split; [lia|]. eapply Forall_impl; [|exact H4]. cbn beta. intros e He. lia.
    - eapply (tiled_snoc _ _ _ {| c_start := w_last w; c_end := now; c_sk := w_cur w |}); [exact H3 | reflexivity].
  Qed.

  Lemma Jinv_step : forall t0 w gout gcur tmax o,
    Jinv t0 w gout gcur tmax -> tmax <= op_time o ->
    exists gout' gcur',
      Jinv t0 (japply w o) gout' gcur' (op_time o) /\
      concat gout' ++ gcur' = (concat gout ++ gcur) ++ op_events o.
  Proof.
    intros t0 w gout gcur tmax o HI Ht. destruct o as [now ip|now]; cbn [op_time op_events Journal.japply] in *.
    - unfold Journal.add. destruct (w_last w + w_int w <? now) eqn:E.
      + pose proof (Jinv_flush _ _ _ _ _ now HI Ht) as [H1 [H2 [H3 [H4 H5]]]].
        exists (gout ++ [gcur]), [(now, ip)]. split.
        * unfold Jinv. cbn [w_cur w_out w_last]. split; [|split; [exact H2 | split; [exact H3 | split]]].
          -- rewrite H1. reflexivity.
          -- constructor; [|constructor]. cbn [fst]. cbn [Journal.flush w_last]. lia.
          -- cbn [Journal.flush w_last]. lia.
        * rewrite concat_app. cbn [concat]. rewrite app_nil_r, <- app_assoc. reflexivity.
      + destruct HI as [H1 [H2 [H3 [H4 H5]]]]. exists gout, (gcur ++ [(now, ip)]). split.
        * unfold Jinv. cbn [w_cur w_out w_last]. split; [|split; [exact H2 | split; [exact H3 | split]]].
          -- unfold masks. rewrite map_app. cbn [map snd]. fold (masks gcur). rewrite sk_of_snoc, H1. reflexivity.
          -- apply Forall_app. split.
             ++ eapply Forall_impl; [|exact H4]. cbn beta. intros e He. lia.
             ++ constructor; [|constructor]. cbn [fst]. lia.
          -- lia.
        * rewrite app_assoc. reflexivity.
    - exists (gout ++ [gcur]), []. split.
      + apply (Jinv_flush _ _ _ _ _ now HI Ht).
      + rewrite concat_app. cbn [concat]. rewrite !app_nil_r. reflexivity.
  Qed.

  Lemma Jinv_run : forall ops t0 w gout gcur tmax,
    Jinv t0 w gout gcur tmax -> mono tmax ops ->
    exists gout' gcur' tmax',
      Jinv t0 (jrun ops w) gout' gcur' tmax' /\
      concat gout' ++ gcur' = (concat gout ++ gcur) ++ flat_map op_events ops.
  Proof.
    induction ops as [|o ops IH]; intros t0 w gout gcur tmax HI HM; cbn [Journal.jrun fold_left flat_map].
    - exists gout, gcur, tmax. split; [exact HI | rewrite app_nil_r; reflexivity].
    - destruct HM as [Ht HM]. destruct (Jinv_step _ _ _ _ _ o HI Ht) as [g1 [c1 [HI1 E1]]].
      destruct (IH _ _ _ _ _ HI1 HM) as [g2 [c2 [t2 [HI2 E2]]]]. exists g2, c2, t2. split; [exact HI2|].
      rewrite E2, E1, <- app_assoc. reflexivity.
  Qed.

  (* what the journal holds after any op sequence whose clock readings do not go backwards *)
  Lemma partition : forall t0 interval ops,
    mono t0 ops ->
    let w := jrun ops (new_writer t0 interval) in
    exists (segs : list (list event)) (open : list event),
      (* every recorded event is in exactly one segment or in the open sketch, in order *)
      concat segs ++ open = flat_map op_events ops /\
      (* segment i is what chunk i holds: its sketch is the set of masked addresses of the segment,
         and the segment's events happened inside the chunk's interval *)
      Forall2 chunk_ok (w_out w) segs /\
      w_cur w = sk_of (masks open) /\
      Forall (fun e => w_last w <= fst e) open /\
      (* the chunk intervals tile the time line from the creation of the writer to the last flush *)
      tiled t0 (w_out w) (w_last w).
  Proof.
    intros t0 interval ops HM w.
    assert (H0 : Jinv t0 (new_writer t0 interval) [] [] t0).
    { unfold Jinv, new_writer. cbn [w_cur w_out w_last]. repeat split; try constructor. lia. }
    destruct (Jinv_run ops _ _ _ _ _ H0 HM) as [g [c [t [[H1 [H2 [H3 [H4 H5]]]] E]]]].
    exists g, c. cbn [concat app] in E. fold w in H1, H2, H3, H4. repeat split; auto.
    eapply Forall_impl; [|exact H4]. cbn beta. intros e He. lia.
  Qed.

  Notation fflush := (fflush hash).
  Notation fapply := (fapply addr hash mask heqb).
  Notation fjrun := (fjrun addr hash mask heqb).

  (* a parsable line is a chunk that holds exactly some recorded events, all inside its span *)
  Definition line_ok (evs : list event) (l : option (chunk hash)) : Prop :=
    match l with Some c => exists seg, chunk_ok c seg /\ incl seg evs | None => True end.
  Definition tail_ok (evs : list event) (t : tail hash) : Prop :=
    match t with TJson c => exists seg, chunk_ok c seg /\ incl seg evs | _ => True end.
  (* event e went into line l (an unparsable line may hide anything) *)
  Definition covers (l : option (chunk hash)) (e : event) : Prop :=
    match l with Some c => exists seg, chunk_ok c seg /\ In e seg | None => True end.

  (* the failing-sink writer through the four fields the invariant reads: time of the last write taken for
     successful, open sketch, complete lines, unterminated rest *)
  Definition FJ (last : Z) (cur : list hash) (lines : list (option (chunk hash))) (tl : tail hash)
             (evs gcur : list event) (tmax : Z) : Prop :=
    cur = sk_of (masks gcur) /\
    Forall (line_ok evs) lines /\ tail_ok evs tl /\
    Forall (fun e => last <= fst e <= tmax) gcur /\ last <= tmax /\ incl gcur evs /\
    (forall e, In e evs -> In e gcur \/ exists l, In l lines /\ covers l e).
  Definition FJinv (w : fwriter hash) : list event -> list event -> Z -> Prop :=
    FJ (f_last w) (f_cur w) (f_lines w) (f_tail w).

  Lemma line_ok_mono : forall evs evs' l, incl evs evs' -> line_ok evs l -> line_ok evs' l.
  Proof.
    intros evs evs' [c|] Hi H; cbn in *; auto. destruct H as [seg [H1 H2]]. exists seg. split; auto.
    intros x Hx. apply Hi, H2, Hx.
  Qed.
  Lemma tail_ok_mono : forall evs evs' t, incl evs evs' -> tail_ok evs t -> tail_ok evs' t.
  Proof.
    intros evs evs' [| |c] Hi H; cbn in *; auto. destruct H as [seg [H1 H2]]. exists seg. split; auto.
    intros x Hx. apply Hi, H2, Hx.
  Qed.

  Lemma FJ_later : forall last cur lines tl evs gcur tmax now,
    FJ last cur lines tl evs gcur tmax -> tmax <= now -> FJ last cur lines tl evs gcur now.
  Proof.
    intros last cur lines tl evs gcur tmax now [H1 [H2 [H3 [H4 [H5 [H6 H7]]]]]] Hn. unfold FJ. repeat split; auto; try lia.
    eapply Forall_impl; [|exact H4]. cbn beta. intros e He. lia.
  Qed.

  Lemma FJ_tail : forall last cur lines tl tl' evs gcur tmax,
    FJ last cur lines tl evs gcur tmax -> tail_ok evs tl' -> FJ last cur lines tl' evs gcur tmax.
  Proof. intros last cur lines tl tl' evs gcur tmax [H1 [H2 [H3 H4]]] H. unfold FJ. auto. Qed.

  (* the line of the open sketch reaches the file (behind an unterminated rest it is unparsable, and may hide
     anything): the invariant holds with the sketch kept, and with the sketch reset *)
  Lemma FJ_put : forall last cur lines tl evs gcur tmax now,
    FJ last cur lines tl evs gcur tmax -> tmax <= now ->
    let c := {| c_start := last; c_end := now; c_sk := cur |} in
    let lines' := lines ++ [match tl with TEmpty => Some c | _ => None end] in
    tail_ok evs (TJson c) /\ FJ last cur lines' TEmpty evs gcur now /\ FJ now [] lines' TEmpty evs [] now.
  Proof.
    intros last cur lines tl evs gcur tmax now HI Hn c lines'.
    destruct (FJ_later _ _ _ _ _ _ _ now HI Hn) as [H1 [H2 [_ [H4 [H5 [H6 H7]]]]]].
    assert (Hc : chunk_ok c gcur) by (unfold chunk_ok, c; cbn [c_sk c_start c_end]; auto).
    set (l := match tl with TEmpty => Some c | _ => None end) in lines'.
    assert (Hl : line_ok evs l /\ forall e, In e gcur -> covers l e).
    { destruct tl; cbn; auto. split; [|intros e He]; exists gcur; auto. }
    destruct Hl as [Hl Hcov].
    assert (A : Forall (line_ok evs) lines') by (apply Forall_app; auto).
    split; [exists gcur; auto|]. unfold FJ. repeat split; auto; try lia.
    - intros e He. destruct (H7 e He) as [Hg|[l' [Hl' Hc']]]; [left; exact Hg|].
      right. exists l'. split; [apply in_or_app; left; exact Hl' | exact Hc'].
    - intros x [].
    - intros e He. right. destruct (H7 e He) as [Hg|[l' [Hl' Hc']]].
      + exists l. split; [apply in_or_app; right; left; reflexivity | apply Hcov, Hg].
      + exists l'. split; [apply in_or_app; left; exact Hl' | exact Hc'].
  Qed.

  Lemma FJinv_flush : forall w evs gcur tmax now,
    FJinv w evs gcur tmax -> tmax <= now ->
    exists gcur', FJinv (fflush now w) evs gcur' now.
  Proof.
    intros w evs gcur tmax now HI Hn. pose proof (FJ_later _ _ _ _ _ _ _ now HI Hn) as HL.
    destruct (FJ_put _ _ _ _ _ _ _ now HI Hn) as [Hc [Pkeep Preset]].
    unfold FJinv, Journal.fflush, put_line.
    destruct (match f_plan w with [] => WOk | r :: _ => r end); cbn [f_cur f_lines f_tail f_last].
    - (* WOk *) exists []. exact Preset.
    - (* WSyncErr *) exists []. exact Preset.
    - (* WNone *) exists gcur. exact HL.
    - (* WTorn *) exists gcur. exact (FJ_tail _ _ _ _ TTorn _ _ _ HL I).
    - (* WNoNewline *) exists gcur. apply (FJ_tail _ _ _ _ _ _ _ _ HL).
      destruct (f_tail w); [exact Hc | exact I | exact I].
    - (* WWhole *) exists gcur. exact Pkeep.
  Qed.

  (* the sketch takes one more address *)
  Lemma FJ_add : forall last cur lines tl evs gcur now ip,
    FJ last cur lines tl evs gcur now ->
    FJ last (sk_add cur (mask ip)) lines tl (evs ++ [(now, ip)]) (gcur ++ [(now, ip)]) now.
  Proof.
    intros last cur lines tl evs g1 now ip [H1 [H2 [H3 [H4 [H5 [H6 H7]]]]]]. unfold FJ.
    assert (Hi : incl evs (evs ++ [(now, ip)])) by (intros x Hx; apply in_or_app; left; exact Hx).
    split; [unfold masks; rewrite map_app; cbn [map snd]; fold (masks g1); rewrite sk_of_snoc, H1; reflexivity|].
    split; [eapply Forall_impl; [|exact H2]; intros l Hl; eapply line_ok_mono; eauto|].
    split; [eapply tail_ok_mono; eauto|].
    split; [apply Forall_app; split; [exact H4 | constructor; [cbn [fst]; lia | constructor]]|].
    split; [exact H5|]. split.
    - intros x Hx. apply in_app_or in Hx. apply in_or_app. destruct Hx as [Hx|Hx]; [left; apply H6; exact Hx | right; exact Hx].
    - intros e He. apply in_app_or in He. destruct He as [He|He].
      + destruct (H7 e He) as [Hg|Hl]; [left; apply in_or_app; left; exact Hg | right; exact Hl].
      + left. apply in_or_app. right. exact He.
  Qed.

  Lemma FJinv_step : forall w evs gcur tmax o,
    FJinv w evs gcur tmax -> tmax <= op_time o ->
    exists gcur', FJinv (fapply w o) (evs ++ op_events o) gcur' (op_time o).
  Proof.
    intros w evs gcur tmax o HI Ht. destruct o as [now ip|now]; cbn [op_time op_events Journal.fapply] in *.
    - unfold Journal.fadd. destruct (f_last w + f_int w <? now).
      + destruct (FJinv_flush _ _ _ _ now HI Ht) as [g1 H1]. exists (g1 ++ [(now, ip)]). apply FJ_add, H1.
      + exists (gcur ++ [(now, ip)]). apply FJ_add, (FJ_later _ _ _ _ _ _ _ now HI Ht).
    - rewrite app_nil_r. apply (FJinv_flush _ _ _ _ now HI Ht).
  Qed.

  Lemma FJinv_run : forall ops w evs gcur tmax,
    FJinv w evs gcur tmax -> mono tmax ops ->
    exists gcur' tmax', FJinv (fjrun ops w) (evs ++ flat_map op_events ops) gcur' tmax'.
  Proof.
    induction ops as [|o ops IH]; intros w evs gcur tmax HI HM; cbn [Journal.fjrun fold_left flat_map].
    - exists gcur, tmax. rewrite app_nil_r. exact HI.
    - destruct HM as [Ht HM]. destruct (FJinv_step _ _ _ _ o HI Ht) as [g1 HI1].
      destruct (IH _ _ _ _ HI1 HM) as [g2 [t2 HI2]]. exists g2, t2. rewrite <- app_assoc in HI2. exact HI2.
  Qed.

  Lemma In_file_of : forall (w : fwriter hash) c, In (Some c) (file_of w) -> In (Some c) (f_lines w) \/ f_tail w = TJson c.
  Proof.
    intros w c H. unfold file_of in H. apply in_app_or in H. destruct H as [H|H]; [left; exact H|].
    destruct (f_tail w) as [| |c']; cbn in H; try (destruct H as [H|[]]; try discriminate); try contradiction.
    right. inversion H; subst. reflexivity.
  Qed.

  (* for every pattern of failing writes, every chunk that can be read back from the
     journal holds exactly some of the recorded events and its recording span contains the instants of all of
     them; the open sketch holds events no older than the last write taken for successful; and, as long as no line
     was damaged, every recorded event is in the open sketch or in a chunk of the file *)
  Lemma failed_writes : forall t0 interval plan ops,
    mono t0 ops ->
    let w := fjrun ops (fnew t0 interval plan) in
    let evs := flat_map op_events ops in
    (forall c, In (Some c) (file_of w) ->
       exists seg, c_sk c = sk_of (masks seg) /\ c_start c <= c_end c /\
                   Forall (fun e => c_start c <= fst e <= c_end c) seg /\ incl seg evs) /\
    (exists open, f_cur w = sk_of (masks open) /\ Forall (fun e => f_last w <= fst e) open /\ incl open evs /\
       (readable (f_lines w) = true ->
        forall e, In e evs -> In e open \/
          exists c seg, In (Some c) (f_lines w) /\ c_sk c = sk_of (masks seg) /\ In e seg /\
                        c_start c <= fst e <= c_end c)).
  Proof.
    intros t0 interval plan ops HM w evs.
    assert (H0 : FJinv (fnew t0 interval plan) [] [] t0).
    { unfold FJinv, fnew. cbn [f_cur f_lines f_tail f_last].
      split; [reflexivity|]. split; [constructor|]. split; [exact I|]. split; [constructor|]. split; [lia|].
      split; [intros x []|intros e0 []]. }
    destruct (FJinv_run ops _ _ _ _ H0 HM) as [g [t [H1 [H2 [H3 [H4 [H5 [H6 H7]]]]]]]].
    cbn [app] in *. fold w in H1, H2, H3, H4, H5, H7. fold evs in H2, H3, H6, H7. split.
    - intros c Hc. apply In_file_of in Hc. destruct Hc as [Hc|Hc].
      + rewrite Forall_forall in H2. destruct (H2 _ Hc) as [seg [[A [B C]] D]]. exists seg. auto.
      + rewrite Hc in H3. destruct H3 as [seg [[A [B C]] D]]. exists seg. auto.
    - exists g. split; [exact H1|]. split; [eapply Forall_impl; [|exact H4]; cbn beta; intros e He; lia|].
      split; [exact H6|]. intros Hr e He. destruct (H7 e He) as [Hg|[l [Hl Hc]]]; [left; exact Hg|]. right.
      destruct l as [c|].
      + destruct Hc as [seg [[A [B C]] D]]. exists c, seg. split; [exact Hl|]. split; [exact A|]. split; [exact D|].
        rewrite Forall_forall in C. apply C. exact D.
      + exfalso. unfold readable in Hr. rewrite forallb_forall in Hr. specialize (Hr _ Hl). discriminate.
  Qed.

  (* with a sink that never fails the failing-sink writer IS the writer of the theorems above *)
  Definition fsim (w : writer hash) (fw : fwriter hash) : Prop :=
    f_last fw = w_last w /\ f_int fw = w_int w /\ f_cur fw = w_cur w /\ f_lines fw = map Some (w_out w) /\
    f_tail fw = TEmpty /\ f_plan fw = [].

  Lemma fsim_flush : forall now w fw, fsim w fw -> fsim (flush now w) (fflush now fw).
  Proof.
    intros now w fw [A [B [C [D [E F]]]]]. unfold fsim, Journal.flush, Journal.fflush, put_line. rewrite F, E. cbn [tl].
    cbn [f_last f_int f_cur f_lines f_tail f_plan w_last w_int w_cur w_out].
    repeat split; auto. rewrite map_app, D, A, C. reflexivity.
  Qed.

  Lemma fsim_run : forall ops w fw, fsim w fw -> fsim (jrun ops w) (fjrun ops fw).
  Proof.
    induction ops as [|o ops IH]; intros w fw H; cbn [Journal.jrun Journal.fjrun fold_left]; [exact H|].
    apply IH. destruct o as [now ip|now]; cbn [Journal.japply Journal.fapply].
    - unfold Journal.add, Journal.fadd. destruct H as [A [B [C [D [E F]]]]]. rewrite A, B.
      destruct (w_last w + w_int w <? now).
      + destruct (fsim_flush now w fw (conj A (conj B (conj C (conj D (conj E F)))))) as [A' [B' [C' [D' [E' F']]]]].
        unfold fsim. cbn [f_last f_int f_cur f_lines f_tail f_plan w_last w_int w_cur w_out]. rewrite C'. repeat split; auto.
      + unfold fsim. cbn [f_last f_int f_cur f_lines f_tail f_plan w_last w_int w_cur w_out]. rewrite C. repeat split; auto.
    - apply fsim_flush. exact H.
  Qed.

  Lemma never_failing_sink : forall t0 interval ops,
    let w := jrun ops (new_writer t0 interval) in
    let fw := fjrun ops (fnew t0 interval []) in
    file_of fw = map Some (w_out w) /\ f_cur fw = w_cur w /\ f_last fw = w_last w /\
    forall from to, fcount hash heqb from to (file_of fw) = Some (count from to (w_out w)).
  Proof.
    intros t0 interval ops w fw.
    assert (H : fsim w fw) by (apply fsim_run; unfold fsim, fnew, new_writer; cbn; repeat split; reflexivity).
    destruct H as [A [B [C [D [E F]]]]]. unfold file_of. rewrite E, D, app_nil_r.
    split; [reflexivity|]. split; [exact C|]. split; [exact A|]. intros from to. unfold fcount.
    assert (R : forall l : list (chunk hash), readable (map Some l) = true /\ good_lines (map Some l) = l).
    { induction l as [|c l IH]; [split; reflexivity|]. destruct IH as [I1 I2]. cbn. rewrite I2. split; [exact I1 | reflexivity]. }
    destruct (R (w_out w)) as [R1 R2]. rewrite R1, R2. reflexivity.
  Qed.

  (* the reader gives an answer only when every line parses, and then it is the window count of the chunks *)
  Lemma fcount_spec : forall from to f r,
    fcount hash heqb from to f = Some r <-> readable f = true /\ r = count from to (good_lines f).
  Proof.
    intros from to f r. unfold fcount. destruct (readable f); split.
    - intro H. inversion H. auto.
    - intros [_ ->]. reflexivity.
    - discriminate.
    - intros [H _]. discriminate.
  Qed.
End JournalProofs.
