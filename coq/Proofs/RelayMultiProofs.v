(* RelayMultiProofs.v — C01 with the proxy's relay (Proofs/CopyLoopProofs.v) composed with the packet path: first one
   relay feeding one fresh carrier ([upstream_via_relay]), then the relay in the loop of the multi-carrier composition.
   [relayed_carriers ops cid sent]: for every carrier i of the schedule that presented [cid] there is a relay run (ANY
   read/write scripts of its two conns, ANY schedule of its copiers, closes and shutdown) whose client-side read script
   hands out (at most) an honest carrier stream of packets of [sent], and the bytes the server was sent on carrier i so
   far are a prefix of what that relay has written to its server side (the WebSocket; the server may not have been handed
   all of it yet). Then [honest_carriers ops cid sent] holds: the schedule-level hypothesis of
   Proofs/PacketPathMultiProofs.v follows from the relay model of Proofs/CopyLoopProofs.v, and the stream theorems are
   restated with [relayed_carriers] in its place. Downstream the same way: what a client reads from the bytes a relay wrote
   to ITS side (its server-side read script handing out at most what the server wrote on a carrier of [cid]) is a
   prefix-decoding of that carrier's wire. *)
From Coq Require Import List NArith Bool Arith Lia.
From Snow Require Import Lib.Wire Model.Encap Model.CarrierLayer Proofs.CarrierProofs
  Proofs.CarrierMultiProofs Proofs.PacketPathProofs Proofs.PacketPathMultiProofs Model.CopyLoop Proofs.CopyLoopProofs.
Import ListNotations.
Open Scope N_scope.

Lemma is_prefix_trans {A} (a b c : list A) : is_prefix a b -> is_prefix b c -> is_prefix a c.
Proof. intros [x ->] [y ->]. exists (x ++ y). rewrite app_assoc. reflexivity. Qed.

Lemma firstn_is_prefix {A} n (l : list A) : is_prefix (firstn n l) l.
Proof. exists (skipn n l). symmetry. apply firstn_skipn. Qed.

(* one relay feeding one fresh server-side carrier. The one-carrier theorems of Proofs/PacketPathProofs.v take as
   premise that the byte stream reaching the far end of a carrier is a prefix [firstn k] of what the honest sender put on
   it; here that premise is discharged from the relay model (side 0 = the client's WebRTC conn, side 1 = the WebSocket
   to the server, datachannelHandler): the client side hands the relay (at most) an honest carrier stream; what the relay
   has written to the server side, fed to a fresh carrier, queues a prefix of the client's packets under the client's id *)
Theorem upstream_via_relay : forall cid ps w r0 w0 r1 w1 sched,
  length cid = 8%nat -> wire_of ps = Some w ->
  is_prefix (script_data r0) (carrier_stream cid w) ->
  let s := s_in (side1 (cl_run sched (cl_init r0 w0 r1 w1))) in
  exists k' j, pump (S (S (S (length s)))) (fresh s) = (k', firstn j ps) /\
               k_up k' = firstn j ps /\ (j <> 0%nat -> k_cid k' = cid).
Proof.
  intros cid ps w r0 w0 r1 w1 sched Hc Hw Hp s.
  destruct (relay_prefix_of r0 r1 w0 w1 sched false (carrier_stream cid w) Hp) as [k Hk].
  cbn [negb get_side] in Hk. fold s in Hk. rewrite Hk. exact (upstream_cut cid ps w k Hc Hw).
Qed.

(* what a relay run has written to its server side (side 1 = the WebSocket) / to its client side (side 0 = WebRTC) *)
Definition relay_to_server (r0 : list cl_ritem) (w0 : list cl_witem) (r1 : list cl_ritem) (w1 : list cl_witem)
  (sched : list cl_step) : bytes := s_in (side1 (cl_run sched (cl_init r0 w0 r1 w1))).
Definition relay_to_client (r0 : list cl_ritem) (w0 : list cl_witem) (r1 : list cl_ritem) (w1 : list cl_witem)
  (sched : list cl_step) : bytes := s_in (side0 (cl_run sched (cl_init r0 w0 r1 w1))).

(* one carrier, through a relay: the bytes are a prefix of the honest stream *)
Lemma relayed_prefix : forall r0 w0 r1 w1 sched str got,
  is_prefix (script_data r0) str -> is_prefix got (relay_to_server r0 w0 r1 w1 sched) -> is_prefix got str.
Proof.
  intros r0 w0 r1 w1 sched str got Hs Hg.
  destruct (relay_prefix_of r0 r1 w0 w1 sched false str Hs) as [k Hk]. cbn [negb get_side] in Hk.
  unfold relay_to_server in Hg. rewrite Hk in Hg. eapply is_prefix_trans; [exact Hg | apply firstn_is_prefix].
Qed.

Definition relayed_carriers (ops : list sop) (cid : bytes) (sent : list bytes) : Prop :=
  forall i k, nth_error (carriers (srun ops)) i = Some k -> k_cid k = cid -> ~ pre_open k ->
    exists ps w r0 w0 r1 w1 sched,
      wire_of ps = Some w /\ (forall p, In p ps -> In p sent) /\
      is_prefix (script_data r0) (carrier_stream cid w) /\
      is_prefix (sent_on i ops) (relay_to_server r0 w0 r1 w1 sched).

(* THE COMPOSITION: the schedule-level hypothesis of the multi-carrier theorems follows from the relay model *)
Theorem relayed_carriers_honest : forall ops cid sent,
  relayed_carriers ops cid sent -> honest_carriers ops cid sent.
Proof.
  intros ops cid sent H i k Hk Hcid Hnp.
  destruct (H i k Hk Hcid Hnp) as (ps & w & r0 & w0 & r1 & w1 & sched & Hw & Hsub & Hscr & Hgot).
  exists ps, w. split; [exact Hw|]. split; [exact Hsub|].
  exact (relayed_prefix r0 w0 r1 w1 sched _ _ Hscr Hgot).
Qed.

(* downstream, one client read through a relay: a relay whose server-side read script hands out (at most) the wire [wk]
   of a carrier has written to the client a cut of [wk]; the client's reader, under any reader behaviour, reads from it
   what [read_from wk cut sc] says *)
Lemma relayed_read_from : forall r0 w0 r1 w1 sched wk sc,
  is_prefix (script_data r1) wk ->
  exists cut, fst (read_stream (relay_to_client r0 w0 r1 w1 sched) sc) = read_from wk cut sc.
Proof.
  intros r0 w0 r1 w1 sched wk sc Hs.
  destruct (relay_prefix_of r0 r1 w0 w1 sched true wk Hs) as [k Hk]. cbn [negb get_side] in Hk.
  exists k. unfold relay_to_client, read_from. rewrite Hk. reflexivity.
Qed.

Section ArqBoundaryRelay.
  Variable packets_of : bytes -> list bytes -> Prop.
  Variable stream_of : list bytes -> bytes.
  Hypothesis arq_safe : forall written sent recv,
    packets_of written sent -> (forall p, In p recv -> In p sent) -> is_prefix (stream_of recv) written.

  Theorem upstream_stream_prefix_multi_via_relay : forall written sent cid ops recv,
    length cid = 8%nat -> packets_of written sent -> relayed_carriers ops cid sent ->
    (forall p, In p recv -> In (p, cid) (surfaced (srun ops))) ->
    is_prefix (stream_of recv) written.
  Proof.
    intros written sent cid ops recv Hc Hpk Hr Hrecv.
    apply (upstream_stream_prefix_multi packets_of stream_of arq_safe written sent cid ops recv Hc Hpk); [|exact Hrecv].
    apply relayed_carriers_honest. exact Hr.
  Qed.

  Theorem downstream_stream_prefix_multi_via_relay : forall written sent cid ops recv,
    packets_of written sent ->
    (forall p, In (cid, p) (accepted (srun ops)) -> In p sent) ->
    (forall p, In p recv -> exists i k r0 w0 r1 w1 sched sc,
        nth_error (carriers (srun ops)) i = Some k /\ k_cid k = cid /\
        is_prefix (script_data r1) (k_wire k) /\
        In p (fst (read_stream (relay_to_client r0 w0 r1 w1 sched) sc))) ->
    is_prefix (stream_of recv) written.
  Proof.
    intros written sent cid ops recv Hpk Hacc Hrecv.
    apply (downstream_stream_prefix_multi packets_of stream_of arq_safe written sent cid ops recv Hpk Hacc).
    intros p Hin. destruct (Hrecv p Hin) as (i & k & r0 & w0 & r1 & w1 & sched & sc & Hk & Hcid & Hs & Hp).
    destruct (relayed_read_from r0 w0 r1 w1 sched (k_wire k) sc Hs) as [cut Hcut]. rewrite Hcut in Hp.
    exists i, k, cut, sc. auto.
  Qed.
End ArqBoundaryRelay.
