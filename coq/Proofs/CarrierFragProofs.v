(* CarrierFragProofs.v — what a carrier contributes depends only on the CONCATENATION of the upstream bytes
   it received, not on how they were split into arrivals, in every phase (token, ClientID, chunks). *)
From Coq Require Import List NArith Bool Arith Lia.
From Snow Require Import Lib.Wire Lib.ListFacts Model.Encap Proofs.EncapProofs Model.CarrierLayer.
Import ListNotations.
Open Scope N_scope.

Definition phase_cost (st : kstate) : nat :=
  match st with K_Token => 2 | K_ClientID => 1 | K_Open => 0 | K_Dead => 0 end.
Definition need (k : carrier) : nat := length (k_buf k) + phase_cost (k_state k).

Lemma pump_S f k : pump (S f) k =
  match k_state k with
  | K_Token =>
      if (length (k_buf k) <? 8)%nat then (k, [])
      else if beq (firstn 8 (k_buf k)) TOKEN
           then pump f {| k_state := K_ClientID; k_cid := []; k_buf := skipn 8 (k_buf k);
                          k_up := k_up k; k_down := k_down k; k_wire := k_wire k |}
           else ({| k_state := K_Dead; k_cid := []; k_buf := []; k_up := k_up k; k_down := k_down k; k_wire := k_wire k |}, [])
  | K_ClientID =>
      if (length (k_buf k) <? 8)%nat then (k, [])
      else pump f {| k_state := K_Open; k_cid := firstn 8 (k_buf k); k_buf := skipn 8 (k_buf k);
                     k_up := k_up k; k_down := k_down k; k_wire := k_wire k |}
  | K_Open =>
      match parse_one (k_buf k) with
      | PChunk isdata d rest =>
          let k' := {| k_state := K_Open; k_cid := k_cid k; k_buf := rest;
                       k_up := if isdata then k_up k ++ [d] else k_up k;
                       k_down := k_down k; k_wire := k_wire k |} in
          let '(k'', ps) := pump f k' in
          (k'', if isdata then d :: ps else ps)
      | PLong => ({| k_state := K_Dead; k_cid := k_cid k; k_buf := []; k_up := k_up k;
                     k_down := k_down k; k_wire := k_wire k |}, [])
      | PEnd | PShort => (k, [])
      end
  | K_Dead => (k, [])
  end.
Proof. reflexivity. Qed.

(* every recursive call of pump is on a carrier that needs less: any fuel above [need] gives the same result *)
Lemma pump_fuel : forall F1 F2 k, (need k < F1)%nat -> (need k < F2)%nat -> pump F1 k = pump F2 k.
Proof.
  induction F1 as [|F1 IH]; intros F2 k H1 H2; [lia|]. destruct F2 as [|F2]; [lia|].
  unfold need in *. rewrite !pump_S. destruct (k_state k) eqn:Es; cbn [phase_cost] in *.
  - destruct (Nat.ltb_spec (length (k_buf k)) 8) as [Hl|Hl]; [reflexivity|].
    destruct (beq (firstn 8 (k_buf k)) TOKEN); [|reflexivity].
    apply IH; unfold need; cbn [k_buf k_state phase_cost]; rewrite skipn_length; lia.
  - destruct (Nat.ltb_spec (length (k_buf k)) 8) as [Hl|Hl]; [reflexivity|].
    apply IH; unfold need; cbn [k_buf k_state phase_cost]; rewrite skipn_length; lia.
  - destruct (parse_one (k_buf k)) as [isd d rest| | |] eqn:Ep; try reflexivity.
    apply parse_one_shrinks in Ep. cbn zeta.
    match goal with |- context [pump F1 ?K] => rewrite (IH F2 K) end;
      [reflexivity| |]; cbn [k_buf k_state phase_cost]; lia.
  - reflexivity.
Qed.

(* appending bytes to the buffer of a carrier, keeping everything else *)
Definition more (k : carrier) (b : bytes) : carrier := with_buf (k_buf k ++ b) k.

(* what S_Recv does to a carrier: a closed carrier ignores the bytes *)
Definition feed (k : carrier) (b : bytes) : carrier * list bytes :=
  match k_state k with
  | K_Dead => (k, [])
  | _ => pump (S (need (more k b))) (more k b)
  end.

Lemma feed_alive k b : k_state k <> K_Dead -> feed k b = pump (S (need (more k b))) (more k b).
Proof. unfold feed. destruct (k_state k); congruence. Qed.

Lemma feed_dead k b : k_state k = K_Dead -> feed k b = (k, []).
Proof. intros H. unfold feed. rewrite H. reflexivity. Qed.

Lemma recv_is_feed k b : k_state k <> K_Dead ->
  pump (S (S (S (length (k_buf k) + length b)))) (with_buf (k_buf k ++ b) k) = feed k b.
Proof.
  intros H. rewrite (feed_alive k b H).
  apply pump_fuel; unfold need, more, with_buf; cbn [k_buf k_state]; rewrite app_length; destruct (k_state k); cbn [phase_cost]; lia.
Qed.

Lemma parse_one_chunk_app b1 b2 isd d rest :
  parse_one b1 = PChunk isd d rest -> parse_one (b1 ++ b2) = PChunk isd d (rest ++ b2).
Proof.
  intros H. destruct (parse_one_inv _ _ _ _ H) as [p [Hb Hh]]. subst b1.
  pose proof (parse_one_chunk {| c_isdata := isd; c_prefix := p; c_body := d |} (rest ++ b2) Hh) as P.
  unfold chunk_bytes in P. cbn [c_prefix c_body c_isdata] in P.
  rewrite <- !app_assoc in *. exact P.
Qed.

Lemma parse_one_long_app b1 b2 : parse_one b1 = PLong -> parse_one (b1 ++ b2) = PLong.
Proof.
  intros H. apply parse_one_long_iff in H. destruct H as [x0 [x1 [x2 [r [-> Hc]]]]].
  apply parse_one_long_iff. exists x0, x1, x2, (r ++ b2). split; [reflexivity | exact Hc].
Qed.

(* Pumping what has arrived and then, after more bytes arrive, pumping again gives the same carrier and the
   same packets as pumping once with all the bytes. *)
Theorem pump_app : forall F k b,
  (need k < F)%nat -> k_state k <> K_Dead ->
  let '(k1, ps1) := pump F k in
  let '(k2, ps2) := feed k1 b in
  pump (S (need (more k b))) (more k b) = (k2, ps1 ++ ps2).
Proof.
  induction F as [|F IH]; intros k b HF Hal; [lia|].
  (* k' is k after one header or chunk was consumed: one unfolding of pump on [more k b] continues on [more k' b] *)
  assert (Hgo : forall k', (need k' < F)%nat -> k_state k' <> K_Dead ->
            pump (need (more k b)) (more k' b) = pump (S (need (more k' b))) (more k' b) ->
            let '(k1, ps1) := pump F k' in let '(k2, ps2) := feed k1 b in
            pump (need (more k b)) (more k' b) = (k2, ps1 ++ ps2)).
  { intros k' Hn Hal' E. specialize (IH k' b Hn Hal'). destruct (pump F k') as [k1 ps1].
    destruct (feed k1 b) as [k2 ps2]. rewrite E. exact IH. }
  assert (Hstop : let '(k2, ps2) := feed k b in pump (S (need (more k b))) (more k b) = (k2, [] ++ ps2)).
  { rewrite (feed_alive k b Hal). destruct (pump _ _) as [k2 ps2]. reflexivity. }
  pose proof (pump_S (need (more k b)) (more k b)) as E2.
  change (k_state (more k b)) with (k_state k) in E2. change (k_buf (more k b)) with (k_buf k ++ b) in E2.
  change (k_cid (more k b)) with (k_cid k) in E2. change (k_up (more k b)) with (k_up k) in E2.
  change (k_down (more k b)) with (k_down k) in E2. change (k_wire (more k b)) with (k_wire k) in E2.
  unfold need in HF. rewrite (pump_S F k). destruct (k_state k) eqn:Es; cbn [phase_cost] in HF; [| | |congruence].
  - (* the token *)
    destruct (Nat.ltb_spec (length (k_buf k)) 8) as [Hl|Hl]; [exact Hstop|]. clear Hstop. rewrite E2.
    rewrite app_length. destruct (Nat.ltb_spec (length (k_buf k) + length b) 8) as [Hc|_]; [lia|].
    rewrite firstn_app_le, skipn_app_le by lia.
    destruct (beq (firstn 8 (k_buf k)) TOKEN) eqn:Et.
    + apply (Hgo {| k_state := K_ClientID; k_cid := []; k_buf := skipn 8 (k_buf k); k_up := k_up k;
                    k_down := k_down k; k_wire := k_wire k |}); [| discriminate |].
      * unfold need; cbn [k_buf k_state phase_cost]; rewrite skipn_length; lia.
      * apply pump_fuel; unfold need, more, with_buf; cbn [k_buf k_state phase_cost]; rewrite ?Es;
          cbn [phase_cost]; rewrite ?app_length, ?skipn_length; lia.
    + reflexivity.
  - (* the ClientID *)
    destruct (Nat.ltb_spec (length (k_buf k)) 8) as [Hl|Hl]; [exact Hstop|]. clear Hstop. rewrite E2.
    rewrite app_length. destruct (Nat.ltb_spec (length (k_buf k) + length b) 8) as [Hc|_]; [lia|].
    rewrite firstn_app_le, skipn_app_le by lia.
    apply (Hgo {| k_state := K_Open; k_cid := firstn 8 (k_buf k); k_buf := skipn 8 (k_buf k); k_up := k_up k;
                  k_down := k_down k; k_wire := k_wire k |}); [| discriminate |].
    + unfold need; cbn [k_buf k_state phase_cost]; rewrite skipn_length; lia.
    + apply pump_fuel; unfold need, more, with_buf; cbn [k_buf k_state phase_cost]; rewrite ?Es;
        cbn [phase_cost]; rewrite ?app_length, ?skipn_length; lia.
  - (* a chunk *)
    destruct (parse_one (k_buf k)) as [isd d rest| | |] eqn:Ep; try exact Hstop; clear Hstop; rewrite E2.
    + pose proof (parse_one_shrinks _ _ _ _ Ep) as Hsh.
      rewrite (parse_one_chunk_app (k_buf k) b isd d rest Ep). cbn zeta.
      set (k' := {| k_state := K_Open; k_cid := k_cid k; k_buf := rest;
                    k_up := if isd then k_up k ++ [d] else k_up k; k_down := k_down k; k_wire := k_wire k |}).
      assert (G := Hgo k'). change (with_buf (rest ++ b) k') with (more k' b) in *.
      destruct (pump F k') as [k1 ps1]. destruct (feed k1 b) as [k2 ps2].
      change {| k_state := K_Open; k_cid := k_cid k; k_buf := rest ++ b; k_up := if isd then k_up k ++ [d] else k_up k;
                k_down := k_down k; k_wire := k_wire k |} with (more k' b).
      rewrite G; [destruct isd; reflexivity | unfold need, k'; cbn [k_buf k_state phase_cost]; lia | discriminate |].
      apply pump_fuel; unfold need, more, with_buf, k'; cbn [k_buf k_state phase_cost]; rewrite ?Es;
        cbn [phase_cost]; rewrite ?app_length; lia.
    + rewrite (parse_one_long_app (k_buf k) b Ep). reflexivity.
Qed.

Theorem feed_app : forall k b1 b2, k_state k <> K_Dead ->
  feed k (b1 ++ b2) =
  let '(k1, ps1) := feed k b1 in let '(k2, ps2) := feed k1 b2 in (k2, ps1 ++ ps2).
Proof.
  intros k b1 b2 Hal. rewrite (feed_alive k (b1 ++ b2) Hal), (feed_alive k b1 Hal).
  assert (Hm : more k (b1 ++ b2) = more (more k b1) b2) by (unfold more, with_buf; cbn; rewrite app_assoc; reflexivity).
  rewrite Hm.
  pose proof (pump_app (S (need (more k b1))) (more k b1) b2 ltac:(lia) Hal) as H.
  destruct (pump (S (need (more k b1))) (more k b1)) as [k1 ps1]. destruct (feed k1 b2) as [k2 ps2]. exact H.
Qed.
