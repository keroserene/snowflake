(* CarrierQueueProofs.v — Model/CarrierTimed.v, the outgoing side with retention (C17's client map under the carriers).
   A queue identity is tied to ONE key for ever (WriteTo's key, the key of every carrier whose write loop held it or
   was written a packet from it), with or without expiries in between. A session whose record is never idle for the
   timeout at a sweep has ONE queue for its whole life and loses no accepted packet across all its carriers; beyond the
   retention the sweep closes the queue, what was queued is lost (unless a write loop still holding the closed queue
   drains it), and the next touch makes a queue whose identity was never used before. *)
From Coq Require Import List NArith ZArith Bool Arith Lia.
From Snow Require Import Lib.Wire Lib.ListFacts Model.Encap Model.CarrierLayer
  Proofs.CarrierFragProofs Proofs.CarrierProofs
  Model.GoHeap Model.ClientMap Proofs.GoHeapProofs Proofs.ClientMapProofs Proofs.QueueOutProofs
  Proofs.QueueRetentionProofs Model.CarrierTimed Proofs.CarrierTimedProofs.
Import ListNotations.

Lemma qid_lt c a r : cm_inv c -> rec_of c a = Some r -> (c_qid r < next_qid c)%nat.
Proof. intros (_ & _ & _ & _ & _ & Hb) H. apply Hb. apply (rec_of_some _ _ _ H). Qed.

Lemma rec_qid_unique c a b ra rb : cm_inv c -> rec_of c a = Some ra -> rec_of c b = Some rb -> c_qid ra = c_qid rb -> a = b.
Proof.
  intros Hinv Ha Hb E. destruct (rec_of_some _ _ _ Ha) as [Ia <-]. destruct (rec_of_some _ _ _ Hb) as [Ib <-].
  f_equal. exact (qid_unique c ra rb Hinv Ia Ib E).
Qed.

(* a send or a receive on a queue changes queue contents only: same addresses, same identities, same last-seen *)
Definition requeued (c c' : cmap) : Prop := forall x,
  match rec_of c' x, rec_of c x with
  | Some r', Some r => c_qid r' = c_qid r /\ c_seen r' = c_seen r
  | None, None => True
  | _, _ => False
  end.

Lemma requeued_q_send cap p c b rb : cm_inv c -> rec_of c b = Some rb -> requeued c (fst (q_send cap (c_qid rb) p c)).
Proof.
  intros Hinv Hb x. rewrite (proj2 (q_send_by_addr cap p c b rb Hinv Hb)).
  destruct (N.eqb_spec b x) as [<-|_]; [rewrite Hb; destruct (_ <? _)%nat; auto | destruct (rec_of c x); auto].
Qed.

Lemma requeued_q_recv q c : cm_inv c -> requeued c (fst (q_recv q c)).
Proof.
  intros Hinv x. rewrite (rec_of_q_recv q c x Hinv). destruct (rec_of c x) as [r|]; cbn; [destruct (_ =? _)%nat|]; auto.
Qed.

(* a record that survives a sweep was there, unchanged, and was seen within the timeout *)
Lemma rec_of_swept now timeout c b r : cm_inv c -> rec_of (remove_expired now timeout c) b = Some r ->
  rec_of c b = Some r /\ expired now timeout r = false.
Proof.
  intros Hinv H. rewrite rec_of_remove_expired in H by exact Hinv. destruct (rec_of c b) as [r0|]; [|discriminate].
  destruct (expired now timeout r0) eqn:E; [discriminate|]. injection H as <-. auto.
Qed.

Definition live (c : cmap) (q : nat) (b : N) : Prop := exists r, rec_of c b = Some r /\ c_qid r = q.

Lemma live_unique c q b b' : cm_inv c -> live c q b -> live c q b' -> b = b'.
Proof. intros Hinv [r [Hr Hq]] [r' [Hr' Hq']]. eapply rec_qid_unique; eauto. congruence. Qed.

Lemma live_lt c q b : cm_inv c -> live c q b -> (q < next_qid c)%nat.
Proof. intros Hinv [r [Hr <-]]. eapply qid_lt; eauto. Qed.

Lemma live_requeued c c' : requeued c c' -> forall q b, live c' q b <-> live c q b.
Proof.
  intros H q b. specialize (H b). unfold live.
  destruct (rec_of c' b) as [r'|], (rec_of c b) as [r|]; try contradiction.
  - destruct H as [E _]. split; intros [r0 [H1 H2]]; injection H1 as <-; eexists; (split; [reflexivity | congruence]).
  - split; intros [r0 [H1 _]]; discriminate.
Qed.

(* SendQueue(a): the pairs afterwards are the pairs before plus (returned identity, a); the returned identity is a's
   live one, or — when a has no record — the never-used next_qid *)
Lemma live_send_queue a now c : cm_inv c ->
  let c' := fst (send_queue a now c) in let qn := snd (send_queue a now c) in
  (forall q b, live c' q b <-> (live c q b \/ (q = qn /\ b = a))) /\
  ((live c qn a /\ next_qid c' = next_qid c) \/ (qn = next_qid c /\ next_qid c' = S (next_qid c))).
Proof.
  intros Hinv. cbn zeta. destruct (send_queue_full a now c Hinv) as (_ & R & Q & O & _ & N). rewrite Q. unfold live. split.
  - intros q b. destruct (N.eq_dec b a) as [->|Hne].
    + rewrite R. destruct (rec_of c a) as [r|]; cbn [touch_rec set_seen c_qid]; split.
      * intros [r' [E H]]. injection E as <-. left. eauto.
      * intros [[r' [E H]]|[-> _]]; [injection E as <-|]; eauto.
      * intros [r' [E H]]. injection E as <-. right. auto.
      * intros [[r' [E _]]|[-> _]]; [discriminate | eauto].
    + rewrite (O b Hne). split; [auto | intros [H|[_ E]]; [exact H | contradiction]].
  - destruct (rec_of c a) as [r|]; cbn [touch_rec set_seen c_qid]; [left; eauto | right; auto].
Qed.

Definition key_of (k : carrier) : N := cid_key (k_cid k).

Definition tied (t : tstate) (q : nat) (b : N) : Prop :=
  (exists p, In (b, q, p) (tacc t)) \/
  (exists o p, In (o, b, q, p) (tcons t)) \/
  (exists i k, nth_error (tcar t) i = Some k /\ nth_error (theld t) i = Some (Some q) /\ key_of k = b) \/
  live (tcm t) q b.

Record GInv (t : tstate) : Prop := {
  g_cm : cm_inv (tcm t);
  g_len : length (theld t) = length (tcar t);
  g_lt : forall q b, tied t q b -> (q < next_qid (tcm t))%nat;
  g_own : forall q b b', tied t q b -> tied t q b' -> b = b';
  g_pre : forall i k q, nth_error (tcar t) i = Some k -> pre_open k -> nth_error (theld t) i <> Some (Some q)
}.

Lemma ginv_init : GInv tinit.
Proof.
  constructor; cbn.
  - apply cm_inv_empty.
  - reflexivity.
  - intros q b [[p []]|[[o [p []]]|[[i [k [H _]]]|[r [H _]]]]]; [destruct i|]; discriminate.
  - intros q b b' [[p []]|[[o [p []]]|[[i [k [H _]]]|[r [H _]]]]]; [destruct i|]; discriminate.
  - intros [|i] k q H; discriminate.
Qed.

(* what one step does to the ties: none appears except with the never-used identity, live afterwards *)
Definition step_sum (t t' : tstate) : Prop :=
  forall q b, tied t' q b -> tied t q b \/ (q = next_qid (tcm t) /\ live (tcm t') q b).

(* one step: every tie is an old one except at most one, [new]; that one is an old tie as well or uses the never-used
   identity, and is live afterwards *)
Lemma ginv_step t t' (new : option (nat * N)) :
  GInv t -> cm_inv (tcm t') -> length (theld t') = length (tcar t') ->
  (forall q b, tied t' q b -> tied t q b \/ new = Some (q, b)) ->
  match new with
  | Some (qn, kn) => live (tcm t') qn kn /\
      ((tied t qn kn /\ next_qid (tcm t') = next_qid (tcm t)) \/
       (qn = next_qid (tcm t) /\ next_qid (tcm t') = S (next_qid (tcm t))))
  | None => next_qid (tcm t') = next_qid (tcm t)
  end ->
  (forall i k q, nth_error (tcar t') i = Some k -> pre_open k -> nth_error (theld t') i <> Some (Some q)) ->
  GInv t' /\ step_sum t t'.
Proof.
  intros [Gc Gl Glt Gown Gpre] Hc Hl Hsub Hnew Hpre.
  (* a new tie with the never-used identity shares it with no old tie *)
  assert (Hone : forall q b b', tied t q b -> new = Some (q, b') -> b = b').
  { intros q b b' H0 ->. destruct Hnew as [_ [[Hn _]|[-> _]]]; [exact (Gown q b b' H0 Hn)|]. specialize (Glt _ _ H0). lia. }
  split; [constructor; try assumption|].
  - intros q b H. destruct (Hsub q b H) as [H0| ->].
    + specialize (Glt q b H0). destruct new as [[qn kn]|]; [destruct Hnew as [_ [[_ ->]|[_ ->]]]; lia | rewrite Hnew; exact Glt].
    + destruct Hnew as [_ [[H0 ->]|[-> ->]]]; [exact (Glt _ _ H0) | lia].
  - intros q b b' H H'. destruct (Hsub q b H) as [H0|E], (Hsub q b' H') as [H0'|E'].
    + exact (Gown q b b' H0 H0').
    + exact (Hone q b b' H0 E').
    + symmetry. exact (Hone q b' b H0' E).
    + congruence.
  - intros q b H. destruct (Hsub q b H) as [H0| ->]; [left; exact H0|].
    destruct Hnew as [Hlive [[Hn _]|[E _]]]; [left; exact Hn | right; split; [exact E | exact Hlive]].
Qed.

Lemma both_same t : GInv t -> GInv t /\ step_sum t t.
Proof. intros G. split; [exact G | intros q b H; left; exact H]. Qed.

Lemma key_kill k : key_of (kill k) = key_of k.
Proof. reflexivity. Qed.

Lemma live_tied t q b : live (tcm t) q b -> tied t q b.
Proof. intros H. right. right. right. exact H. Qed.

(* the ties of t' come from those of t component by component, except for [new] *)
Lemma tied_step t t' (new : option (nat * N)) :
  (forall b q p, In (b, q, p) (tacc t') -> In (b, q, p) (tacc t) \/ new = Some (q, b)) ->
  (forall o b q p, In (o, b, q, p) (tcons t') -> In (o, b, q, p) (tcons t) \/ tied t q b) ->
  (forall i k q, nth_error (tcar t') i = Some k -> nth_error (theld t') i = Some (Some q) ->
     tied t q (key_of k) \/ new = Some (q, key_of k)) ->
  (forall q b, live (tcm t') q b -> tied t q b \/ new = Some (q, b)) ->
  forall q b, tied t' q b -> tied t q b \/ new = Some (q, b).
Proof.
  intros Ha Hc Hh Hl q b [[p H]|[[o [p H]]|[[i [k [Hk [Hq <-]]]]|H]]].
  - destruct (Ha _ _ _ H) as [H0|H0]; [left; left; eauto | right; exact H0].
  - destruct (Hc _ _ _ _ H) as [H0|H0]; [left; right; left; eauto | left; exact H0].
  - exact (Hh i k q Hk Hq).
  - exact (Hl _ _ H).
Qed.

(* carrier i moves by f and its write loop either keeps the queue it holds or obtains queue qn: the queues held
   afterwards were held before by a carrier of the same key, except qn; a carrier still reading its header holds none *)
Lemma held_kupd t i f (hq : option nat) : GInv t ->
  (forall x, nth_error (tcar t) i = Some x -> kstep x (f x)) ->
  (hq <> None -> forall x, nth_error (tcar t) i = Some x -> ~ pre_open (f x)) ->
  let hs' := match hq with Some qn => set_nth i (Some qn) (theld t) | None => theld t end in
  length hs' = length (kupd i f (tcar t)) /\
  (forall j k q, nth_error (kupd i f (tcar t)) j = Some k -> nth_error hs' j = Some (Some q) ->
     tied t q (key_of k) \/ (hq = Some q /\ exists x, nth_error (tcar t) i = Some x /\ k = f x)) /\
  (forall j k q, nth_error (kupd i f (tcar t)) j = Some k -> pre_open k -> nth_error hs' j <> Some (Some q)).
Proof.
  intros [Gc Gl Glt Gown Gpre] Hf Hnp hs'.
  assert (Hheld : forall j k q, nth_error (tcar t) j = Some k -> nth_error (theld t) j = Some (Some q) -> tied t q (key_of k))
    by (intros j k q Hj Hh; right; right; left; exists j, k; auto).
  assert (Hoth : forall j, i <> j -> nth_error hs' j = nth_error (theld t) j)
    by (intros j Hne; unfold hs'; destruct hq; [apply nth_error_set_nth_neq; congruence | reflexivity]).
  split; [unfold hs'; rewrite kupd_length; destruct hq; rewrite ?set_nth_length; exact Gl|]. split.
  - intros j k q Hj Hh. destruct (knth_upd_inv _ _ _ _ _ Hj) as [[<- [x [Hx ->]]]|[Hne Hj']];
      [|rewrite (Hoth j Hne) in Hh; left; exact (Hheld j k q Hj' Hh)].
    unfold hs' in Hh. destruct hq as [qn|].
    + right. rewrite nth_error_set_nth_eq in Hh by (rewrite Gl; eapply nth_error_lt; eauto). injection Hh as <-. eauto.
    + left. destruct (pre_open_dec x) as [Hpx|Hnx]; [elim (Gpre i x q Hx Hpx Hh)|].
      destruct (kstep_tag _ _ (Hf x Hx) Hnx) as (_ & E & _). unfold key_of. rewrite E. exact (Hheld i x q Hx Hh).
  - intros j k q Hj Hpre Hh. destruct (knth_upd_inv _ _ _ _ _ Hj) as [[<- [x [Hx ->]]]|[Hne Hj']];
      [|rewrite (Hoth j Hne) in Hh; exact (Gpre j k q Hj' Hpre Hh)].
    unfold hs' in Hh. destruct hq as [qn|]; [exact (Hnp ltac:(discriminate) x Hx Hpre)|].
    destruct (pre_open_dec x) as [Hpx|Hnx]; [exact (Gpre i x q Hx Hpx Hh)|].
    exact (proj1 (kstep_tag _ _ (Hf x Hx) Hnx) Hpre).
Qed.

Section Steps.
  Variable timeout : Z.

  Lemma pre_openb_iff k : pre_openb k = true <-> pre_open k.
  Proof.
    unfold pre_openb, pre_open. destruct (k_state k); split; intros H; try reflexivity; try discriminate;
      try (left; reflexivity); try (right; reflexivity); destruct H; discriminate.
  Qed.

  Lemma entered_not_pre k : entered k = true -> ~ pre_open k.
  Proof. unfold entered, pre_open. destruct (k_state k); intros H [E|E]; discriminate. Qed.

  (* the one new tie of a step that calls SendQueue(a): (the returned identity, a) *)
  Lemma send_queue_tie a now c t : cm_inv c -> next_qid c = next_qid (tcm t) ->
    (forall q b, live c q b -> live (tcm t) q b) ->
    let qn := snd (send_queue a now c) in let c' := fst (send_queue a now c) in
    cm_inv c' /\ (forall q b, live c' q b -> tied t q b \/ Some (qn, a) = Some (q, b)) /\
    live c' qn a /\
    ((tied t qn a /\ next_qid c' = next_qid (tcm t)) \/ (qn = next_qid (tcm t) /\ next_qid c' = S (next_qid (tcm t)))).
  Proof.
    intros Hinv Hn Hl. destruct (live_send_queue a now c Hinv) as (L3 & L4). cbn zeta in *.
    split; [apply send_queue_inv; exact Hinv|]. split; [|split; [apply L3; right; split; reflexivity|]].
    - intros q b H. apply L3 in H. destruct H as [H|[-> ->]]; [left; right; right; right; exact (Hl _ _ H) | right; reflexivity].
    - rewrite <- Hn. destruct L4 as [[La Lb]|[La Lb]]; [left; split; [right; right; right; exact (Hl _ _ La) | exact Lb] | right; split; assumption].
  Qed.

  Theorem tstep_both t o : GInv t -> GInv (tstep timeout t o) /\ step_sum t (tstep timeout t o).
  Proof.
    intros G. pose proof G as [Gc Gl Glt Gown Gpre].
    assert (Hheld : forall j k q, nth_error (tcar t) j = Some k -> nth_error (theld t) j = Some (Some q) -> tied t q (key_of k))
      by (intros j k q Hj Hh; right; right; left; exists j, k; auto).
    destruct o.
    - apply (ginv_step t _ None); cbn [tstep tcm tcar theld]; try assumption; try reflexivity.
      + rewrite !app_length, Gl. reflexivity.
      + apply tied_step; cbn [tstep tcm tcar theld tacc tcons]; auto using live_tied.
        intros i k q Hk Hh. destruct (nth_error_snoc _ _ _ _ Hh) as [Ho|[_ Hx]]; [|discriminate].
        rewrite nth_error_app1 in Hk by (rewrite <- Gl; eapply nth_error_lt; eauto). left. exact (Hheld i k q Hk Ho).
      + intros i k q Hk Hpre Hh. destruct (nth_error_snoc _ _ _ _ Hh) as [Ho|[_ Hx]]; [|discriminate].
        rewrite nth_error_app1 in Hk by (rewrite <- Gl; eapply nth_error_lt; eauto). exact (Gpre i k q Hk Hpre Ho).
    - destruct (nth_error (tcar t) i) as [k|] eqn:Hk; [|cbn [tstep]; rewrite Hk; apply both_same; exact G].
      rewrite (tstep_recv timeout t i b now k Hk). cbn zeta. set (k' := fst (feed k b)).
      assert (Hf : forall x, nth_error (tcar t) i = Some x -> kstep x k')
        by (intros x Hx; rewrite Hk in Hx; injection Hx as <-; left; eexists; apply feed_ok).
      destruct (pre_openb k && entered k')%bool eqn:Est.
      + (* token and ClientID complete: the write loop asks for its queue *)
        apply andb_prop in Est. destruct Est as [_ Hent].
        destruct (send_queue_tie (cid_key (k_cid k')) now (tcm t) t Gc eq_refl (fun _ _ H => H)) as (S1 & S2 & S3 & S4). cbn zeta in *.
        destruct (held_kupd t i (fun _ => k') (Some (snd (send_queue (cid_key (k_cid k')) now (tcm t)))) G Hf
                    (fun _ _ _ => entered_not_pre k' Hent)) as (H1 & H2 & H3).
        apply (ginv_step t _ (Some (snd (send_queue (cid_key (k_cid k')) now (tcm t)), cid_key (k_cid k'))));
          cbn [tcm tcar theld tacc tcons]; auto.
        apply tied_step; cbn [tcm tcar theld tacc tcons]; auto using live_tied.
        intros j kj q Hj Hh. destruct (H2 j kj q Hj Hh) as [H0|[E [x [_ ->]]]]; [left; exact H0 | right; injection E as <-; reflexivity].
      + destruct (held_kupd t i (fun _ => k') None G Hf ltac:(congruence)) as (H1 & H2 & H3).
        apply (ginv_step t _ None); cbn [tcm tcar theld tacc tcons]; auto.
        apply tied_step; cbn [tcm tcar theld tacc tcons]; auto using live_tied.
        intros j kj q Hj Hh. destruct (H2 j kj q Hj Hh) as [H0|[E _]]; [left; exact H0 | discriminate].
    - destruct (held_kupd t i kill None G (fun x _ => or_introl (ex_intro _ [] (pump_ok_kill x))) ltac:(congruence)) as (H1 & H2 & H3).
      apply (ginv_step t _ None); cbn [tstep tcm tcar theld tacc tcons]; auto.
      apply tied_step; cbn [tcm tcar theld tacc tcons]; auto using live_tied.
      intros j kj q Hj Hh. destruct (H2 j kj q Hj Hh) as [H0|[E _]]; [left; exact H0 | discriminate].
    - rewrite tstep_writeto. cbn zeta.
      destruct (send_queue_tie (cid_key cid) now (tcm t) t Gc eq_refl (fun _ _ H => H)) as (S1 & S2 & S3 & S4). cbn zeta in *.
      set (sq := send_queue (cid_key cid) now (tcm t)) in *.
      destruct (send_queue_full (cid_key cid) now (tcm t) Gc) as (_ & R & Q & _). fold sq in R, Q.
      pose proof (q_send_inv QUEUE_SIZE (snd sq) p (fst sq) S1) as Q1.
      pose proof (proj2 (q_send_frame QUEUE_SIZE (snd sq) p (fst sq))) as Q2.
      assert (Q4 := live_requeued _ _ (requeued_q_send QUEUE_SIZE p (fst sq) (cid_key cid) _ S1 R)). rewrite <- Q in Q4.
      apply (ginv_step t _ (Some (snd sq, cid_key cid))); cbn [tcm tcar theld tacc tcons]; auto.
      + apply tied_step; cbn [tcm tcar theld tacc tcons]; auto using live_tied.
        * intros b q p0 H. destruct (snd (q_send _ _ _ _)); [|left; exact H].
          apply in_app_or in H. destruct H as [H|[H|[]]]; [left; exact H | right; congruence].
        * intros j kj q Hj Hh. left. exact (Hheld j kj q Hj Hh).
        * intros q b H. apply S2, Q4, H.
      + rewrite Q2. split; [apply Q4; exact S3 | exact S4].
    - destruct (tstep_send timeout t i now) as [E|(k & q & Hk & Hh & Es & E)]; [rewrite E; apply both_same; exact G|].
      cbn zeta in E. pose proof (q_recv_inv q (tcm t) Gc) as R1. pose proof (proj2 (q_recv_frame q (tcm t))) as R2.
      assert (R3 := live_requeued _ _ (requeued_q_recv q (tcm t) Gc)).
      pose proof (Hheld i k q Hk Hh) as Htq.
      assert (Hlose : forall tc, (forall o b q0 p, In (o, b, q0, p) tc -> In (o, b, q0, p) (tcons t) \/ tied t q0 b) ->
                let t' := {| tcar := kupd i kill (tcar t); theld := theld t; trecvq := trecvq t; tdelivered := tdelivered t;
                             tcm := fst (q_recv q (tcm t)); tacc := tacc t; tcons := tc |} in
                GInv t' /\ step_sum t t').
      { intros tc Htc t'.
        destruct (held_kupd t i kill None G (fun x _ => or_introl (ex_intro _ [] (pump_ok_kill x))) ltac:(congruence)) as (H1 & H2 & H3).
        apply (ginv_step t _ None); cbn [t' tcm tcar theld tacc tcons]; auto.
        apply tied_step; cbn [tcm tcar theld tacc tcons]; auto using live_tied.
        - intros j kj q0 Hj Hhj. destruct (H2 j kj q0 Hj Hhj) as [H0|[E0 _]]; [left; exact H0 | discriminate].
        - intros q0 b0 H. left. apply live_tied, R3, H. }
      assert (Hnew : forall o p0 o' b q0 p', In (o', b, q0, p') (tcons t ++ [(o, cid_key (k_cid k), q, p0)]) ->
                In (o', b, q0, p') (tcons t) \/ tied t q0 b).
      { intros o p0 o' b q0 p' H. apply in_app_or in H. destruct H as [H|[H|[]]]; [left; exact H|].
        injection H as _ <- <- _. right. exact Htq. }
      destruct (snd (q_recv q (tcm t))) as [p| |]; [destruct (write_data p) as [w|]|..]; rewrite E;
        [|apply Hlose, Hnew | apply both_same; exact G | apply Hlose; auto].
      (* written: the loop comes round and asks for its queue again *)
      destruct (send_queue_tie (cid_key (k_cid k)) now (fst (q_recv q (tcm t))) t R1 R2 (fun q0 b0 H => proj1 (R3 q0 b0) H))
        as (S1 & S2 & S3 & S4). cbn zeta in *.
      set (sq := send_queue (cid_key (k_cid k)) now (fst (q_recv q (tcm t)))) in *.
      assert (Hf : forall x, nth_error (tcar t) i = Some x -> kstep x (open_carrier x p w))
        by (intros x Hx; right; split; [congruence | exists p, w; reflexivity]).
      destruct (held_kupd t i (fun x => open_carrier x p w) (Some (snd sq)) G Hf
                  (fun _ x _ => open_not_pre (open_carrier x p w) eq_refl)) as (H1 & H2 & H3).
      apply (ginv_step t _ (Some (snd sq, cid_key (k_cid k)))); cbn [tcm tcar theld tacc tcons]; auto.
      apply tied_step; cbn [tcm tcar theld tacc tcons]; auto using live_tied.
      + apply Hnew.
      + intros j kj q0 Hj Hhj. destruct (H2 j kj q0 Hj Hhj) as [H0|[E0 [x [Hx ->]]]]; [left; exact H0 | right].
        rewrite Hk in Hx. injection Hx as <-. injection E0 as <-. reflexivity.
    - cbn [tstep]. destruct (trecvq t); [apply both_same; exact G|].
      apply (ginv_step t _ None); cbn [tcm tcar theld]; auto.
    - cbn [tstep]. destruct (remove_expired_spec now timeout (tcm t) Gc) as (W1 & W2 & _).
      apply (ginv_step t _ None); cbn [tcm tcar theld tacc tcons]; try assumption.
      apply tied_step; cbn [tcm tcar theld tacc tcons]; auto using live_tied.
      + intros j kj q Hj Hh. left. exact (Hheld j kj q Hj Hh).
      + intros q b [r [Hr Hq]]. left. apply live_tied. exists r. split; [apply (rec_of_swept _ _ _ b r Gc Hr) | exact Hq].
  Qed.

  Theorem tstep_ginv t o : GInv t -> GInv (tstep timeout t o).
  Proof. intros G. apply (tstep_both t o G). Qed.

  Theorem trun_ginv : forall ops, GInv (trun timeout ops).
  Proof. intros ops. apply (fold_left_inv GInv (tstep timeout) tstep_ginv), ginv_init. Qed.
End Steps.

Definition acc_key (a : N) (l : list (N * nat * bytes)) : list bytes :=
  map snd (filter (fun x => N.eqb (fst (fst x)) a) l).
Definition cons_key (a : N) (l : list (option nat * N * nat * bytes)) : list bytes :=
  map snd (filter (fun x => N.eqb (snd (fst (fst x))) a) l).

Lemma acc_key_snoc a l b q p : acc_key a (l ++ [(b, q, p)]) = acc_key a l ++ (if N.eqb b a then [p] else []).
Proof. unfold acc_key. rewrite map_filter_snoc. reflexivity. Qed.
Lemma cons_key_snoc a l o b q p : cons_key a (l ++ [(o, b, q, p)]) = cons_key a l ++ (if N.eqb b a then [p] else []).
Proof. unfold cons_key. rewrite map_filter_snoc. reflexivity. Qed.

Lemma out_q_send_queue a' now c a : cm_inv c -> out_q (fst (send_queue a' now c)) a = out_q c a.
Proof.
  intros Hinv. destruct (send_queue_full a' now c Hinv) as (_ & R & _ & O & _). unfold out_q.
  destruct (N.eq_dec a a') as [->|Hne]; [|rewrite (O a Hne); reflexivity].
  rewrite R. destruct (rec_of c a'); reflexivity.
Qed.

Lemma out_q_q_send cap p c b rb a : cm_inv c -> rec_of c b = Some rb ->
  out_q (fst (q_send cap (c_qid rb) p c)) a =
  out_q c a ++ (if (snd (q_send cap (c_qid rb) p c) && N.eqb b a)%bool then [p] else []).
Proof.
  intros Hinv Hb. destruct (q_send_by_addr cap p c b rb Hinv Hb) as [-> Hx]. unfold out_q. rewrite Hx.
  destruct (N.eqb_spec b a) as [<-|_]; [|rewrite andb_false_r, app_nil_r; reflexivity].
  rewrite Hb. destruct (_ <? _)%nat; cbn; rewrite ?app_nil_r; reflexivity.
Qed.

Lemma out_q_q_recv q c a : cm_inv c ->
  out_q (fst (q_recv q c)) a =
  match rec_of c a with Some r => if (c_qid r =? q)%nat then tl (c_q r) else c_q r | None => [] end.
Proof.
  intros Hinv. unfold out_q. rewrite rec_of_q_recv by exact Hinv.
  destruct (rec_of c a) as [r|]; cbn; [destruct (_ =? _)%nat|]; reflexivity.
Qed.

Section Span.
  Variable timeout : Z.
  Variable t0 : Z.

  Definition op_time (o : top) : option Z :=
    match o with
    | T_Recv _ _ now | T_WriteTo _ _ now | T_Send _ now | T_Sweep now => Some now
    | _ => None
    end.
  Definition in_window (o : top) : Prop :=
    match op_time o with Some now => (t0 <= now < t0 + timeout)%Z | None => True end.
End Span.

Section CmStep.
  Variable timeout : Z.

  (* the client map after a step is the client map before it put through at most two of the four client-map
     operations: what each of them keeps, a step keeps *)
  Lemma tstep_cm_ind (P : cmap -> Prop) t o : cm_inv (tcm t) -> P (tcm t) ->
    (forall a now c, op_time o = Some now -> cm_inv c -> P c -> P (fst (send_queue a now c))) ->
    (forall b r p c, cm_inv c -> rec_of c b = Some r -> P c -> P (fst (q_send QUEUE_SIZE (c_qid r) p c))) ->
    (forall q c, cm_inv c -> P c -> P (fst (q_recv q c))) ->
    (forall now, o = T_Sweep now -> P (remove_expired now timeout (tcm t))) ->
    P (tcm (tstep timeout t o)).
  Proof.
    intros Gc HP Hsq Hqs Hqr Hsw. destruct o.
    - exact HP.
    - destruct (nth_error (tcar t) i) as [k|] eqn:Hk; [|cbn [tstep]; rewrite Hk; exact HP].
      rewrite (tstep_recv timeout t i b now k Hk). cbn [tcm]. destruct (_ && _)%bool; [apply Hsq; auto | exact HP].
    - exact HP.
    - rewrite tstep_writeto. cbn [tcm]. destruct (send_queue_full (cid_key cid) now (tcm t) Gc) as (S1 & R & -> & _).
      apply (Hqs (cid_key cid)); [exact S1 | exact R | apply Hsq; auto].
    - destruct (tstep_send timeout t i now) as [E|(k & q & _ & _ & _ & E)]; [rewrite E; exact HP|]. cbn zeta in E.
      pose proof (q_recv_inv q (tcm t) Gc) as R1. specialize (Hqr q (tcm t) Gc HP).
      destruct (snd (q_recv q (tcm t))) as [p| |]; [destruct (write_data p)|..]; rewrite E; cbn [tcm]; auto.
    - cbn [tstep]. destruct (trecvq t); exact HP.
    - apply Hsw. reflexivity.
  Qed.
End CmStep.

Section Key.
  Variable timeout : Z.
  Variable a : N.
  (* the sweep [o] finds the session's record idle for the timeout *)
  Definition stale (t : tstate) (o : top) : Prop :=
    match o with
    | T_Sweep now => exists r, rec_of (tcm t) a = Some r /\ expired now timeout r = true
    | _ => False
    end.

  Fixpoint fresh_from (t : tstate) (ops : list top) : Prop :=
    match ops with
    | [] => True
    | o :: r => ~ stale t o /\ fresh_from (tstep timeout t o) r
    end.

  Record KInv (t : tstate) : Prop := {
    k_one : forall q, tied t q a -> live (tcm t) q a;
    k_fifo : acc_key a (tacc t) = cons_key a (tcons t) ++ out_q (tcm t) a
  }.

  Lemma kinv_init : KInv tinit.
  Proof.
    constructor.
    - intros q [[p []]|[[o [p []]]|[[i [k [H _]]]|[r [H _]]]]]; [destruct i|]; discriminate.
    - reflexivity.
  Qed.

  Lemma live_forward t o q b : GInv t -> live (tcm t) q b ->
    (forall now r, o = T_Sweep now -> rec_of (tcm t) b = Some r -> expired now timeout r = false) ->
    live (tcm (tstep timeout t o)) q b.
  Proof.
    intros G H Hf. pose proof (g_cm t G) as Gc. apply tstep_cm_ind; [exact Gc | exact H | | | |].
    - intros a0 now c _ Hc Hl. apply (live_send_queue a0 now c Hc). left. exact Hl.
    - intros b0 r p c Hc Hr Hl. apply (live_requeued _ _ (requeued_q_send QUEUE_SIZE p c b0 r Hc Hr)), Hl.
    - intros q0 c Hc Hl. apply (live_requeued _ _ (requeued_q_recv q0 c Hc)), Hl.
    - intros now ->. destruct H as [r [Hr Hq]]. exists r. split; [|exact Hq].
      rewrite rec_of_remove_expired, Hr, (Hf now r eq_refl Hr) by exact Gc. reflexivity.
  Qed.

  Lemma not_stale_fresh t now : ~ stale t (T_Sweep now) ->
    forall r, rec_of (tcm t) a = Some r -> expired now timeout r = false.
  Proof.
    intros Hns r Hr. destruct (expired now timeout r) eqn:E; [|reflexivity]. exfalso. apply Hns. exists r. split; assumption.
  Qed.

  Theorem tstep_kinv t o : GInv t -> KInv t -> ~ stale t o -> KInv (tstep timeout t o).
  Proof.
    intros G [K1 K2] Hns. pose proof G as [Gc Gl Glt Gown Gpre].
    destruct (tstep_both timeout t o G) as [G' Hsum]. constructor.
    - intros q Ht. destruct (Hsum q a Ht) as [H0|[_ Hl]]; [|exact Hl].
      apply live_forward; [exact G | apply K1; exact H0|].
      intros now r -> Hr. apply (not_stale_fresh t now Hns r Hr).
    - destruct o.
      + exact K2.
      + destruct (nth_error (tcar t) i) as [k|] eqn:Hk; [|cbn [tstep]; rewrite Hk; exact K2].
        rewrite (tstep_recv timeout t i b now k Hk). cbn [tcm tacc tcons].
        destruct (_ && _)%bool; [rewrite out_q_send_queue by exact Gc|]; exact K2.
      + exact K2.
      + rewrite tstep_writeto. cbn zeta. cbn [tcm tacc tcons].
        destruct (send_queue_full (cid_key cid) now (tcm t) Gc) as (S1 & R & -> & _).
        rewrite (out_q_q_send QUEUE_SIZE p _ (cid_key cid) _ a S1 R), out_q_send_queue by exact Gc.
        destruct (snd (q_send _ _ _ _)); cbn [andb]; [rewrite acc_key_snoc; destruct (N.eqb _ a)|];
          rewrite K2, ?app_nil_r, ?app_assoc; reflexivity.
      + destruct (tstep_send timeout t i now) as [E|(k & q & Hk & Hh & Es & E)]; [rewrite E; exact K2|]. cbn zeta in E.
        assert (Htq : tied t q (key_of k)) by (right; right; left; exists i, k; auto).
        pose proof (q_recv_inv q (tcm t) Gc) as R1. pose proof (out_q_q_recv q (tcm t) a Gc) as Ho1.
        (* the session's own queue is held by its own carriers only; its head is what a receive returns *)
        assert (Hmine : forall r, rec_of (tcm t) a = Some r -> c_qid r = q ->
                  cid_key (k_cid k) = a /\ snd (q_recv q (tcm t)) = rcv_of (c_q r)).
        { intros r Er <-. split; [symmetry; apply (Gown (c_qid r)); [apply live_tied; exists r; auto | exact Htq]|].
          apply (q_recv_by_addr (tcm t) a r Gc Er). }
        assert (Hother : (forall r, rec_of (tcm t) a = Some r -> c_qid r <> q) -> N.eqb (cid_key (k_cid k)) a = false).
        { intros Hno. apply N.eqb_neq. intros Ek. change (key_of k = a) in Ek. rewrite Ek in Htq.
          destruct (K1 q Htq) as [r [Hr Hq]]. exact (Hno r Hr Hq). }
        assert (Hfin : forall o p c2, out_q c2 a = out_q (fst (q_recv q (tcm t))) a -> snd (q_recv q (tcm t)) = RcvPkt p ->
                  acc_key a (tacc t) = cons_key a (tcons t ++ [(o, cid_key (k_cid k), q, p)]) ++ out_q c2 a).
        { intros o p c2 -> Hp. rewrite cons_key_snoc, Ho1, K2. unfold out_q.
          destruct (rec_of (tcm t) a) as [r|] eqn:Er; [destruct (Nat.eqb_spec (c_qid r) q) as [Eq|Ne]|].
          - destruct (Hmine r eq_refl Eq) as [-> Hs]. rewrite N.eqb_refl. rewrite Hp in Hs.
            destruct (c_q r); [discriminate|]. injection Hs as <-. rewrite <- app_assoc. reflexivity.
          - rewrite Hother by (intros r0 H0; congruence). rewrite app_nil_r. reflexivity.
          - rewrite Hother by discriminate. rewrite !app_nil_r. reflexivity. }
        destruct (snd (q_recv q (tcm t))) as [p| |] eqn:Er; [destruct (write_data p) as [w|]|..]; rewrite E; cbn [tcm tacc tcons].
        * apply Hfin; [apply out_q_send_queue; exact R1 | reflexivity].
        * apply Hfin; reflexivity.
        * exact K2.
        * (* a queue that was closed under its carrier is not the session's live one *)
          rewrite Ho1, K2. unfold out_q. destruct (rec_of (tcm t) a) as [r|] eqn:Ea; [|reflexivity].
          destruct (Nat.eqb_spec (c_qid r) q) as [Eq|_]; [|reflexivity].
          destruct (Hmine r eq_refl Eq) as [_ Hs]. destruct (c_q r); discriminate.
      + cbn [tstep]. destruct (trecvq t); exact K2.
      + cbn [tstep tacc tcons tcm]. rewrite K2. f_equal. unfold out_q. rewrite rec_of_remove_expired by exact Gc.
        destruct (rec_of (tcm t) a) as [r|] eqn:Er; [|reflexivity]. rewrite (not_stale_fresh t now Hns r Er). reflexivity.
  Qed.

  Theorem trun_kinv : forall ops, fresh_from tinit ops -> KInv (trun timeout ops).
  Proof.
    intros ops. unfold trun.
    assert (H : forall t, GInv t -> KInv t -> fresh_from t ops -> KInv (fold_left (tstep timeout) ops t)).
    { induction ops as [|o ops IH]; intros t G K Hf; cbn [fold_left]; [exact K|]. destruct Hf as [Hns Hf].
      apply IH; [apply tstep_ginv; exact G | apply tstep_kinv; assumption | exact Hf]. }
    apply H; [apply ginv_init | apply kinv_init].
  Qed.

  (* all the identities ever tied to the session are ONE identity *)
  Corollary one_queue t q q' : KInv t -> tied t q a -> tied t q' a -> q = q'.
  Proof.
    intros K H H'. destruct (k_one t K q H) as [r [Hr Hq]]. destruct (k_one t K q' H') as [r' [Hr' Hq']]. congruence.
  Qed.

  (* no carrier of the session is closed by an expiry: a receive on the queue it holds never reports "closed" *)
  Corollary never_closed_under_carrier t i k q : GInv t -> KInv t ->
    nth_error (tcar t) i = Some k -> nth_error (theld t) i = Some (Some q) -> key_of k = a ->
    snd (q_recv q (tcm t)) <> RcvClosed.
  Proof.
    intros G K Hk Hh Hkey. pose proof (g_cm t G) as Gc.
    assert (Ht : tied t q a) by (right; right; left; exists i, k; repeat split; assumption).
    destruct (k_one t K q Ht) as [r [Hr <-]]. rewrite (proj1 (q_recv_by_addr (tcm t) a r Gc Hr)). destruct (c_q r); discriminate.
  Qed.
End Key.

Section Expiry.
  Variable timeout : Z.

  (* the sweeper's decision for one record: kept iff seen less than the timeout ago (the code's comparison
     now.Sub(LastSeen) >= timeout); removed records' queues are closed with what was left in them *)
  Theorem sweep_boundary t now a r : GInv t -> rec_of (tcm t) a = Some r ->
    let t' := tstep timeout t (T_Sweep now) in
    ((now - c_seen r < timeout)%Z -> rec_of (tcm t') a = Some r) /\
    ((now - c_seen r >= timeout)%Z -> rec_of (tcm t') a = None /\ In (c_qid r, c_q r) (dead (tcm t'))).
  Proof.
    intros G Hr. cbn zeta. cbn [tstep tcm]. pose proof (g_cm t G) as Gc.
    rewrite rec_of_remove_expired, Hr by exact Gc. split; intros H.
    - rewrite (proj2 (expired_false_iff now timeout r) H). reflexivity.
    - apply expired_true_iff in H. rewrite H. split; [reflexivity|].
      destruct (remove_expired_spec now timeout (tcm t) Gc) as (_ & _ & I3 & I4 & _).
      destruct (I4 r (proj1 (rec_of_some _ _ _ Hr))) as [Hk|[_ Hd]]; [|exact Hd]. rewrite (I3 r Hk) in H. discriminate.
  Qed.

  (* every touch refreshes last-seen: after WriteTo the record of the key was seen [now] *)
  Theorem writeto_touches t cid p now : GInv t ->
    exists r, rec_of (tcm (tstep timeout t (T_WriteTo cid p now))) (cid_key cid) = Some r /\ c_seen r = now.
  Proof.
    intros G. rewrite tstep_writeto. cbn zeta. cbn [tcm]. pose proof (g_cm t G) as Gc.
    destruct (send_queue_full (cid_key cid) now (tcm t) Gc) as (L1 & R & Q & _).
    set (sq := send_queue (cid_key cid) now (tcm t)) in *. rewrite Q.
    destruct (q_send_rec QUEUE_SIZE p (fst sq) (cid_key cid) _ L1 R) as (_ & _ & _ & _ & Hx).
    rewrite Hx, N.eqb_refl. eexists. split; [reflexivity|].
    destruct (_ <? _)%nat, (rec_of (tcm t) (cid_key cid)); reflexivity.
  Qed.

  (* after an expiry the next packet for the session goes into a NEW queue: an identity no queue, no carrier and no
     log entry ever had; it starts with exactly that packet *)
  Theorem new_incarnation t cid p now : GInv t -> rec_of (tcm t) (cid_key cid) = None ->
    let t' := tstep timeout t (T_WriteTo cid p now) in
    exists r, rec_of (tcm t') (cid_key cid) = Some r /\ c_qid r = next_qid (tcm t) /\ c_seen r = now /\ c_q r = [p] /\
              (forall q b, tied t q b -> (q < c_qid r)%nat) /\
              tacc t' = tacc t ++ [(cid_key cid, c_qid r, p)].
  Proof.
    intros G Hnone. cbn zeta. rewrite tstep_writeto. cbn zeta. cbn [tcm tacc]. pose proof (g_cm t G) as Gc.
    destruct (send_queue_full (cid_key cid) now (tcm t) Gc) as (L1 & R & Q & _).
    rewrite Hnone in R, Q. cbn [touch_rec c_qid] in R, Q.
    set (sq := send_queue (cid_key cid) now (tcm t)) in *. rewrite Q.
    destruct (q_send_rec QUEUE_SIZE p (fst sq) (cid_key cid) _ L1 R) as (Hok & _ & _ & _ & Hx). cbn [c_qid c_q length] in *.
    rewrite Hok, Hx, N.eqb_refl. change (0 <? QUEUE_SIZE)%nat with true.
    eexists. split; [reflexivity|]. cbn. repeat split. intros q b H. apply (g_lt t G q b H).
  Qed.
End Expiry.

Section FreshB.
  Variable timeout : Z.
  Variable a : N.
  Definition staleb (t : tstate) (o : top) : bool :=
    match o with
    | T_Sweep now => match rec_of (tcm t) a with Some r => expired now timeout r | None => false end
    | _ => false
    end.
  Fixpoint fresh_fromb (t : tstate) (ops : list top) : bool :=
    match ops with
    | [] => true
    | o :: r => (negb (staleb t o) && fresh_fromb (tstep timeout t o) r)%bool
    end.
  Lemma staleb_iff t o : staleb t o = true <-> stale timeout a t o.
  Proof.
    unfold staleb, stale. destruct o; try (split; [discriminate | intros []]).
    destruct (rec_of (tcm t) a) as [r|]; split.
    - intros H. exists r. split; [reflexivity | exact H].
    - intros [r' [Hr He]]. injection Hr as <-. exact He.
    - discriminate.
    - intros [r' [Hr _]]. discriminate.
  Qed.
  Lemma fresh_fromb_iff : forall ops t, fresh_fromb t ops = true <-> fresh_from timeout a t ops.
  Proof.
    induction ops as [|o ops IH]; intros t; cbn [fresh_fromb fresh_from]; [split; auto|].
    rewrite andb_true_iff, negb_true_iff, IH, <- staleb_iff. destruct (staleb t o); intuition congruence.
  Qed.
End FreshB.

Lemma dead_take_spec k : forall d,
  (forall q l', In (q, l') (fst (dead_take k d)) -> exists l, In (q, l) d /\ incl l' l) /\
  (forall p, snd (dead_take k d) = RcvPkt p -> exists l, In (k, l) d /\ In p l).
Proof.
  induction d as [|[k' q] t IH]; cbn [dead_take].
  - split; [intros q l' [] | intros p H; discriminate].
  - destruct (Nat.eqb_spec k' k) as [->|Hne].
    + destruct q as [|p0 q']; cbn [fst snd].
      * split; [|intros p H; discriminate]. intros q l' H. exists l'. split; [exact H | apply incl_refl].
      * split.
        -- intros q l' [H|H].
           ++ injection H as <- <-. exists (p0 :: q'). split; [left; reflexivity | apply incl_tl, incl_refl].
           ++ exists l'. split; [right; exact H | apply incl_refl].
        -- intros p H. injection H as <-. exists (p0 :: q'). split; left; reflexivity.
    + destruct (dead_take k t) as [t' r] eqn:E. cbn [fst snd] in *. destruct IH as [IH1 IH2]. split.
      * intros q0 l' [H|H].
        -- injection H as <- <-. exists q. split; [left; reflexivity | apply incl_refl].
        -- destruct (IH1 q0 l' H) as [l [Hl Hi]]. exists l. split; [right; exact Hl | exact Hi].
      * intros p H. destruct (IH2 p H) as [l [Hl Hp]]. exists l. split; [right; exact Hl | exact Hp].
Qed.

(* what sits in the client map - in a live queue or in a closed one - was accepted by WriteTo for that queue *)
Definition src_ok (c : cmap) (acc : list (N * nat * bytes)) : Prop :=
  (forall b r p, rec_of c b = Some r -> In p (c_q r) -> In (b, c_qid r, p) acc) /\
  (forall q l p, In (q, l) (dead c) -> In p l -> exists b, In (b, q, p) acc).

Lemma src_send_queue a now c acc : cm_inv c -> src_ok c acc -> src_ok (fst (send_queue a now c)) acc.
Proof.
  intros Hinv [Hl Hd]. destruct (send_queue_full a now c Hinv) as (_ & R & _ & O & D & _). split; [|rewrite D; exact Hd].
  intros b r p H Hin. destruct (N.eq_dec b a) as [->|Hne]; [|rewrite (O b Hne) in H; exact (Hl b r p H Hin)].
  rewrite R in H. injection H as <-. destruct (rec_of c a) as [r0|] eqn:E; cbn in *; [exact (Hl a r0 p E Hin) | destruct Hin].
Qed.

Lemma src_q_send cap p c b rb acc : cm_inv c -> rec_of c b = Some rb -> src_ok c acc ->
  src_ok (fst (q_send cap (c_qid rb) p c)) (if snd (q_send cap (c_qid rb) p c) then acc ++ [(b, c_qid rb, p)] else acc).
Proof.
  intros Hinv Hb [Hl Hd]. destruct (q_send_by_addr cap p c b rb Hinv Hb) as [-> Hx].
  pose proof (proj1 (q_send_frame cap (c_qid rb) p c)) as Hdead. split.
  - intros x r p0 H Hin. rewrite Hx in H. destruct (N.eqb_spec b x) as [<-|_].
    + injection H as <-. destruct (_ <? _)%nat; [|exact (Hl b rb p0 Hb Hin)]. cbn in Hin. apply in_app_or in Hin.
      apply in_or_app. destruct Hin as [Hin|[<-|[]]]; [left; exact (Hl b rb p0 Hb Hin) | right; left; reflexivity].
    + destruct (_ <? _)%nat; [apply in_or_app; left|]; exact (Hl x r p0 H Hin).
  - intros q l p0 H Hin. rewrite Hdead in H. destruct (Hd q l p0 H Hin) as [b0 Hb0]. exists b0.
    destruct (_ <? _)%nat; [apply in_or_app; left|]; exact Hb0.
Qed.

(* ... and so was a packet that a receive hands out *)
Lemma src_q_recv q c acc : cm_inv c -> src_ok c acc ->
  src_ok (fst (q_recv q c)) acc /\ forall p, snd (q_recv q c) = RcvPkt p -> exists b, In (b, q, p) acc.
Proof.
  intros Hinv [Hl Hd].
  assert (Hrecs : forall b r' p, rec_of (fst (q_recv q c)) b = Some r' -> In p (c_q r') -> In (b, c_qid r', p) acc).
  { intros b r' p H Hin. rewrite (rec_of_q_recv q c b Hinv) in H. destruct (rec_of c b) as [r|] eqn:E; [|discriminate].
    injection H as <-. destruct (c_qid r =? q)%nat; [|exact (Hl b r p E Hin)].
    cbn in *. apply (Hl b r p E). destruct (c_q r); [destruct Hin | right; exact Hin]. }
  unfold q_recv in *. destruct (find_qid q (byAge c)) as [i|] eqn:Hf.
  - destruct (find_qid_some _ _ _ Hf) as [r0 [Hi Hq0]]. rewrite Hi in *.
    assert (Hrec0 : rec_of c (c_addr r0) = Some r0) by (apply rec_of_in; [exact Hinv | eapply nth_error_In; eauto]).
    destruct (c_q r0) as [|p0 q'] eqn:Eq; cbn [fst snd] in *; (split; [split; [exact Hrecs | exact Hd]|]); intros p H; [discriminate|].
    injection H as <-. exists (c_addr r0). rewrite <- Hq0. apply (Hl _ r0 p0 Hrec0). rewrite Eq. left. reflexivity.
  - pose proof (dead_take_spec q (dead c)) as [D1 D2]. destruct (dead_take q (dead c)) as [d o]. cbn [fst snd dead] in *.
    split; [split; [exact Hrecs|]|].
    + intros q0 l p H Hin. destruct (D1 q0 l H) as [l0 [H0 Hi]]. exact (Hd q0 l0 p H0 (Hi p Hin)).
    + intros p H. destruct (D2 p H) as [l [Hl' Hin]]. exact (Hd q l p Hl' Hin).
Qed.

Lemma src_sweep now timeout c acc : cm_inv c -> src_ok c acc -> src_ok (remove_expired now timeout c) acc.
Proof.
  intros Hinv [Hl Hd]. destruct (remove_expired_spec now timeout c Hinv) as (_ & _ & _ & _ & _ & _ & I7). split.
  - intros b r p H Hin. exact (Hl b r p (proj1 (rec_of_swept _ _ _ b r Hinv H)) Hin).
  - intros q l p H Hin. destruct (I7 (q, l) H) as [H0|[r [Hr [E _]]]]; [exact (Hd q l p H0 Hin)|].
    injection E as -> ->. exists (c_addr r). apply (Hl (c_addr r) r p); [apply rec_of_in; assumption | exact Hin].
Qed.

(* what a carrier was written is logged as taken for its key, and a carrier still reading its header was written nothing *)
Definition down_ok (cs : list carrier) (cons : list (option nat * N * nat * bytes)) : Prop :=
  (forall i k p, nth_error cs i = Some k -> In p (k_down k) -> exists q, In (Some i, key_of k, q, p) cons) /\
  (forall i k, nth_error cs i = Some k -> pre_open k -> k_down k = []).

Lemma down_ok_read cs cons cons' i f ps : down_ok cs cons -> incl cons cons' ->
  (forall x, nth_error cs i = Some x -> pump_ok x (f x) ps) -> down_ok (kupd i f cs) cons'.
Proof.
  intros [Sw Sp] Hi Hf. split.
  - intros j kj p Hj. revert p. revert j kj Hj. refine (kupd_all _ _ _ _ (fun j kj _ Hj p Hin => _) _).
    + destruct (Sw j kj p Hj Hin) as [q Hq]. exists q. exact (Hi _ Hq).
    + (* the key is fixed unless the carrier was still reading its header, and then nothing had been written *)
      intros x Hx p Hin. pose proof (Hf x Hx) as Hok. rewrite (po_down _ _ _ Hok) in Hin.
      destruct (pre_open_dec x) as [Hpx|Hnp]; [rewrite (Sp i x Hx Hpx) in Hin; destruct Hin|].
      unfold key_of. rewrite (po_cid _ _ _ Hok Hnp). destruct (Sw i x p Hx Hin) as [q Hq]. exists q. exact (Hi _ Hq).
  - refine (kupd_all _ _ _ _ (fun j kj _ => Sp j kj) _). intros x Hx Hpre. pose proof (Hf x Hx) as Hok.
    rewrite (po_down _ _ _ Hok). exact (Sp i x Hx (proj2 (po_pre _ _ _ Hok Hpre))).
Qed.

Lemma down_ok_sent cs cons i k q p w : down_ok cs cons -> nth_error cs i = Some k ->
  down_ok (kupd i (fun x => open_carrier x p w) cs) (cons ++ [(Some i, key_of k, q, p)]).
Proof.
  intros [Sw Sp] Hk. split.
  - intros j kj p0 Hj. revert p0. revert j kj Hj. refine (kupd_all _ _ _ _ (fun j kj _ Hj p0 Hin => _) _).
    + destruct (Sw j kj p0 Hj Hin) as [q0 Hq0]. exists q0. apply in_or_app. left. exact Hq0.
    + intros x Hx p0 Hin. rewrite Hk in Hx. injection Hx as <-. cbn [open_carrier k_down] in Hin.
      change (key_of (open_carrier k p w)) with (key_of k). apply in_app_or in Hin. destruct Hin as [Hin|[<-|[]]].
      * destruct (Sw i k p0 Hk Hin) as [q0 Hq0]. exists q0. apply in_or_app. left. exact Hq0.
      * exists q. apply in_or_app. right. left. reflexivity.
  - refine (kupd_all _ _ _ _ (fun j kj _ => Sp j kj) _). intros x _ Hpre.
    apply open_not_pre in Hpre; [destruct Hpre | reflexivity].
Qed.

Section Src.
  Variable timeout : Z.

  (* every packet in a queue (live or closed), every packet taken off a queue and every packet a carrier was written
     was accepted by WriteTo for the queue it sits in / came from — together with the ownership of queue identities:
     for the ClientID (key) the carrier presented *)
  Record SrcInv (t : tstate) : Prop := {
    s_cm : src_ok (tcm t) (tacc t);
    s_cons : forall o b q p, In (o, b, q, p) (tcons t) -> In (b, q, p) (tacc t);
    s_car : down_ok (tcar t) (tcons t)
  }.

  Lemma srcinv_init : SrcInv tinit.
  Proof.
    constructor; cbn.
    - split; [intros b r p H; discriminate | intros q l p []].
    - intros o b q p [].
    - split; [intros [|i] k p H; discriminate | intros [|i] k H; discriminate].
  Qed.

  Theorem tstep_srcinv t o : GInv t -> SrcInv t -> SrcInv (tstep timeout t o).
  Proof.
    intros G [Scm Sc Scar]. pose proof (g_cm t G) as Gc.
    assert (Hkill : forall i tc, incl (tcons t) tc -> down_ok (kupd i kill (tcar t)) tc)
      by (intros i tc Hi; apply (down_ok_read _ (tcons t) _ i kill []); [exact Scar | exact Hi | intros x _; apply pump_ok_kill]).
    destruct o.
    - constructor; cbn [tstep tcm tacc tcons tcar]; try assumption. destruct Scar as [Sw Sp]. split.
      + intros i k p H Hin. destruct (nth_error_snoc _ _ _ _ H) as [Ho|[_ ->]]; [exact (Sw i k p Ho Hin) | destruct Hin].
      + intros i k H Hpre. destruct (nth_error_snoc _ _ _ _ H) as [Ho|[_ ->]]; [exact (Sp i k Ho Hpre) | reflexivity].
    - destruct (nth_error (tcar t) i) as [k|] eqn:Hk; [|cbn [tstep]; rewrite Hk; constructor; assumption].
      rewrite (tstep_recv timeout t i b now k Hk). cbn zeta. constructor; cbn [tcm tacc tcons tcar].
      + destruct (_ && _)%bool; [apply src_send_queue; assumption | exact Scm].
      + exact Sc.
      + apply (down_ok_read _ (tcons t) _ i _ (snd (feed k b))); [exact Scar | apply incl_refl|].
        intros x Hx. rewrite Hk in Hx. injection Hx as <-. apply feed_ok.
    - constructor; cbn [tstep tcm tacc tcons tcar]; auto using incl_refl.
    - rewrite tstep_writeto. cbn zeta.
      destruct (send_queue_full (cid_key cid) now (tcm t) Gc) as (S1 & R & -> & _).
      constructor; cbn [tcm tacc tcons tcar]; [|intros o b q p0 Hin; destruct (snd _); [apply in_or_app; left|]; exact (Sc o b q p0 Hin) | exact Scar].
      exact (src_q_send QUEUE_SIZE p _ (cid_key cid) _ (tacc t) S1 R (src_send_queue _ _ _ _ Gc Scm)).
    - destruct (tstep_send timeout t i now) as [E|(k & q & Hk & Hh & Es & E)]; [rewrite E; constructor; assumption|].
      cbn zeta in E. destruct (src_q_recv q (tcm t) (tacc t) Gc Scm) as [R1 R3]. pose proof (q_recv_inv q (tcm t) Gc) as Rinv.
      (* the packet taken was accepted for the carrier's own key: a queue identity has one owner *)
      assert (Hc' : forall o p, snd (q_recv q (tcm t)) = RcvPkt p -> forall o' b q0 p',
                In (o', b, q0, p') (tcons t ++ [(o, cid_key (k_cid k), q, p)]) -> In (b, q0, p') (tacc t)).
      { intros o p Hp o' b q0 p' H. apply in_app_or in H. destruct H as [H|[H|[]]]; [exact (Sc _ _ _ _ H)|].
        injection H as _ <- <- <-. destruct (R3 p Hp) as [b Hb]. replace (cid_key (k_cid k)) with b; [exact Hb|].
        apply (g_own t G q); [left; exists p; exact Hb | right; right; left; exists i, k; auto]. }
      destruct (snd (q_recv q (tcm t))) as [p| |]; [destruct (write_data p) as [w|]|..]; rewrite E;
        [| |constructor; assumption|]; constructor; cbn [tcm tacc tcons tcar]; auto using incl_refl, incl_appl.
      + apply src_send_queue; assumption.
      + exact (Hc' _ p eq_refl).
      + exact (down_ok_sent _ _ i k q p w Scar Hk).
      + exact (Hc' _ p eq_refl).
    - cbn [tstep]. destruct (trecvq t); constructor; assumption.
    - constructor; cbn [tstep tcm tacc tcons tcar]; [apply src_sweep; assumption | exact Sc | exact Scar].
  Qed.

  Theorem trun_srcinv : forall ops, SrcInv (trun timeout ops).
  Proof.
    intros ops. apply (fold_left_inv (fun t => GInv t /\ SrcInv t) (tstep timeout)).
    - intros t o [G S0]. split; [apply tstep_ginv | apply tstep_srcinv]; assumption.
    - split; [apply ginv_init | apply srcinv_init].
  Qed.

  (* Downstream isolation with retention, for every timed schedule: whatever carrier i was written was accepted by
     WriteTo for the very ClientID (key) carrier i presented. *)
  Theorem timed_downstream_only_same_id : forall ops i k p,
    nth_error (tcar (trun timeout ops)) i = Some k -> In p (k_down k) ->
    exists q, In (key_of k, q, p) (tacc (trun timeout ops)).
  Proof.
    intros ops i k p Hk Hin. destruct (trun_srcinv ops) as [_ Sc [Sw _]].
    destruct (Sw i k p Hk Hin) as [q Hq]. exists q. apply (Sc _ _ _ _ Hq).
  Qed.
End Src.

(* all clock readings of the schedule lie in a window shorter than the retention: [t0, t0 + timeout) — whatever the
   carriers do inside it (sequential, overlapping, idle gaps), no record can be idle for the timeout at any sweep *)
Section Window.
  Variable timeout : Z.
  Variable t0 : Z.

  Definition seen_late (c : cmap) : Prop := forall b r, rec_of c b = Some r -> (t0 <= c_seen r)%Z.

  Lemma seen_send_queue a now c : cm_inv c -> (t0 <= now)%Z -> seen_late c -> seen_late (fst (send_queue a now c)).
  Proof.
    intros Hinv Hn Hs b r H. destruct (send_queue_full a now c Hinv) as (_ & R & _ & O & _).
    destruct (N.eq_dec b a) as [->|Hne]; [|rewrite (O b Hne) in H; exact (Hs b r H)].
    rewrite R in H. injection H as <-. destruct (rec_of c a); exact Hn.
  Qed.

  Lemma seen_requeued c c' : requeued c c' -> seen_late c -> seen_late c'.
  Proof.
    intros H Hs b r' Hr. specialize (H b). rewrite Hr in H. destruct (rec_of c b) as [r|] eqn:E; [|contradiction].
    destruct H as [_ ->]. exact (Hs b r E).
  Qed.

  Lemma tstep_seen t o : GInv t -> in_window timeout t0 o -> seen_late (tcm t) -> seen_late (tcm (tstep timeout t o)).
  Proof.
    intros G Hw Hs. pose proof (g_cm t G) as Gc. apply tstep_cm_ind; [exact Gc | exact Hs | | | |].
    - intros a now c Ht Hc H. apply seen_send_queue; [exact Hc | unfold in_window in Hw; rewrite Ht in Hw; lia | exact H].
    - intros b r p c Hc Hr. apply seen_requeued, (requeued_q_send QUEUE_SIZE p c b r Hc Hr).
    - intros q c Hc. apply seen_requeued, requeued_q_recv, Hc.
    - intros now -> b r H. exact (Hs b r (proj1 (rec_of_swept _ _ _ b r Gc H))).
  Qed.

  Theorem window_is_fresh a : forall ops t, GInv t -> seen_late (tcm t) -> Forall (in_window timeout t0) ops ->
    fresh_from timeout a t ops.
  Proof.
    induction ops as [|o ops IH]; intros t G Hs Hf; cbn [fresh_from]; [exact I|].
    inversion Hf as [|? ? Hw Hf']; subst. split.
    - destruct o; cbn [stale]; try (intros H0; exact H0). intros [r [Hr He]]. cbn [in_window op_time] in Hw.
      specialize (Hs a r Hr). unfold expired in He. rewrite Z.geb_leb in He. apply Z.leb_le in He. lia.
    - apply IH; [apply tstep_ginv; exact G | apply tstep_seen; assumption | exact Hf'].
  Qed.

  Corollary window_is_fresh_from_start a ops : Forall (in_window timeout t0) ops -> fresh_from timeout a tinit ops.
  Proof. intros H. apply window_is_fresh; [apply ginv_init | intros b r Hr; discriminate | exact H]. Qed.
End Window.
