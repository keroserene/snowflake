(* EncapProofs.v — ReadData over any scripted reader is a script-free parser (Model/Encap.v); chunks as the unit
   of the format, what the writers emit, and how an arbitrary or truncated byte stream decomposes into them. *)
From Coq Require Import List NArith Arith Lia.
From Coq Require Import ZifyN.
From Snow Require Import Lib.Wire Lib.ListFacts Model.Encap Model.EncapPad Proofs.EncapSweep.
Import ListNotations.
Open Scope N_scope.

Definition full_err (acc rem : bytes) : rerr :=
  match acc ++ rem with [] => EOF | _ => UnexpectedEOF end.

Lemma read_full_spec : forall sc n acc rem,
  (n <= length rem)%nat ->
  exists sc', read_full sc n acc rem = ROk (acc ++ firstn n rem) (skipn n rem) sc'.
Proof.
  induction sc as [|[m fl] sc IH]; intros n acc rem Hn.
  - destruct n as [|n]; cbn [read_full].
    + exists []. cbn [firstn skipn]. rewrite app_nil_r. reflexivity.
    + destruct rem as [|b rem]; [cbn [length] in Hn; lia|].
      assert (L : length (firstn (S n) (b :: rem)) = S n) by (apply firstn_length_le; exact Hn).
      rewrite L. rewrite Nat.ltb_irrefl. exists []. reflexivity.
  - destruct n as [|n]; cbn [read_full].
    + exists ((m, fl) :: sc). cbn [firstn skipn]. rewrite app_nil_r. reflexivity.
    + destruct rem as [|b rem]; [cbn [length] in Hn; lia|].
      set (t := Nat.min m (S n)).
      assert (Ht : (t <= S n)%nat) by (unfold t; lia).
      assert (Lg : length (firstn t (b :: rem)) = t) by (apply firstn_length_le; lia).
      rewrite Lg.
      destruct (S n - t)%nat as [|n'] eqn:En'.
      * exists sc. assert (t = S n) by lia. subst t. rewrite H. reflexivity.
      * assert (Hlen : (S n' <= length (skipn t (b :: rem)))%nat) by (rewrite skipn_length; lia).
        destruct (IH (S n') (acc ++ firstn t (b :: rem)) (skipn t (b :: rem)) Hlen) as [sc' Hsc'].
        assert (Hr : read_full sc (S n') (acc ++ firstn t (b :: rem)) (skipn t (b :: rem)) =
                     ROk (acc ++ firstn (S n) (b :: rem)) (skipn (S n) (b :: rem)) sc').
        { rewrite Hsc'. rewrite <- app_assoc. rewrite firstn_skipn_app. rewrite skipn_add.
          replace (t + S n')%nat with (S n) by lia. reflexivity. }
        destruct (skipn t (b :: rem)) as [|c rest] eqn:Esk.
        { cbn [length] in Hlen. lia. }
        exists sc'. exact Hr.
Qed.

Lemma read_full_short : forall sc n acc rem,
  (length rem < n)%nat -> read_full sc n acc rem = RErr (full_err acc rem).
Proof.
  induction sc as [|[m fl] sc IH]; intros n acc rem Hn.
  - destruct n as [|n]; [lia|]. cbn [read_full].
    destruct rem as [|b rem].
    + unfold full_err. rewrite app_nil_r. reflexivity.
    + assert (L : length (firstn (S n) (b :: rem)) = length (b :: rem)) by (rewrite firstn_length; lia).
      rewrite L. destruct (Nat.ltb_spec (length (b :: rem)) (S n)) as [_|Hc]; [|lia].
      unfold full_err. destruct acc; reflexivity.
  - destruct n as [|n]; [lia|]. cbn [read_full].
    destruct rem as [|b rem].
    + unfold full_err. rewrite app_nil_r. reflexivity.
    + set (t := Nat.min m (S n)).
      assert (Lg : length (firstn t (b :: rem)) = Nat.min t (length (b :: rem))) by apply firstn_length.
      destruct (S n - length (firstn t (b :: rem)))%nat as [|n'] eqn:En'; [lia|].
      assert (Hfe : full_err (acc ++ firstn t (b :: rem)) (skipn t (b :: rem)) = full_err acc (b :: rem)).
      { unfold full_err. rewrite <- app_assoc. rewrite firstn_skipn. reflexivity. }
      assert (Hrec : read_full sc (S n') (acc ++ firstn t (b :: rem)) (skipn t (b :: rem)) = RErr (full_err acc (b :: rem))).
      { rewrite IH; [rewrite Hfe; reflexivity|]. rewrite skipn_length. lia. }
      destruct (skipn t (b :: rem)) as [|c rest] eqn:Esk.
      * destruct fl; [|exact Hrec].
        unfold full_err in Hfe. rewrite app_nil_r in Hfe. rewrite Hfe. reflexivity.
      * exact Hrec.
Qed.

Lemma read_full_1_cons sc b r : exists sc', read_full sc 1 [] (b :: r) = ROk [b] r sc'.
Proof.
  destruct (read_full_spec sc 1 [] (b :: r)) as [sc' H]; [cbn [length]; lia|].
  exists sc'. exact H.
Qed.

Lemma read_full_1_nil sc : read_full sc 1 [] [] = RErr EOF.
Proof. rewrite read_full_short; [reflexivity | cbn [length]; lia]. Qed.

Lemma map_eof_full_err acc rem : map_eof (full_err acc rem) = UnexpectedEOF.
Proof. unfold full_err. destruct (acc ++ rem); reflexivity. Qed.

Lemma body_step isdata n rem sc :
  match take_body isdata n rem with
  | PChunk _ d rest => exists sc', read_full sc (N.to_nat n) [] rem = ROk d rest sc'
  | _ => exists e, read_full sc (N.to_nat n) [] rem = RErr e /\ map_eof e = UnexpectedEOF
  end.
Proof.
  unfold take_body. destruct (Nat.ltb_spec (length rem) (N.to_nat n)) as [Hlt|Hge].
  - exists (full_err [] rem). split; [apply read_full_short; exact Hlt | apply map_eof_full_err].
  - destruct (read_full_spec sc (N.to_nat n) [] rem Hge) as [sc' H]. exists sc'. exact H.
Qed.

(* what ReadData does after the length prefix has been read *)
Definition after_len (f : nat) (isdata : bool) (n : N) (rem : bytes) (sc : script) : dres :=
  match read_full sc (N.to_nat n) [] rem with
  | RErr e => DErr (map_eof e)
  | ROk p rem3 sc3 => if isdata then DChunk p rem3 sc3 else read_data f rem3 sc3
  end.

Definition read_step_ok (f : nat) (r : pres) (res : dres) : Prop :=
  match r with
  | PEnd => res = DErr EOF
  | PShort => res = DErr UnexpectedEOF
  | PLong => res = DErr TooLong
  | PChunk true d rest => exists sc', res = DChunk d rest sc'
  | PChunk false d rest => exists sc', res = read_data f rest sc'
  end.

Lemma after_len_ok f isdata n rem sc :
  read_step_ok f (take_body isdata n rem) (after_len f isdata n rem sc).
Proof.
  unfold after_len. pose proof (body_step isdata n rem sc) as H.
  unfold take_body in *. destruct (length rem <? N.to_nat n)%nat.
  - destruct H as [e [He Hm]]. rewrite He. cbn [read_step_ok]. rewrite Hm. reflexivity.
  - destruct H as [sc' He]. rewrite He. destruct isdata; cbn [read_step_ok]; exists sc'; reflexivity.
Qed.

Lemma read_data_unfold f rem sc :
  read_data (S f) rem sc =
  match read_full sc 1 [] rem with
  | RErr e => DErr e
  | ROk [b] rem1 sc1 =>
      match read_len 3 0 (negb (N.land b 64 =? 0)) (N.land b 63) rem1 sc1 with
      | inr e => DErr e
      | inl None => DErr TooLong
      | inl (Some (n, rem2, sc2)) => after_len f (negb (N.land b 128 =? 0)) n rem2 sc2
      end
  | ROk _ _ _ => DErr TooLong
  end.
Proof. reflexivity. Qed.

Theorem read_data_step f rem sc : read_step_ok f (parse_one rem) (read_data (S f) rem sc).
Proof.
  rewrite read_data_unfold.
  destruct rem as [|b0 s1].
  { rewrite read_full_1_nil. reflexivity. }
  destruct (read_full_1_cons sc b0 s1) as [sc1 H1]. rewrite H1.
  cbn [parse_one].
  destruct (N.land b0 64 =? 0) eqn:E0; cbn [negb read_len].
  { apply after_len_ok. }
  destruct s1 as [|b1 s2].
  { rewrite read_full_1_nil. reflexivity. }
  destruct (read_full_1_cons sc1 b1 s2) as [sc2 H2]. cbn [Nat.leb]. rewrite H2.
  destruct (N.land b1 128 =? 0) eqn:E1; cbn [negb read_len].
  { apply after_len_ok. }
  destruct s2 as [|b2 s3].
  { cbn [Nat.leb]. rewrite read_full_1_nil. reflexivity. }
  destruct (read_full_1_cons sc2 b2 s3) as [sc3 H3]. cbn [Nat.leb]. rewrite H3.
  destruct (N.land b2 128 =? 0) eqn:E2; cbn [negb read_len].
  { apply after_len_ok. }
  reflexivity.
Qed.

Lemma take_body_inv isd n x i d rest : take_body isd n x = PChunk i d rest ->
  i = isd /\ x = d ++ rest /\ blen d = n.
Proof.
  unfold take_body. destruct (Nat.ltb_spec (length x) (N.to_nat n)) as [H|H]; [discriminate|].
  intros E. injection E as <- <- <-. split; [reflexivity|]. split.
  - symmetry. apply firstn_skipn.
  - unfold blen. rewrite firstn_length_le by exact H. apply N2Nat.id.
Qed.

Lemma parse_one_inv s isd d rest : parse_one s = PChunk isd d rest ->
  exists p, s = p ++ d ++ rest /\ hdr_exact p = Some (isd, blen d).
Proof.
  destruct (parse_one_view s) as [|p i v x Hh| |]; try discriminate.
  intros H. apply take_body_inv in H as (-> & -> & <-). exists p. split; [reflexivity | exact Hh].
Qed.

(* every chunk consumes at least its first prefix byte *)
Lemma parse_one_shrinks s isdata d rest :
  parse_one s = PChunk isdata d rest -> (length rest < length s)%nat.
Proof.
  intros H. apply parse_one_inv in H as (p & -> & Hh). rewrite !app_length.
  destruct p; [discriminate | cbn [length]; lia].
Qed.

(* skipping padding: ReadData returns what the parser finds at the next data chunk *)
Fixpoint next_data (fuel : nat) (s : bytes) : pres :=
  match fuel with
  | O => PLong
  | S f => match parse_one s with
           | PChunk false _ rest => next_data f rest
           | r => r
           end
  end.

Lemma read_data_next : forall fuel rem sc, (length rem < fuel)%nat ->
  match next_data fuel rem with
  | PChunk _ d rest => exists sc', read_data fuel rem sc = DChunk d rest sc'
  | PEnd => read_data fuel rem sc = DErr EOF
  | PShort => read_data fuel rem sc = DErr UnexpectedEOF
  | PLong => read_data fuel rem sc = DErr TooLong
  end.
Proof.
  induction fuel as [|f IH]; intros rem sc Hf; [lia|].
  pose proof (read_data_step f rem sc) as Hs.
  cbn [next_data]. destruct (parse_one rem) as [isd d rest| | |] eqn:Ep; cbn [read_step_ok] in Hs.
  - destruct isd.
    + exact Hs.
    + destruct Hs as [sc' Hs]. rewrite Hs. apply IH.
      apply parse_one_shrinks in Ep. lia.
  - exact Hs.
  - exact Hs.
  - exact Hs.
Qed.

Lemma next_data_isdata : forall fuel s isd d rest, next_data fuel s = PChunk isd d rest -> isd = true.
Proof.
  induction fuel as [|f IH]; intros s isd d rest; cbn [next_data]; [discriminate|].
  destruct (parse_one s) as [i dd rr| | |] eqn:Ep; try discriminate.
  destruct i; [|apply IH]. intros H. injection H as H _ _. symmetry. exact H.
Qed.

Lemma next_data_shrinks : forall fuel s isd d rest,
  next_data fuel s = PChunk isd d rest -> (length rest < length s)%nat.
Proof.
  induction fuel as [|f IH]; intros s isd d rest; cbn [next_data]; [discriminate|].
  destruct (parse_one s) as [i dd rr| | |] eqn:Ep; try discriminate.
  destruct i.
  - intros H. injection H as _ _ Hr. subst rr. eapply parse_one_shrinks; exact Ep.
  - intros H. apply IH in H. apply parse_one_shrinks in Ep. lia.
Qed.

Lemma parse_stream_S f s : parse_stream (S f) s =
  match parse_one s with
  | PEnd => ([], EOF) | PShort => ([], UnexpectedEOF) | PLong => ([], TooLong)
  | PChunk isdata d rest => let '(ds, e) := parse_stream f rest in if isdata then (d :: ds, e) else (ds, e)
  end.
Proof. reflexivity. Qed.
Lemma next_data_S f s : next_data (S f) s =
  match parse_one s with PChunk false _ rest => next_data f rest | r => r end.
Proof. reflexivity. Qed.

Lemma parse_stream_fuel : forall a b x, (length x < a)%nat -> (length x < b)%nat ->
  parse_stream a x = parse_stream b x.
Proof.
  induction a as [|a IHa]; intros b x Ha Hb; [lia|]. destruct b as [|b]; [lia|].
  cbn [parse_stream]. destruct (parse_one x) as [isd d rest| | |] eqn:Ep; try reflexivity.
  apply parse_one_shrinks in Ep. rewrite (IHa b rest) by lia. reflexivity.
Qed.

Lemma parse_stream_next : forall fuel s, (length s < fuel)%nat ->
  parse_stream fuel s =
  match next_data fuel s with
  | PChunk _ d rest => let '(ds, e) := parse_stream (S (length rest)) rest in (d :: ds, e)
  | PEnd => ([], EOF)
  | PShort => ([], UnexpectedEOF)
  | PLong => ([], TooLong)
  end.
Proof.
  induction fuel as [|f IH]; intros s Hf; [lia|].
  rewrite parse_stream_S, next_data_S.
  destruct (parse_one s) as [isd d rest| | |] eqn:Ep; try reflexivity.
  pose proof (parse_one_shrinks _ _ _ _ Ep) as Hsh.
  destruct isd.
  - rewrite (parse_stream_fuel f (S (length rest)) rest) by lia. reflexivity.
  - rewrite IH by lia.
    destruct (next_data f rest) as [i2 d2 r2| | |]; try reflexivity.
    destruct (parse_stream (S (length r2)) r2); reflexivity.
Qed.

Theorem read_all_independent : forall fuel rem sc, (length rem < fuel)%nat ->
  read_all fuel rem sc = parse_stream (S (length rem)) rem.
Proof.
  induction fuel as [|f IH]; intros rem sc Hf; [lia|].
  cbn [read_all].
  rewrite (parse_stream_next (S (length rem)) rem) by lia.
  pose proof (read_data_next (S (length rem)) rem sc ltac:(lia)) as Hn.
  destruct (next_data (S (length rem)) rem) as [isd d rest| | |] eqn:En.
  - destruct Hn as [sc' Hn]. rewrite Hn.
    apply next_data_shrinks in En.
    rewrite IH by lia. reflexivity.
  - rewrite Hn. reflexivity.
  - rewrite Hn. reflexivity.
  - rewrite Hn. reflexivity.
Qed.

Theorem read_stream_independent : forall s sc, read_stream s sc = decode_stream s.
Proof.
  intros s sc. unfold read_stream, decode_stream. apply read_all_independent. lia.
Qed.

Record chunk := { c_isdata : bool; c_prefix : bytes; c_body : bytes }.
Definition chunk_wf (c : chunk) : Prop := hdr_exact (c_prefix c) = Some (c_isdata c, blen (c_body c)).
Definition chunk_bytes (c : chunk) : bytes := c_prefix c ++ c_body c.
Definition chunks_bytes (cs : list chunk) : bytes := concat (map chunk_bytes cs).
Fixpoint chunks_datas (cs : list chunk) : list bytes :=
  match cs with
  | [] => []
  | c :: cs' => if c_isdata c then c_body c :: chunks_datas cs' else chunks_datas cs'
  end.

Lemma take_body_exact isd d rest : take_body isd (blen d) (d ++ rest) = PChunk isd d rest.
Proof.
  unfold take_body, blen. rewrite Nat2N.id. rewrite app_length.
  destruct (Nat.ltb_spec (length d + length rest) (length d)) as [H|H]; [lia|].
  rewrite firstn_exact_app, skipn_exact_app; reflexivity.
Qed.

Lemma parse_one_chunk c rest : chunk_wf c ->
  parse_one (chunk_bytes c ++ rest) = PChunk (c_isdata c) (c_body c) rest.
Proof.
  intros Hwf. unfold chunk_bytes. rewrite <- app_assoc.
  rewrite (parse_one_hdr_exact _ _ _ _ Hwf). apply take_body_exact.
Qed.

Lemma chunk_bytes_nonempty c : chunk_wf c -> (0 < length (c_prefix c))%nat.
Proof.
  unfold chunk_wf. destruct (c_prefix c); cbn [hdr_exact length]; [discriminate | lia].
Qed.

Lemma parse_stream_chunks : forall cs fuel tail,
  Forall chunk_wf cs -> (length (chunks_bytes cs ++ tail) < fuel)%nat ->
  parse_stream fuel (chunks_bytes cs ++ tail) =
  let '(ds, e) := parse_stream (S (length tail)) tail in (chunks_datas cs ++ ds, e).
Proof.
  induction cs as [|c cs IH]; intros fuel tail Hwf Hf.
  - cbn [chunks_bytes map concat app chunks_datas] in *.
    rewrite (parse_stream_fuel fuel (S (length tail))) by lia.
    destruct (parse_stream (S (length tail)) tail); reflexivity.
  - inversion Hwf as [|? ? Hc Hcs]; subst.
    destruct fuel as [|f]; [lia|].
    unfold chunks_bytes in *. cbn [map concat] in *. rewrite <- app_assoc in *.
    rewrite parse_stream_S. rewrite (parse_one_chunk c _ Hc).
    pose proof (chunk_bytes_nonempty c Hc) as Hne.
    assert (Hlen : (length (concat (map chunk_bytes cs) ++ tail) < f)%nat).
    { assert (Hcb : length (chunk_bytes c) = (length (c_prefix c) + length (c_body c))%nat)
        by (unfold chunk_bytes; apply app_length).
      rewrite app_length in Hf. rewrite Hcb in Hf. lia. }
    rewrite (IH f tail Hcs Hlen).
    destruct (parse_stream (S (length tail)) tail) as [ds e].
    cbn [chunks_datas]. destruct (c_isdata c); reflexivity.
Qed.

Theorem decode_chunks cs : Forall chunk_wf cs ->
  decode_stream (chunks_bytes cs) = (chunks_datas cs, EOF).
Proof.
  intros Hwf. unfold decode_stream.
  pose proof (parse_stream_chunks cs (S (length (chunks_bytes cs))) [] Hwf) as H.
  rewrite app_nil_r in H. rewrite H by lia. cbn. rewrite app_nil_r. reflexivity.
Qed.

Lemma zeros_length n : length (zeros n) = N.to_nat n.
Proof. unfold zeros. apply repeat_length. Qed.

(* WritePadding over any padding buffer (Model/EncapPad.v): one loop turn writes one well-formed
   padding chunk, whatever the fill *)
Lemma padding_chunk_buf_ok buf p : 1 <= p -> p <= PADBATCH_MAX -> p <= blen buf ->
  exists c, chunk_wf c /\ c_isdata c = false /\ chunk_bytes c = padding_chunk_buf buf p /\
            length (padding_chunk_buf buf p) = N.to_nat p.
Proof.
  intros H1 H2 H3. destruct (pad_prefix_ok p H1 H2) as (Hh & Hs & _).
  unfold padding_chunk_buf.
  generalize dependent (snd (pad_prefix p)). generalize dependent (fst (pad_prefix p)). intros pre k Hh Hs.
  assert (Hk : (N.to_nat k <= length buf)%nat) by (clear - Hs H3; unfold blen in *; lia).
  assert (Hb : length (firstn (N.to_nat k) buf) = N.to_nat k) by (apply firstn_length_le; exact Hk).
  exists {| c_isdata := false; c_prefix := pre; c_body := firstn (N.to_nat k) buf |}.
  unfold chunk_wf, chunk_bytes; cbn [c_isdata c_prefix c_body].
  split; [|split; [reflexivity|split; [reflexivity|]]].
  - rewrite Hh. unfold blen. rewrite Hb, N2Nat.id. reflexivity.
  - rewrite app_length, Hb. unfold blen in Hs. lia.
Qed.

Lemma div_sub_one n b : 1 <= b -> b <= n -> (n - b) / b = n / b - 1.
Proof.
  intros Hb Hn. replace n with ((n - b) + 1 * b) at 2 by lia.
  rewrite N.div_add by lia. generalize ((n - b) / b). intros q. lia.
Qed.

Lemma write_padding_buf_fuel_ok buf : 1 <= blen buf -> blen buf <= PADBATCH_MAX ->
  forall fuel n, (N.to_nat (n / blen buf) < fuel)%nat ->
  exists cs, Forall chunk_wf cs /\ Forall (fun c => c_isdata c = false) cs /\
             chunks_bytes cs = write_padding_buf_fuel buf fuel n /\
             length (write_padding_buf_fuel buf fuel n) = N.to_nat n.
Proof.
  intros HB1 HB2. remember (blen buf) as B eqn:EB.
  induction fuel as [|f IH]; intros n Hf; [exfalso; exact (Nat.nlt_0_r _ Hf)|].
  cbn [write_padding_buf_fuel]. destruct (N.eqb_spec n 0) as [->|Hnz].
  - exists []. repeat split; constructor.
  - rewrite <- EB. remember (N.min B n) as p eqn:Ep.
    assert (Hp1 : 1 <= p) by lia.
    assert (Hp2 : p <= PADBATCH_MAX) by lia.
    assert (Hp3 : p <= blen buf) by (rewrite <- EB; lia).
    destruct (padding_chunk_buf_ok buf p Hp1 Hp2 Hp3) as [c [Hwf [Hd [Hb Hl]]]].
    assert (Hrec : exists cs, Forall chunk_wf cs /\ Forall (fun c => c_isdata c = false) cs /\
             chunks_bytes cs = write_padding_buf_fuel buf f (n - p) /\
             length (write_padding_buf_fuel buf f (n - p)) = N.to_nat (n - p)).
    { destruct (N.leb_spec B n) as [Hge|Hlt].
      - apply IH. replace p with B by lia.
        rewrite (div_sub_one n B HB1 Hge).
        assert (Hq : 1 <= n / B) by (apply N.div_le_lower_bound; lia).
        revert Hf Hq. generalize (n / B). intros q Hf Hq. lia.
      - replace p with n by lia. replace (n - n) with 0 by lia.
        exists []. assert (E0 : write_padding_buf_fuel buf f 0 = []) by (destruct f; reflexivity).
        rewrite E0. repeat split; constructor. }
    destruct Hrec as [cs [Hcs [Hcd [Hcb Hcl]]]].
    exists (c :: cs). split; [constructor; assumption|]. split; [constructor; assumption|].
    split.
    + unfold chunks_bytes in *. cbn [map concat]. rewrite Hb, Hcb. reflexivity.
    + rewrite app_length, Hl, Hcl. lia.
Qed.

Theorem write_padding_buf_ok buf n : 1 <= blen buf -> blen buf <= PADBATCH_MAX ->
  exists cs, Forall chunk_wf cs /\ Forall (fun c => c_isdata c = false) cs /\
             chunks_bytes cs = write_padding_buf buf n /\ length (write_padding_buf buf n) = N.to_nat n.
Proof. intros H1 H2. unfold write_padding_buf. apply write_padding_buf_fuel_ok; [assumption|assumption|lia]. Qed.

Lemma firstn_zeros a b : a <= b -> firstn (N.to_nat a) (zeros b) = zeros a.
Proof.
  intros H. unfold zeros. replace (N.to_nat b) with (N.to_nat a + N.to_nat (b - a))%nat by lia.
  rewrite repeat_app. apply firstn_exact_app, repeat_length.
Qed.

Lemma padding_chunk_is_buf p b : p <= b -> padding_chunk p = padding_chunk_buf (zeros b) p.
Proof.
  intros H. unfold padding_chunk, padding_chunk_buf, pad_prefix.
  destruct (N.land (p - 1) 63 =? p - 1); cbn [fst snd].
  { rewrite firstn_zeros by lia. reflexivity. }
  destruct (N.land (N.shiftr (p - 2) 7) 63 =? N.shiftr (p - 2) 7); cbn [fst snd].
  { rewrite firstn_zeros by lia. reflexivity. }
  destruct (N.land (N.shiftr (p - 3) 14) 63 =? N.shiftr (p - 3) 14); cbn [fst snd].
  { rewrite firstn_zeros by lia. reflexivity. }
  rewrite firstn_zeros by lia. reflexivity.
Qed.

Lemma blen_zeros b : blen (zeros b) = b.
Proof. unfold blen. rewrite zeros_length. apply N2Nat.id. Qed.

Lemma write_padding_fuel_is_buf : forall fuel n,
  write_padding_fuel fuel n = write_padding_buf_fuel (zeros PADBUF) fuel n.
Proof.
  induction fuel as [|f IH]; intros n; [reflexivity|].
  cbn [write_padding_fuel write_padding_buf_fuel]. rewrite blen_zeros.
  destruct (n =? 0); [reflexivity|].
  rewrite IH. f_equal. apply padding_chunk_is_buf. lia.
Qed.

Theorem write_padding_is_buf n : write_padding n = write_padding_buf (zeros PADBUF) n.
Proof. unfold write_padding, write_padding_buf. rewrite blen_zeros. apply write_padding_fuel_is_buf. Qed.

Theorem write_padding_ok n :
  exists cs, Forall chunk_wf cs /\ Forall (fun c => c_isdata c = false) cs /\
             chunks_bytes cs = write_padding n /\ length (write_padding n) = N.to_nat n.
Proof. rewrite write_padding_is_buf. apply write_padding_buf_ok; rewrite blen_zeros; discriminate. Qed.

Lemma write_data_ok d : blen d < 1048576 ->
  exists c, write_data d = Some (chunk_bytes c) /\ chunk_wf c /\ c_isdata c = true /\ c_body c = d /\
            length (c_prefix c) = plen (blen d).
Proof.
  intros Hd. destruct (prefix_for_ok (blen d) Hd) as [p [Hp [Hh Hl]]].
  exists {| c_isdata := true; c_prefix := p; c_body := d |}.
  unfold write_data, chunk_bytes, chunk_wf; cbn [c_isdata c_prefix c_body]. rewrite Hp.
  repeat split; assumption.
Qed.

Lemma write_data_toolong d : 1048576 <= blen d -> write_data d = None.
Proof. intros H. unfold write_data. rewrite prefix_for_none by exact H. reflexivity. Qed.

Fixpoint items_ok (l : list item) : Prop :=
  match l with
  | [] => True
  | Data d :: l' => blen d < 1048576 /\ items_ok l'
  | Pad _ :: l' => items_ok l'
  end.

Lemma chunks_datas_nodata cs : Forall (fun c => c_isdata c = false) cs -> chunks_datas cs = [].
Proof. induction 1 as [|c cs Hc _ IH]; cbn [chunks_datas]; [reflexivity|]. rewrite Hc. exact IH. Qed.

Lemma chunks_datas_app a b : chunks_datas (a ++ b) = chunks_datas a ++ chunks_datas b.
Proof.
  induction a as [|c a IH]; cbn [app chunks_datas]; [reflexivity|].
  destruct (c_isdata c); cbn [app]; rewrite IH; reflexivity.
Qed.

Lemma chunks_bytes_app a b : chunks_bytes (a ++ b) = chunks_bytes a ++ chunks_bytes b.
Proof. unfold chunks_bytes. rewrite map_app, concat_app. reflexivity. Qed.

Theorem encode_items_chunks : forall items, items_ok items ->
  exists cs, encode_items items = Some (chunks_bytes cs) /\ Forall chunk_wf cs /\
             chunks_datas cs = datas items.
Proof.
  induction items as [|[d|n] items IH]; intros Hok.
  - exists []. repeat split; constructor.
  - destruct Hok as [Hd Hok]. destruct (IH Hok) as [cs [He [Hwf Hds]]].
    destruct (write_data_ok d Hd) as [c [Hw [Hc [Hi [Hb _]]]]].
    exists (c :: cs). cbn [encode_items]. rewrite Hw, He.
    split; [reflexivity|]. split; [constructor; assumption|].
    cbn [chunks_datas datas]. rewrite Hi, Hb, Hds. reflexivity.
  - cbn [items_ok] in Hok. destruct (IH Hok) as [cs [He [Hwf Hds]]].
    destruct (write_padding_ok n) as [ps [Hpw [Hpd [Hpb _]]]].
    exists (ps ++ cs). cbn [encode_items]. rewrite He.
    split; [rewrite chunks_bytes_app, Hpb; reflexivity|].
    split; [apply Forall_app; split; assumption|].
    rewrite chunks_datas_app, (chunks_datas_nodata ps Hpd). cbn [datas app]. exact Hds.
Qed.

Theorem roundtrip_any_reader : forall items s sc,
  items_ok items -> encode_items items = Some s ->
  read_stream s sc = (datas items, EOF).
Proof.
  intros items s sc Hok He.
  destruct (encode_items_chunks items Hok) as [cs [He' [Hwf Hds]]].
  rewrite He in He'. injection He' as ->.
  rewrite read_stream_independent. rewrite (decode_chunks cs Hwf). rewrite Hds. reflexivity.
Qed.

Theorem encode_rejects_long : forall items, encode_items items <> None -> items_ok items.
Proof.
  induction items as [|[d|n] items IH]; cbn [encode_items items_ok]; intros H.
  - exact I.
  - destruct (N.ltb_spec (blen d) 1048576) as [Hlt|Hge].
    + split; [exact Hlt|]. apply IH. destruct (write_data d); [|congruence].
      destruct (encode_items items); congruence.
    + rewrite (write_data_toolong d Hge) in H. congruence.
  - apply IH. destruct (encode_items items); congruence.
Qed.

Theorem budget_respected n d : 0 < n -> blen d = max_data_for_size n ->
  exists w, write_data d = Some w /\ N.of_nat (length w) <= n.
Proof.
  intros Hn Hd. unfold max_data_for_size in Hd.
  assert (Hb : blen d < 1048576 /\ blen d + N.of_nat (plen (blen d)) <= n).
  { destruct (N.ltb_spec n 1048576) as [Hlt|Hge].
    - (* the body is the budget less the prefix of the budget itself, and a shorter body has no longer prefix *)
      destruct (prefix_for_ok n Hlt) as [p [Hp [_ Hl]]]. rewrite Hp in Hd.
      unfold blen in Hd at 2. rewrite Hl in Hd.
      pose proof (plen_le_self n Hn). pose proof (plen_mono (blen d) n ltac:(lia)). lia.
    - rewrite (prefix_for_none n Hge) in Hd. rewrite Hd. change (plen (1048575 - 3)) with 3%nat. lia. }
  destruct Hb as [Hdl Hb].
  destruct (write_data_ok d Hdl) as [c [Hw [_ [_ [Hbd Hpl]]]]].
  exists (chunk_bytes c). split; [exact Hw|].
  unfold chunk_bytes. rewrite app_length, Hbd, Hpl. unfold blen in *. lia.
Qed.

Definition tail_err (r : pres) : option rerr :=
  match r with
  | PEnd => Some EOF | PShort => Some UnexpectedEOF | PLong => Some TooLong
  | PChunk _ _ _ => None
  end.

Lemma decompose : forall fuel s, (length s < fuel)%nat ->
  exists cs tail e, Forall chunk_wf cs /\ s = chunks_bytes cs ++ tail /\ tail_err (parse_one tail) = Some e.
Proof.
  induction fuel as [|f IH]; intros s Hf; [lia|].
  destruct (parse_one s) as [isd d rest| | |] eqn:Ep.
  - pose proof (parse_one_shrinks _ _ _ _ Ep) as Hsh.
    destruct (parse_one_inv _ _ _ _ Ep) as [p [Hs Hh]].
    destruct (IH rest ltac:(lia)) as [cs [tail [e [Hwf [Hr He]]]]].
    exists ({| c_isdata := isd; c_prefix := p; c_body := d |} :: cs), tail, e.
    split; [constructor; [exact Hh | exact Hwf]|]. split; [|exact He].
    unfold chunks_bytes in *. cbn [map concat]. unfold chunk_bytes at 1. cbn [c_prefix c_body].
    rewrite Hs, Hr. rewrite <- !app_assoc. reflexivity.
  - exists [], s, EOF. rewrite Ep. repeat split. constructor.
  - exists [], s, UnexpectedEOF. rewrite Ep. repeat split. constructor.
  - exists [], s, TooLong. rewrite Ep. repeat split. constructor.
Qed.

Lemma decode_decomposed cs tail e : Forall chunk_wf cs -> tail_err (parse_one tail) = Some e ->
  decode_stream (chunks_bytes cs ++ tail) = (chunks_datas cs, e).
Proof.
  intros Hwf He. unfold decode_stream.
  rewrite (parse_stream_chunks cs _ tail Hwf) by lia.
  rewrite parse_stream_S. destruct (parse_one tail); cbn [tail_err] in He; try discriminate;
    injection He as <-; rewrite app_nil_r; reflexivity.
Qed.

Lemma take_body_chunk_or_short isd n x : tail_err (take_body isd n x) = None \/ take_body isd n x = PShort.
Proof. unfold take_body. destruct (_ <? _)%nat; [right | left]; reflexivity. Qed.

Lemma parse_one_end s : parse_one s = PEnd -> s = [].
Proof.
  destruct (parse_one_view s) as [|p i v x _| |]; try discriminate; [reflexivity|].
  destruct (take_body_chunk_or_short i v x) as [H|H]; intros E; rewrite E in H; discriminate.
Qed.

Lemma parse_one_long_iff t : parse_one t = PLong <->
  exists b0 b1 b2 r, t = b0 :: b1 :: b2 :: r /\
    N.land b0 64 <> 0 /\ N.land b1 128 <> 0 /\ N.land b2 128 <> 0.
Proof.
  split.
  - destruct (parse_one_view t) as [|p i v x _| |b0 b1 b2 r H0 H1 H2]; try discriminate.
    + destruct (take_body_chunk_or_short i v x) as [H|H]; intros E; rewrite E in H; discriminate.
    + intros _. exists b0, b1, b2, r. repeat split; assumption.
  - intros [b0 [b1 [b2 [r [-> [H0 [H1 H2]]]]]]]. cbn [parse_one].
    apply N.eqb_neq in H0, H1, H2. rewrite H0, H1, H2. reflexivity.
Qed.

Lemma parse_one_proper_prefix c k rest : chunk_wf c -> (k < length (chunk_bytes c))%nat ->
  parse_one (firstn k (chunk_bytes c ++ rest)) = match k with O => PEnd | S _ => PShort end.
Proof.
  intros Hwf Hk. destruct k as [|k]; [reflexivity|].
  unfold chunk_bytes in *. rewrite <- app_assoc. rewrite app_length in Hk.
  set (x := c_body c ++ rest).
  assert (Hx : forall j, (j < length (c_body c))%nat -> forall isd,
             take_body isd (blen (c_body c)) (firstn j x) = PShort).
  { intros j Hj isd. unfold take_body, blen. rewrite Nat2N.id.
    assert (length (firstn j x) <= j)%nat by (rewrite firstn_length; lia).
    destruct (Nat.ltb_spec (length (firstn j x)) (length (c_body c))); [reflexivity | lia]. }
  unfold chunk_wf in Hwf.
  destruct (c_prefix c) as [|b0 [|b1 [|b2 [|b3 p]]]]; cbn [hdr_exact] in Hwf; try discriminate;
    cbn [length] in Hk.
  - destruct (N.land b0 64 =? 0) eqn:E0; [|discriminate]. injection Hwf as _ Hv.
    cbn [app firstn parse_one]. rewrite E0, Hv. apply Hx. lia.
  - destruct (N.land b0 64 =? 0) eqn:E0; [discriminate|].
    destruct (N.land b1 128 =? 0) eqn:E1; [|discriminate]. injection Hwf as _ Hv.
    destruct k as [|k]; cbn [app firstn parse_one]; rewrite E0; [reflexivity|].
    rewrite E1, Hv. apply Hx. lia.
  - destruct (N.land b0 64 =? 0) eqn:E0; [discriminate|].
    destruct (N.land b1 128 =? 0) eqn:E1; [discriminate|].
    destruct (N.land b2 128 =? 0) eqn:E2; [|discriminate]. injection Hwf as _ Hv.
    destruct k as [|[|k]]; cbn [app firstn parse_one]; rewrite E0; [reflexivity| |].
    + rewrite E1. reflexivity.
    + rewrite E1, E2, Hv. apply Hx. lia.
Qed.

Theorem truncation_prefix : forall cs k, Forall chunk_wf cs ->
  exists j e, decode_stream (firstn k (chunks_bytes cs)) = (firstn j (chunks_datas cs), e) /\
              (e = EOF \/ e = UnexpectedEOF).
Proof.
  induction cs as [|c cs IH]; intros k Hwf.
  - exists 0%nat, EOF. cbn [chunks_bytes map concat]. rewrite firstn_nil. split; [reflexivity | left; reflexivity].
  - inversion Hwf as [|? ? Hc Hcs]; subst.
    unfold chunks_bytes. cbn [map concat]. fold (chunks_bytes cs).
    destruct (Nat.ltb_spec k (length (chunk_bytes c))) as [Hlt|Hge].
    + pose proof (parse_one_proper_prefix c k (chunks_bytes cs) Hc Hlt) as Hp.
      exists 0%nat. unfold decode_stream. rewrite parse_stream_S, Hp.
      destruct k; [exists EOF | exists UnexpectedEOF]; (split; [reflexivity|]); [left | right]; reflexivity.
    + rewrite firstn_app_ge by exact Hge.
      destruct (IH (k - length (chunk_bytes c))%nat Hcs) as [j [e [Hd He]]].
      unfold decode_stream in *.
      set (t := firstn (k - length (chunk_bytes c)) (chunks_bytes cs)) in *.
      rewrite parse_stream_S, (parse_one_chunk c t Hc).
      pose proof (chunk_bytes_nonempty c Hc) as Hne.
      assert (Hcb : length (chunk_bytes c) = (length (c_prefix c) + length (c_body c))%nat)
        by (unfold chunk_bytes; apply app_length).
      rewrite (parse_stream_fuel _ (S (length t)) t) by (try rewrite app_length; lia).
      rewrite Hd. cbn [chunks_datas]. destruct (c_isdata c).
      * exists (S j), e. split; [reflexivity | exact He].
      * exists j, e. split; [reflexivity | exact He].
Qed.
