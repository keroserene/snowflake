(* ArmorEncProofs.v — the AMP armor encoder: every partition into Writes gives the
   whole-input document. *)
From Coq Require Import List Lia Bool PeanoNat.
From Snow Require Import Lib.Wire Model.Base64 Model.Armor Proofs.Base64Proofs.
Import ListNotations.
Open Scope N_scope.

Lemma group_aux_last {A} : forall n (cur : list A) x l,
  group_aux n 1 cur (x :: l) = rev (x :: cur) :: group_aux n n [] l.
Proof. reflexivity. Qed.

Lemma group_aux_more {A} : forall n k (cur : list A) x l, (2 <= k)%nat ->
  group_aux n k cur (x :: l) = group_aux n (k - 1) (x :: cur) l.
Proof.
  intros n k cur x l H. destruct k as [|[|k]]; try lia.
  cbn [group_aux]. replace (S (S k) - 1)%nat with (S k) by lia. reflexivity.
Qed.

Lemma group_aux_nil {A} : forall n k (cur : list A),
  group_aux n k cur [] = match cur with [] => [] | _ => [rev cur] end.
Proof. reflexivity. Qed.

Lemma group_aux_concat {A} : forall n l k (cur : list A), (1 <= n)%nat -> (1 <= k)%nat ->
  concat (group_aux n k cur l) = rev cur ++ l.
Proof.
  intros n l. induction l as [|x l IH]; intros k cur Hn Hk.
  - rewrite group_aux_nil. destruct cur; cbn [concat]; rewrite ?app_nil_r; reflexivity.
  - destruct (Nat.eq_dec k 1) as [->|Hne].
    + rewrite group_aux_last. cbn [concat].
      rewrite IH by lia. cbn [rev app]. rewrite <- app_assoc. reflexivity.
    + rewrite group_aux_more by lia. rewrite IH by lia. cbn [rev]. rewrite <- app_assoc. reflexivity.
Qed.

Lemma group_concat {A} : forall n (l : list A), (1 <= n)%nat -> concat (group n l) = l.
Proof. intros. unfold group. rewrite group_aux_concat by lia. reflexivity. Qed.

Lemma group_aux_sizes {A} : forall n l k (cur : list A), (1 <= n)%nat -> (1 <= k)%nat ->
  (k + length cur = n)%nat ->
  Forall (fun g => (1 <= length g <= n)%nat) (group_aux n k cur l).
Proof.
  intros n l. induction l as [|x l IH]; intros k cur Hn Hk Hsum.
  - rewrite group_aux_nil. destruct cur as [|c cur]; constructor; [|constructor].
    rewrite rev_length. cbn [length] in *. lia.
  - destruct (Nat.eq_dec k 1) as [->|Hne].
    + rewrite group_aux_last. constructor.
      * rewrite rev_length. cbn [length]. lia.
      * apply IH; cbn [length]; lia.
    + rewrite group_aux_more by lia. apply IH; cbn [length]; lia.
Qed.

Lemma group_sizes {A} : forall n (l : list A), (1 <= n)%nat ->
  Forall (fun g => (1 <= length g <= n)%nat) (group n l).
Proof. intros. unfold group. apply group_aux_sizes; cbn [length]; lia. Qed.

Lemma eenc_write_app : forall x y e,
  eenc_write e (x ++ y) =
  (fst (eenc_write (fst (eenc_write e x)) y), snd (eenc_write e x) ++ snd (eenc_write (fst (eenc_write e x)) y)).
Proof.
  induction x as [|b x IH]; intros y e.
  - cbn. destruct (eenc_write e y); reflexivity.
  - cbn [app eenc_write]. destruct (eenc_byte e b) as [e1 o1]. rewrite IH.
    destruct (eenc_write e1 x) as [e2 o2]. cbn [fst snd].
    destruct (eenc_write e2 y) as [e3 o3]. cbn [fst snd]. rewrite app_assoc. reflexivity.
Qed.

Definition eenc_all (s : bytes) : bytes :=
  snd (eenc_write {| cc := 0; ec := 0 |} s) ++ eenc_close (fst (eenc_write {| cc := 0; ec := 0 |} s)).

Definition pre_of (cur : bytes) (curw : list bytes) : bytes :=
  PRE_OPEN ++ concat (map word_line (rev curw)) ++ rev cur.
Definition emitted (cur : bytes) (curw : list bytes) : bytes :=
  match cur, curw with [], [] => [] | _, _ => pre_of cur curw end.

Lemma emitted_hdr : forall cur curw,
  emitted cur curw ++ (if (Nat.eqb (length curw) 0 && Nat.eqb (length cur) 0)%bool then PRE_OPEN else [])
  = pre_of cur curw.
Proof.
  intros [|c cur] [|w curw]; cbn [emitted length Nat.eqb andb]; rewrite ?app_nil_r; try reflexivity.
Qed.

Lemma emitted_cons : forall c cur curw, emitted (c :: cur) curw = pre_of (c :: cur) curw.
Proof. intros c cur [|w curw]; reflexivity. Qed.

(* The encoder in the middle of an element, with [s] still to be written.  [cur] is the chunk being filled and
   [curw] the chunks already closed in this element, both newest first; [k1] and [k2] are the room left in the
   chunk and in the element (group_aux's counters).  [emitted cur curw] is what has been written of this
   element: nothing before its first byte, else "<pre>", the closed chunks with their line ends, the open
   chunk.  That, followed by what Write and Close write for [s], is the rendering of the elements into which
   group_aux puts (cur, curw) and [s]. *)
Lemma eenc_spec : forall s cur curw k1 k2,
  (k1 + length cur = bytesPerChunk)%nat -> (1 <= k1)%nat -> (k2 + length curw = chunksPerElement)%nat -> (1 <= k2)%nat ->
  emitted cur curw ++ snd (eenc_write {| cc := length cur; ec := length curw |} s)
    ++ eenc_close (fst (eenc_write {| cc := length cur; ec := length curw |} s))
  = concat (map element (group_aux chunksPerElement k2 curw (group_aux bytesPerChunk k1 cur s))).
Proof.
  assert (P1 : (1 <= bytesPerChunk)%nat) by (unfold bytesPerChunk; lia).
  assert (P2 : (1 <= chunksPerElement)%nat) by (unfold chunksPerElement; lia).
  induction s as [|b s IH]; intros cur curw k1 k2 H1 H1' H2 H2'.
  - (* Close: the open chunk gets its line end, the open element its end tag *)
    cbn [eenc_write fst snd app]. rewrite group_aux_nil. unfold eenc_close. cbn [cc ec].
    destruct cur as [|c cur].
    + rewrite group_aux_nil. destruct curw as [|w curw].
      * reflexivity.
      * cbn [length Nat.eqb andb emitted map concat]. unfold element, pre_of.
        cbn [rev app]. rewrite !app_nil_r. rewrite <- !app_assoc. reflexivity.
    + assert (E : group_aux chunksPerElement k2 curw [rev (c :: cur)] = [rev (rev (c :: cur) :: curw)]).
      { destruct (Nat.eq_dec k2 1) as [->|Hne]; [reflexivity|].
        rewrite group_aux_more by lia. reflexivity. }
      rewrite E. cbn [map concat]. rewrite app_nil_r.
      replace ((Nat.eqb (length curw) 0 && Nat.eqb (length (c :: cur)) 0)%bool) with false
        by (cbn [length Nat.eqb]; rewrite andb_false_r; reflexivity).
      cbn [length Nat.eqb]. rewrite emitted_cons. unfold element, pre_of.
      cbn [rev]. rewrite map_app, concat_app. cbn [map concat]. unfold word_line.
      rewrite !app_nil_r. rewrite <- !app_assoc. reflexivity.
  - (* Write of one byte *)
    cbn [eenc_write]. unfold eenc_byte. cbn [cc ec].
    destruct (Nat.leb bytesPerChunk (S (length cur))) eqn:Ec.
    + (* the chunk is full *)
      apply Nat.leb_le in Ec.
      assert (k1 = 1)%nat by lia. subst k1.
      rewrite group_aux_last.
      destruct (Nat.leb chunksPerElement (S (length curw))) eqn:Ee.
      * (* and so is the element *)
        apply Nat.leb_le in Ee.
        assert (k2 = 1)%nat by lia. subst k2.
        rewrite group_aux_last. cbn [map concat].
        specialize (IH [] [] bytesPerChunk chunksPerElement (Nat.add_0_r _) P1 (Nat.add_0_r _) P2).
        cbn [length emitted app] in IH.
        destruct (eenc_write {| cc := 0; ec := 0 |} s) as [e2 o2]. cbn [fst snd] in *.
        rewrite <- IH.
        rewrite !app_assoc. rewrite emitted_hdr.
        unfold element, pre_of. cbn [rev]. rewrite map_app, concat_app. cbn [map concat]. unfold word_line.
        rewrite !app_nil_r. rewrite <- !app_assoc. reflexivity.
      * apply Nat.leb_gt in Ee.
        rewrite group_aux_more by lia.
        specialize (IH [] (rev (b :: cur) :: curw) bytesPerChunk (k2 - 1)%nat (Nat.add_0_r _) P1
                       ltac:(cbn [length]; lia) ltac:(lia)).
        cbn [length] in IH.
        destruct (eenc_write {| cc := 0; ec := S (length curw) |} s) as [e2 o2]. cbn [fst snd] in *.
        etransitivity; [|exact IH]. clear IH.
        rewrite !app_assoc. rewrite emitted_hdr.
        cbn [emitted]. unfold pre_of. cbn [rev]. rewrite map_app, concat_app. cbn [map concat]. unfold word_line.
        rewrite !app_nil_r. rewrite <- !app_assoc. reflexivity.
    + (* the chunk has room *)
      apply Nat.leb_gt in Ec.
      rewrite group_aux_more by lia.
      specialize (IH (b :: cur) curw (k1 - 1)%nat k2 ltac:(cbn [length]; lia) ltac:(lia) H2 H2').
      cbn [length] in IH.
      destruct (eenc_write {| cc := S (length cur); ec := length curw |} s) as [e2 o2]. cbn [fst snd] in *.
      etransitivity; [|exact IH]. clear IH.
      rewrite !app_assoc. rewrite emitted_hdr.
      cbn [emitted]. unfold pre_of. cbn [rev]. rewrite <- !app_assoc. reflexivity.
Qed.

Lemma eenc_all_spec : forall s,
  eenc_all s = concat (map element (group chunksPerElement (group bytesPerChunk s))).
Proof.
  intros s.
  pose proof (eenc_spec s [] [] bytesPerChunk chunksPerElement (Nat.add_0_r _)
                ltac:(unfold bytesPerChunk; lia) (Nat.add_0_r _) ltac:(unfold chunksPerElement; lia)) as H.
  cbn [length emitted app] in H. exact H.
Qed.

Lemma enc_full_short : forall l, (length l < 3)%nat -> enc_full l = ([], l).
Proof. intros [|a [|b [|c l]]] H; cbn [length] in H; try lia; reflexivity. Qed.

Lemma armor_writes_spec : forall parts a, (length (a_pend a) < 3)%nat ->
  let all := a_pend a ++ concat parts in
  snd (armor_writes a parts) = snd (eenc_write (a_el a) (fst (enc_full all))) /\
  a_el (fst (armor_writes a parts)) = fst (eenc_write (a_el a) (fst (enc_full all))) /\
  a_pend (fst (armor_writes a parts)) = snd (enc_full all).
Proof.
  induction parts as [|p ps IH]; intros a Hp; cbv zeta.
  - cbn [concat armor_writes fst snd]. rewrite app_nil_r. rewrite enc_full_short by assumption.
    cbn [fst snd eenc_write]. auto.
  - cbn [armor_writes concat]. unfold armor_write, b64w_write.
    rewrite app_assoc. rewrite (enc_full_app (a_pend a ++ p) (concat ps)).
    destruct (enc_full (a_pend a ++ p)) as [o pend'] eqn:E. cbn [fst snd].
    assert (Hs : (length pend' < 3)%nat).
    { pose proof (enc_full_rem_short (a_pend a ++ p)) as Hx. rewrite E in Hx. exact Hx. }
    rewrite eenc_write_app.
    destruct (eenc_write (a_el a) o) as [e1 o1] eqn:E1. cbn [fst snd].
    specialize (IH {| a_pend := pend'; a_el := e1 |} Hs). cbv zeta in IH. cbn [a_pend a_el] in IH.
    destruct (armor_writes {| a_pend := pend'; a_el := e1 |} ps) as [a2 o2]. cbn [fst snd] in *.
    destruct IH as (I1 & I2 & I3). rewrite I1, I2, I3. auto.
Qed.

Lemma armor_stream_eq : forall parts,
  armor_stream parts = boilerplate_start ++ eenc_all (VERSION :: b64_encode (concat parts)) ++ boilerplate_end.
Proof.
  intros parts. unfold armor_stream, armor_new.
  destruct (eenc_write {| cc := 0; ec := 0 |} [VERSION]) as [e0 o0] eqn:E0.
  pose proof (armor_writes_spec parts {| a_pend := []; a_el := e0 |} ltac:(cbn; lia)) as H.
  cbv zeta in H. cbn [a_pend a_el app] in H.
  destruct (armor_writes {| a_pend := []; a_el := e0 |} parts) as [a1 o1]. cbn [fst snd] in H.
  destruct H as (H1 & H2 & H3).
  unfold armor_close, b64w_close.
  destruct (eenc_write (a_el a1) (enc_tail (a_pend a1))) as [e2 o2] eqn:E2.
  unfold eenc_all.
  rewrite (enc_full_encode (concat parts)).
  change (VERSION :: fst (enc_full (concat parts)) ++ enc_tail (snd (enc_full (concat parts))))
    with ([VERSION] ++ fst (enc_full (concat parts)) ++ enc_tail (snd (enc_full (concat parts)))).
  rewrite eenc_write_app. rewrite E0. cbn [fst snd].
  rewrite eenc_write_app. rewrite <- H2, <- H1, <- H3. rewrite E2. cbn [fst snd].
  rewrite <- !app_assoc. reflexivity.
Qed.

Lemma armor_encode_eq : forall p,
  armor_encode p = boilerplate_start ++ eenc_all (VERSION :: b64_encode p) ++ boilerplate_end.
Proof. intros p. unfold armor_encode, armor_elements, armor_words. rewrite eenc_all_spec. reflexivity. Qed.

Lemma write_chunking : forall parts, armor_stream parts = armor_encode (concat parts).
Proof. intros. rewrite armor_stream_eq, armor_encode_eq. reflexivity. Qed.
