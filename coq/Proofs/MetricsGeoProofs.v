(* MetricsGeoProofs.v — the NAT-type and country figures of printMetrics (Model/Metrics.v), for every history. *)
From Coq Require Import List NArith Lia Bool.
From Snow Require Import Lib.Wire Lib.WireFacts Lib.ListFacts Model.Metrics Proofs.MetricsProofs.
Import ListNotations.
Open Scope N_scope.

Definition accepted_poll (o : op) : option (bytes * bytes * N * N) :=
  match o with
  | ProxyPoll (Some (ad, c)) t n _ out => match out with Rejected => None | _ => Some (ad, c, t, n) end
  | _ => None
  end.

(* the de-duplication sets, the NAT sets and the per-country counts: what UpdateCountryStats writes *)
Record cstats := { cs_t : N -> list bytes; cs_r : list bytes; cs_u : list bytes; cs_k : list bytes; cs_c : list (bytes * N) }.
Definition cs (s : mstate) : cstats :=
  {| cs_t := tsets s; cs_r := nat_r s; cs_u := nat_u s; cs_k := nat_k s; cs_c := ccounts s |}.
Definition cs0 : cstats := {| cs_t := fun _ => []; cs_r := []; cs_u := []; cs_k := []; cs_c := [] |}.

Lemma geo_update_country : forall ad t n c s, geo (update_country ad t n c s) = geo s.
Proof.
  intros. unfold update_country. destruct (mem ad (tsets s (norm_type t))); [reflexivity|].
  destruct (geo s); reflexivity.
Qed.

(* UpdateCountryStats reads nothing but the table state and what it writes *)
Lemma cs_update_country_ext : forall ad t n c s s',
  cs s' = cs s -> geo s' = geo s -> cs (update_country ad t n c s') = cs (update_country ad t n c s).
Proof.
  intros ad t n c s s' H Hg. pose proof H as H'. unfold cs in H'. injection H' as H1 H2 H3 H4 H5.
  unfold update_country. rewrite H1, Hg. destruct (mem ad (tsets s (norm_type t))); [exact H|].
  destruct (geo s); unfold cs; cbn [tsets nat_r nat_u nat_k ccounts]; rewrite ?H2, ?H3, ?H4, ?H5; reflexivity.
Qed.

Lemma cs_bump_ev : forall e s, cs (bump_ev e s) = cs s. Proof. reflexivity. Qed.
Lemma cs_bump_prom : forall k s, cs (bump_prom k s) = cs s. Proof. reflexivity. Qed.

Lemma apply_op_cs : forall s o,
  cs (apply_op s o) =
  if is_zero o then cs0
  else match accepted_poll o with
       | Some (ad, c, t, n) => cs (update_country ad t n c s)
       | None => cs s
       end.
Proof.
  intros s o. destruct o as [|a t n relay out|n|n|n| | |ok]; cbn [apply_op accepted_poll is_zero]; try reflexivity.
  - destruct relay, out, a as [[ad c]|]; rewrite ?cs_bump_prom, ?cs_bump_ev; try reflexivity;
      apply cs_update_country_ext; reflexivity.
  - destruct (n =? 2); reflexivity.
Qed.

Lemma apply_op_geo : forall s o, geo (apply_op s o) = geo_step (geo s) o.
Proof.
  intros s o. destruct o as [|a t n relay out|n|n|n| | |ok]; cbn [apply_op geo_step]; try reflexivity.
  - destruct relay, out, a as [[ad c]|]; cbn [geo bump_prom bump_ev]; rewrite ?geo_update_country; reflexivity.
  - destruct (n =? 2); reflexivity.
Qed.

Lemma poll_of_accepted : forall u a o,
  poll_of u a o = match accepted_poll o with
                  | Some (ad, c, t, n) => if (norm_type t =? u) && beq ad a then Some (n, c) else None
                  | None => None
                  end.
Proof.
  intros u a o. destruct o as [|[[ad c]|] t n relay out|n|n|n| | |ok]; cbn [poll_of accepted_poll]; try reflexivity.
  destruct out; reflexivity.
Qed.

Lemma first_poll_snoc : forall u a l o,
  first_poll u a (l ++ [o]) = match first_poll u a l with Some x => Some x | None => poll_of u a o end.
Proof.
  induction l as [|x l IH]; intro o; cbn [first_poll app].
  - destruct (poll_of u a o); reflexivity.
  - destruct (poll_of u a x); [reflexivity | apply IH].
Qed.

Lemma geo_after_snoc : forall g l o, geo_after g (l ++ [o]) = geo_step (geo_after g l) o.
Proof. intros. unfold geo_after. rewrite fold_left_app. reflexivity. Qed.

Lemma geo_step_not_reload : forall g o, is_reload o = false -> geo_step g o = g.
Proof. intros g o H. destruct o; try reflexivity. discriminate. Qed.

Lemma poll_of_reload : forall u a o, is_reload o = true -> poll_of u a o = None.
Proof. intros u a o H. destruct o; try discriminate. reflexivity. Qed.

Lemma first_sight_snoc : forall l g u a o,
  first_sight g u a (l ++ [o]) =
  match first_sight g u a l with
  | Some x => Some x
  | None => match poll_of u a o with Some (n, c) => Some (geo_after g l, n, c) | None => None end
  end.
Proof.
  induction l as [|x l IH]; intros g u a o; cbn [first_sight app].
  - unfold geo_after. cbn [fold_left]. destruct (poll_of u a o) as [[n c]|]; reflexivity.
  - destruct (poll_of u a x) as [[n c]|]; [reflexivity|]. rewrite IH. unfold geo_after. cbn [fold_left]. reflexivity.
Qed.

Lemma geo_track_fst : forall g ops, fst (geo_track g ops) = geo_after g ops.
Proof.
  intros g ops. unfold geo_track, geo_after. generalize g at 2 as g0. revert g.
  induction ops as [|o ops IH]; intros g g0; cbn [fold_left fst snd]; [reflexivity|]. apply IH.
Qed.

Lemma geo_track_snoc : forall g ops o,
  geo_track g (ops ++ [o]) =
  (geo_step (geo_after g ops) o, if is_zero o then geo_step (geo_after g ops) o else period_geo g ops).
Proof.
  intros g ops o. unfold period_geo. rewrite <- geo_track_fst. unfold geo_track. rewrite fold_left_app. reflexivity.
Qed.

Lemma period_geo_snoc : forall g ops o,
  period_geo g (ops ++ [o]) = if is_zero o then geo_after g ops else period_geo g ops.
Proof.
  intros g ops o. unfold period_geo at 1. rewrite geo_track_snoc. cbn [snd].
  destruct o; cbn [is_zero geo_step]; reflexivity.
Qed.

Lemma geo_exec : forall g ops, geo (exec ops (minit g)) = geo_after g ops.
Proof.
  intros g ops. induction ops as [|o ops IH] using rev_ind; [reflexivity|].
  rewrite exec_snoc, geo_after_snoc, apply_op_geo, IH. reflexivity.
Qed.

(* the table state now, reckoned from the beginning of the running period *)
Lemma geo_after_period : forall g ops, geo_after (period_geo g ops) (since_zero ops) = geo_after g ops.
Proof.
  intros g ops. induction ops as [|o ops IH] using rev_ind; [reflexivity|].
  rewrite since_zero_snoc, period_geo_snoc, !geo_after_snoc. destruct o; cbn [is_zero]; rewrite ?geo_after_snoc, ?IH; reflexivity.
Qed.

Lemma norm_type_le : forall t, In (norm_type t) all_types.
Proof.
  intro t. unfold norm_type, all_types. destruct (t <? 4) eqn:E; cbn [In]; [|tauto].
  assert (H : t = 0 \/ t = 1 \/ t = 2 \/ t = 3) by lia. destruct H as [->|[->|[->| ->]]]; tauto.
Qed.

Lemma aupd_keys : forall (f : N -> N) k m,
  map fst (aupd 0 f k m) = if existsb (fun k' => beq k k') (map fst m) then map fst m else map fst m ++ [k].
Proof.
  intros f k m. induction m as [|[k0 v] m IH]; cbn [aupd map fst existsb app]; [reflexivity|].
  destruct (beq k k0) eqn:E; cbn [map fst orb]; [reflexivity|]. rewrite IH.
  destruct (existsb (fun k' => beq k k') (map fst m)); reflexivity.
Qed.

Lemma aupd_NoDup : forall (f : N -> N) k m, NoDup (map fst m) -> NoDup (map fst (aupd 0 f k m)).
Proof.
  intros f k m ND. rewrite aupd_keys. destruct (existsb (fun k' => beq k k') (map fst m)) eqn:E; [exact ND|].
  apply NoDup_snoc; [exact ND|]. intro H. assert (E' : existsb (fun k' => beq k k') (map fst m) = true).
  { apply existsb_exists. exists k. split; [exact H | apply beq_refl]. }
  congruence.
Qed.

Lemma aupd_positive : forall k m, (forall kv, In kv m -> 0 < snd kv) -> forall kv, In kv (aupd 0 N.succ k m) -> 0 < snd kv.
Proof.
  intros k m. induction m as [|[k0 v] m IH]; intros H kv Hin; cbn [aupd] in Hin.
  - destruct Hin as [<-|[]]. cbn. lia.
  - destruct (beq k k0).
    + destruct Hin as [<-|Hin]; [cbn; lia | apply H; right; exact Hin].
    + destruct Hin as [<-|Hin]; [apply H; left; reflexivity|]. apply IH; [|exact Hin]. intros kv' H'. apply H. right. exact H'.
Qed.

Lemma sumN_map_bump : forall (f f' : N -> N) u0 d us,
  NoDup us -> In u0 us -> (forall u, u <> u0 -> f' u = f u) -> f' u0 = f u0 + d ->
  sumN (map f' us) = sumN (map f us) + d.
Proof.
  intros f f' u0 d us. induction us as [|u us IH]; intros ND Hin Hne Heq; [destruct Hin|].
  inversion ND as [|? ? Hnot ND']; subst. cbn [map sumN]. destruct Hin as [->|Hin].
  - rewrite Heq. assert (E : map f' us = map f us).
    { apply map_ext_in. intros x Hx. apply Hne. intro E. subst. contradiction. }
    rewrite E. lia.
  - rewrite (IH ND' Hin Hne Heq). rewrite (Hne u); [lia|]. intro E. subst. contradiction.
Qed.

Lemma sumN_map_ext : forall (f f' : N -> N) us, (forall u, In u us -> f' u = f u) -> sumN (map f' us) = sumN (map f us).
Proof. intros f f' us H. f_equal. apply map_ext_in. exact H. Qed.

Lemma all_types_NoDup : NoDup all_types.
Proof. unfold all_types. repeat constructor; cbn [In]; intros H; repeat (destruct H as [H|H]; [discriminate|]); exact H. Qed.

(* l holds the addresses whose first accepted poll of the period under some type class was attributed (a table was
   loaded) and reported a NAT type in Q *)
Definition bucket_ok (Q : N -> Prop) (g0 : bool) (P : list op) (l : list bytes) : Prop :=
  forall a, In a l <-> exists u n c, first_sight g0 u a P = Some (true, n, c) /\ Q n.

(* g0 = the table state when the running period began, P = the ops of the running period *)
Record CInv (g0 : bool) (k : cstats) (P : list op) : Prop := {
  ci_nd : forall u, NoDup (cs_t k u);
  ci_in : forall u a, In a (cs_t k u) <-> first_sight g0 u a P <> None;
  ci_ndr : NoDup (cs_r k); ci_ndu : NoDup (cs_u k); ci_ndk : NoDup (cs_k k);
  ci_r : bucket_ok (eq 1) g0 P (cs_r k);
  ci_u : bucket_ok (eq 2) g0 P (cs_u k);
  ci_k : bucket_ok (fun n => n <> 1 /\ n <> 2) g0 P (cs_k k);
  ci_ndc : NoDup (map fst (cs_c k));
  ci_pos : forall kv, In kv (cs_c k) -> 0 < snd kv;
  ci_cc : forall c, aget 0 c (cs_c k) = ccsumg c g0 P (cs_t k)
}.

Lemma ex_eq_N : forall {U C} (F : U -> N -> C -> Prop) m, (exists u n c, F u n c /\ m = n) <-> exists u c, F u m c.
Proof.
  intros U C F m. split.
  - intros [u [n [c [E <-]]]]. exists u, c. exact E.
  - intros [u [c E]]. exists u, m, c. split; [exact E | reflexivity].
Qed.

Lemma bucket_empty : forall Q g, bucket_ok Q g [] [].
Proof. intros Q g a. split; [intros [] | intros [u [n [c [E _]]]]; discriminate]. Qed.

Lemma CInv_empty : forall g, CInv g cs0 [].
Proof.
  intro g. constructor; cbn [cs0 cs_t cs_r cs_u cs_k cs_c map]; try apply bucket_empty; try apply NoDup_nil.
  - intro u. apply NoDup_nil.
  - intros u a. split; [intros [] | intro H; apply H; reflexivity].
  - intros kv [].
  - intro c. reflexivity.
Qed.

(* the invariant looks at P only through first_sight *)
Lemma bucket_ext : forall Q g P P' l,
  (forall u a, first_sight g u a P' = first_sight g u a P) -> bucket_ok Q g P l -> bucket_ok Q g P' l.
Proof.
  intros Q g P P' l E H a. rewrite (H a).
  split; intros [u [n [c [F q]]]]; exists u, n, c; (split; [|exact q]); [rewrite E | rewrite <- E]; exact F.
Qed.

Lemma ccsumg_ext : forall c g P P' sets,
  (forall u a, first_sight g u a P' = first_sight g u a P) -> ccsumg c g P' sets = ccsumg c g P sets.
Proof.
  intros c g P P' sets E. unfold ccsumg. apply sumN_map_ext. intros u _. f_equal. f_equal.
  apply filter_ext. intro a. unfold ccbg. rewrite E. reflexivity.
Qed.

Lemma CInv_ext : forall g k P P',
  (forall u a, first_sight g u a P' = first_sight g u a P) -> CInv g k P -> CInv g k P'.
Proof.
  intros g k P P' E [H2 H3 H4 H5 H6 H7 H8 H9 H10 H11 H12].
  constructor; auto; try (apply (bucket_ext _ g P); assumption).
  - intros u a. rewrite E. apply H3.
  - intro c. rewrite H12. symmetry. apply ccsumg_ext, E.
Qed.

(* an op that is no accepted poll leaves every first sighting as it is *)
Lemma CInv_keep : forall g k P o, (forall u a, poll_of u a o = None) -> CInv g k P -> CInv g k (P ++ [o]).
Proof.
  intros g k P o Hp. apply CInv_ext. intros u a. rewrite first_sight_snoc, Hp. destruct (first_sight g u a P); reflexivity.
Qed.

(* what UpdateCountryStats writes for an address that is new for its type class in this period *)
Lemma cs_update_country_new : forall ad t n c s,
  mem ad (tsets s (norm_type t)) = false ->
  cs (update_country ad t n c s) =
  {| cs_t := updN (tsets s) (norm_type t) (tsets s (norm_type t) ++ [ad]);
     cs_r := if geo s && (n =? 1) then set_add ad (nat_r s) else nat_r s;
     cs_u := if geo s && (n =? 2) then set_add ad (nat_u s) else nat_u s;
     cs_k := if geo s && negb ((n =? 1) || (n =? 2)) then set_add ad (nat_k s) else nat_k s;
     cs_c := if geo s then aupd 0 N.succ c (ccounts s) else ccounts s |}.
Proof.
  intros ad t n c s H. unfold update_country. rewrite H.
  destruct (geo s); [destruct (n =? 1), (n =? 2)|]; reflexivity.
Qed.

Lemma NoDup_if_add : forall (b : bool) a l, NoDup l -> NoDup (if b then set_add a l else l).
Proof. intros [|] a l H; [apply set_add_spec|]; exact H. Qed.

(* One more op: the first sighting (gs, n, c) of ad under type class u0 is the only one that P' adds to P. *)
Section NewSighting.
  Variables (g : bool) (P P' : list op) (u0 : N) (ad : bytes) (gs : bool) (n : N) (c : bytes).
  Hypothesis FP : forall u a, first_sight g u a P' =
                              match first_sight g u a P with Some x => Some x
                              | None => if (u0 =? u) && beq ad a then Some (gs, n, c) else None end.
  Hypothesis Hnew : first_sight g u0 ad P = None.

  (* the bucket takes ad exactly when that sighting was attributed and its NAT type is in Q *)
  Lemma bucket_grow : forall (Q : N -> Prop) l (b : bool),
    NoDup l -> (b = true <-> gs = true /\ Q n) ->
    bucket_ok Q g P l -> bucket_ok Q g P' (if b then set_add ad l else l).
  Proof.
    intros Q l b ND Hb H a.
    assert (M : In a (if b then set_add ad l else l) <-> In a l \/ (b = true /\ a = ad)).
    { destruct b; [rewrite (proj2 (set_add_spec ad l ND))|]; intuition congruence. }
    rewrite M, (H a). split.
    - intros [[u [m [c' [E q]]]] | [Hb' ->]].
      + exists u, m, c'. rewrite FP, E. auto.
      + apply Hb in Hb'. destruct Hb' as [-> q]. exists u0, n, c. rewrite FP, Hnew, N.eqb_refl, beq_refl. auto.
    - intros [u [m [c' [E q]]]]. rewrite FP in E. destruct (first_sight g u a P) as [x|] eqn:E1.
      + left. exists u, m, c'. rewrite E1. auto.
      + destruct ((u0 =? u) && beq ad a) eqn:E2; [|discriminate]. apply andb_true_iff in E2. destruct E2 as [_ E2].
        apply beq_eq in E2. injection E as -> -> _. right. split; [apply Hb; auto | symmetry; exact E2].
  Qed.

  Variable sets : N -> list bytes.
  Hypothesis Hin : forall u a, In a (sets u) <-> first_sight g u a P <> None.

  Lemma tsets_grow : forall u a, In a (updN sets u0 (sets u0 ++ [ad]) u) <-> first_sight g u a P' <> None.
  Proof.
    intros u a. rewrite FP. unfold updN. destruct (u =? u0) eqn:E.
    - apply N.eqb_eq in E. subst u. rewrite N.eqb_refl. cbn [andb]. rewrite in_app_iff, Hin. cbn [In].
      destruct (first_sight g u0 a P); [intuition congruence|]. rewrite <- (beq_eq ad a).
      destruct (beq ad a); intuition congruence.
    - rewrite Hin, (N.eqb_sym u0), E. cbn [andb]. destruct (first_sight g u a P); intuition congruence.
  Qed.

  (* the country sums: only class u0 changes, by one when the new first sighting is attributed to c' *)
  Lemma ccsumg_grow : forall c', In u0 all_types ->
    ccsumg c' g P' (updN sets u0 (sets u0 ++ [ad])) = ccsumg c' g P sets + (if gs && beq c' c then 1 else 0).
  Proof.
    intros c' Hu0. unfold ccsumg.
    assert (Same : forall u a, In a (sets u) -> ccbg c' g u P' a = ccbg c' g u P a).
    { intros u a Ha. apply Hin in Ha. unfold ccbg. rewrite FP. destruct (first_sight g u a P); [reflexivity | congruence]. }
    apply (sumN_map_bump _ _ u0 _ all_types all_types_NoDup Hu0).
    - intros u Hu. unfold updN. apply N.eqb_neq in Hu. rewrite Hu. f_equal. f_equal.
      apply filter_ext_in, Same.
    - unfold updN. rewrite N.eqb_refl, filter_app, app_length, (filter_ext_in _ _ _ (Same u0)).
      cbn [filter]. unfold ccbg at 2. rewrite FP, Hnew, N.eqb_refl, beq_refl.
      destruct gs; cbn [andb]; [destruct (beq c' c)|]; cbn [List.length]; lia.
  Qed.
End NewSighting.

Lemma CInv_update : forall g s P o ad c t n,
  accepted_poll o = Some (ad, c, t, n) -> geo s = geo_after g P ->
  CInv g (cs s) P -> CInv g (cs (update_country ad t n c s)) (P ++ [o]).
Proof.
  intros g s P o ad c t n Ho Hgeo HI. set (u0 := norm_type t).
  assert (FP : forall u a, first_sight g u a (P ++ [o]) =
                           match first_sight g u a P with Some x => Some x
                           | None => if (u0 =? u) && beq ad a then Some (geo s, n, c) else None end).
  { intros u a. rewrite first_sight_snoc, poll_of_accepted, Ho, Hgeo. fold u0.
    destruct (first_sight g u a P); [reflexivity|]. destruct ((u0 =? u) && beq ad a); reflexivity. }
  destruct (mem ad (tsets s u0)) eqn:Em.
  - (* already counted for this type in this period: nothing changes, and neither does any first sighting *)
    unfold update_country. fold u0. rewrite Em. apply mem_In in Em. apply (ci_in g _ P HI) in Em.
    apply (CInv_ext g _ P); [|exact HI].
    intros u a. rewrite FP. destruct (first_sight g u a P) eqn:E1; [reflexivity|].
    destruct ((u0 =? u) && beq ad a) eqn:E2; [|reflexivity]. exfalso.
    apply andb_true_iff in E2. destruct E2 as [E2 E3]. apply N.eqb_eq in E2. apply beq_eq in E3. subst. contradiction.
  - rewrite (cs_update_country_new ad t n c s Em). fold u0.
    assert (Hnotin : ~ In ad (tsets s u0)) by (intro H; apply mem_In in H; congruence).
    assert (Hnew : first_sight g u0 ad P = None).
    { destruct (first_sight g u0 ad P) eqn:E; [|reflexivity]. exfalso. apply Hnotin, (ci_in g _ P HI). cbn [cs cs_t]. congruence. }
    destruct HI as [H2 H3 H4 H5 H6 H7 H8 H9 H10 H11 H12]. cbn [cs cs_t cs_r cs_u cs_k cs_c] in *.
    constructor; cbn [cs_t cs_r cs_u cs_k cs_c]; try (apply NoDup_if_add; assumption);
      try (apply (bucket_grow g P _ u0 ad (geo s) n c FP Hnew); [assumption | clear; lia | assumption]).
    + intro u. unfold updN. destruct (u =? u0); [apply NoDup_snoc; [apply H2 | exact Hnotin] | apply H2].
    + apply (tsets_grow g P _ u0 ad (geo s) n c FP _ H3).
    + destruct (geo s); [apply aupd_NoDup|]; exact H10.
    + destruct (geo s); [apply aupd_positive|]; exact H11.
    + intro c'. rewrite (ccsumg_grow g P _ u0 ad (geo s) n c FP Hnew _ H3 c' (norm_type_le t)).
      destruct (geo s); cbn [andb]; [rewrite aget_aupd|]; rewrite H12; [destruct (beq c' c)|]; clear; lia.
Qed.

Lemma CInv_step : forall g s P o, geo s = geo_after g P -> CInv g (cs s) P ->
  CInv (if is_zero o then geo s else g) (cs (apply_op s o)) (if is_zero o then [] else P ++ [o]).
Proof.
  intros g s P o Hg HI. rewrite apply_op_cs. destruct (is_zero o); [apply CInv_empty|].
  destruct (accepted_poll o) as [[[[ad c] t] n]|] eqn:Ea.
  - apply CInv_update; assumption.
  - apply CInv_keep; [|exact HI]. intros u x. rewrite poll_of_accepted, Ea. reflexivity.
Qed.

Lemma CInv_exec : forall g ops, CInv (period_geo g ops) (cs (exec ops (minit g))) (since_zero ops).
Proof.
  intros g ops. induction ops as [|o ops IH] using rev_ind.
  - apply CInv_empty.
  - rewrite exec_snoc, since_zero_snoc, period_geo_snoc, <- geo_exec. apply CInv_step; [|exact IH].
    rewrite geo_exec. symmetry. apply geo_after_period.
Qed.

(* histories without a reload: the table state is the initial one throughout *)
Definition no_reload (ops : list op) : bool := forallb (fun o => negb (is_reload o)) ops.

Lemma first_sight_const : forall P g u a, no_reload P = true ->
  first_sight g u a P = match first_poll u a P with Some (n, c) => Some (g, n, c) | None => None end.
Proof.
  induction P as [|o P IH]; intros g u a H; cbn [first_sight first_poll]; [reflexivity|].
  cbn [no_reload forallb] in H. apply andb_true_iff in H. destruct H as [Ho HP].
  destruct (poll_of u a o) as [[n c]|]; [reflexivity|].
  rewrite geo_step_not_reload by (destruct (is_reload o); [discriminate | reflexivity]). apply IH. exact HP.
Qed.

Lemma no_reload_app : forall a b, no_reload (a ++ b) = no_reload a && no_reload b.
Proof. intros. unfold no_reload. apply forallb_app. Qed.

Lemma no_reload_since_zero : forall ops, no_reload ops = true -> no_reload (since_zero ops) = true.
Proof.
  induction ops as [|o ops IH] using rev_ind; intro H; [reflexivity|].
  rewrite no_reload_app in H. apply andb_true_iff in H. destruct H as [H1 H2].
  rewrite since_zero_snoc. destruct (is_zero o); [reflexivity|]. rewrite no_reload_app, (IH H1). exact H2.
Qed.

Lemma no_reload_geo : forall ops g, no_reload ops = true -> geo_after g ops = g /\ period_geo g ops = g.
Proof.
  induction ops as [|o ops IH] using rev_ind; intros g H; [split; reflexivity|].
  rewrite no_reload_app in H. apply andb_true_iff in H. destruct H as [H1 H2]. destruct (IH g H1) as [E1 E2].
  cbn [no_reload forallb] in H2. rewrite andb_true_r in H2.
  rewrite geo_after_snoc, period_geo_snoc, E1, E2. split.
  - apply geo_step_not_reload. destruct (is_reload o); [discriminate | reflexivity].
  - destruct (is_zero o); reflexivity.
Qed.

Lemma ccsumg_const : forall c g P sets, no_reload P = true -> ccsumg c g P sets = if g then ccsum c P sets else 0.
Proof.
  intros c g P sets H. unfold ccsumg, ccsum.
  assert (E : forall u a, ccbg c g u P a = g && ccb c u P a).
  { intros u a. unfold ccbg, ccb. rewrite (first_sight_const P g u a H). destruct (first_poll u a P) as [[n c']|]; destruct g; reflexivity. }
  destruct g.
  - apply sumN_map_ext. intros u _. f_equal. f_equal. apply filter_ext. intro a. rewrite E. reflexivity.
  - transitivity (sumN (map (fun _ : N => 0) all_types)); [|reflexivity].
    apply sumN_map_ext. intros u _. rewrite (filter_ext _ (fun _ => false)) by (intro a; rewrite E; reflexivity).
    clear. induction (sets u) as [|x l IH]; [reflexivity | exact IH].
Qed.

(* a bucket when no reload happens in the period: the table state is the constant g *)
Lemma bucket_no_reload : forall Q g P l, no_reload P = true -> bucket_ok Q g P l ->
  forall a, In a l <-> g = true /\ exists u n c, first_poll u a P = Some (n, c) /\ Q n.
Proof.
  intros Q g P l HP H a. rewrite (H a). split.
  - intros [u [n [c [E q]]]]. rewrite (first_sight_const P g u a HP) in E.
    destruct (first_poll u a P) as [[n' c']|] eqn:E1; [|discriminate]. injection E as -> -> ->.
    split; [reflexivity|]. exists u, n, c. rewrite E1. auto.
  - intros [-> [u [n [c [E q]]]]]. exists u, n, c. rewrite (first_sight_const P true u a HP), E. auto.
Qed.
