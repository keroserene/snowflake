(* ArmorTailProofs.v — the streaming AMP armor decoder (Model/ArmorStream.v) never looks at the part of the
   source it has not asked for: if the caller's Reads come to an end (io.EOF or an error) while the producer has
   not yet met the end of the source chunks [chunks], then with ANY continuation [tl] of the source appended the
   same Reads return the same bytes and the same end, consume the same number of source bytes, and leave [tl]
   untouched.  In particular an error found early in a document is returned whatever follows it - a remainder
   that never ends included - after a consumption that the remainder does not influence. *)
From Coq Require Import List NArith Arith String.
From Snow Require Import Lib.Wire Model.Base64 Model.Armor Model.ArmorStream Proofs.ArmorStreamProofs.
Import ListNotations.
Open Scope N_scope.

Section Tail.
  Variable T : Type.
  Variable tinit : T.
  Variable tfeed : T -> N -> T * list tok.
  Variable tfin : T -> list tok.

  Notation fill_src := (fill_src T tfeed).
  Notation fill_cur := (fill_cur T tfeed).
  Notation p_fill := (p_fill T tfeed tfin).
  Notation pipe_read := (pipe_read T tfeed tfin).
  Notation p_close := (p_close T tfeed tfin).
  Notation refill := (refill T tfeed tfin).
  Notation dec_read0 := (dec_read0 T tfeed tfin).
  Notation dec_read := (dec_read T tfeed tfin).
  Notation dec_new := (dec_new T tinit tfeed tfin).

  (* the producer with more source to come *)
  Definition padd (p : prod T) (tl : list bytes) : prod T :=
    {| p_src := p_src p ++ tl; p_cur := p_cur p; p_fin := p_fin p; p_tk := p_tk p; p_act := p_act p;
       p_q := p_q p; p_consumed := p_consumed p |}.
  Definition dadd (d : dec T) (tl : list bytes) : dec T := {| d_c := d_c d; d_p := padd (d_p d) tl |}.

  Lemma fill_src_tail : forall src t act n tl t' a' src' cur' evs n',
    fill_src t act src n = (t', a', src', cur', evs, n') -> evs <> [] ->
    fill_src t act (src ++ tl) n = (t', a', src' ++ tl, cur', evs, n').
  Proof.
    induction src as [|ch src IH]; intros t act n tl t' a' src' cur' evs n' H Hne.
    - cbn in H. injection H as <- <- <- <- <- <-. contradiction.
    - cbn [app ArmorStream.fill_src] in *.
      destruct (fill_cur t act ch) as [[[t1 a1] cur1] ev1].
      destruct ev1 as [|e1 ev1].
      + apply IH; assumption.
      + injection H as <- <- <- <- <- <-. reflexivity.
  Qed.

  Lemma set_q_padd : forall p q tl, set_q T (padd p tl) q = padd (set_q T p q) tl.
  Proof. reflexivity. Qed.

  (* one run of the producer to its next Write: if it did not meet the end of the source, more source behind
     changes nothing *)
  Lemma p_fill_tail : forall p tl, p_fin (p_fill p) = false ->
    p_fin p = false /\ p_fill (padd p tl) = padd (p_fill p) tl.
  Proof.
    intros p tl. unfold ArmorStream.p_fill. cbn [padd p_q p_tk p_act p_cur p_src p_consumed p_fin].
    destruct (p_q p) as [|e q] eqn:Eq.
    - destruct (fill_cur (p_tk p) (p_act p) (p_cur p)) as [[[t1 a1] cur1] ev1].
      destruct ev1 as [|e1 ev1].
      + destruct (fill_src t1 a1 (p_src p) (p_consumed p)) as [[[[[t2 a2] src2] cur2] ev2] n2] eqn:E2.
        destruct ev2 as [|e2 ev2].
        * cbn [p_fin]. discriminate.
        * cbn [p_fin]. intros H. split; [exact H|].
          rewrite (fill_src_tail _ _ _ _ tl _ _ _ _ _ _ E2) by discriminate. reflexivity.
      + cbn [p_fin]. intros H. split; [exact H | reflexivity].
    - intros H. split; [exact H|]. unfold padd. cbn [p_q]. rewrite Eq. reflexivity.
  Qed.

  Lemma pipe_read_tail : forall k p tl r p', pipe_read k p = (r, p') -> p_fin p' = false ->
    p_fin p = false /\ pipe_read k (padd p tl) = (r, padd p' tl).
  Proof.
    intros k p tl r p' H Hf. unfold ArmorStream.pipe_read in *.
    assert (Hf1 : p_fin (p_fill p) = false).
    { destruct (p_q (p_fill p)) as [|[w|e] q]; injection H as <- <-; exact Hf. }
    destruct (p_fill_tail p tl Hf1) as [H0 E]. split; [exact H0|].
    rewrite E. cbn [padd p_q].
    destruct (p_q (p_fill p)) as [|[w|e] q]; injection H as <- <-; reflexivity.
  Qed.

  Lemma p_close_tail : forall e p tl, p_fin (p_close e p) = false ->
    p_fin p = false /\ p_close e (padd p tl) = padd (p_close e p) tl.
  Proof.
    intros e p tl Hf. unfold ArmorStream.p_close in *.
    assert (Hf1 : p_fin (p_fill p) = false).
    { destruct (p_q (p_fill p)) as [|[w|e'] q]; exact Hf. }
    destruct (p_fill_tail p tl Hf1) as [H0 E]. split; [exact H0|].
    rewrite E. cbn [padd p_q].
    destruct (p_q (p_fill p)) as [|[w|e'] q]; reflexivity.
  Qed.

  Lemma refill_tail : forall fuel target nbuf rerr p tl nbuf' rerr' p',
    refill fuel target nbuf rerr p = (nbuf', rerr', p') -> p_fin p' = false ->
    p_fin p = false /\ refill fuel target nbuf rerr (padd p tl) = (nbuf', rerr', padd p' tl).
  Proof.
    induction fuel as [|f IH]; intros target nbuf rerr p tl nbuf' rerr' p' H Hf; cbn [ArmorStream.refill] in *.
    - injection H as <- <- <-. split; [exact Hf | reflexivity].
    - destruct (Nat.ltb (List.length nbuf) 4).
      + destruct rerr as [e|].
        * injection H as <- <- <-. split; [exact Hf | reflexivity].
        * destruct (pipe_read (target - List.length nbuf) p) as [[b|e] p1] eqn:Er.
          -- destruct (IH _ _ _ _ tl _ _ _ H Hf) as [Hf1 E].
             destruct (pipe_read_tail _ _ tl _ _ Er Hf1) as [H0 E1].
             split; [exact H0|]. rewrite E1. exact E.
          -- injection H as <- <- <-.
             destruct (pipe_read_tail _ _ tl _ _ Er Hf) as [H0 E1].
             split; [exact H0|]. rewrite E1. reflexivity.
      + injection H as <- <- <-. split; [exact Hf | reflexivity].
  Qed.

  Lemma dec_read0_tail : forall n d tl r d', dec_read0 n d = (r, d') -> p_fin (d_p d') = false ->
    p_fin (d_p d) = false /\ dec_read0 n (dadd d tl) = (r, dadd d' tl).
  Proof.
    intros n d tl r d' H Hf. unfold ArmorStream.dec_read0 in *. cbn [dadd d_c d_p].
    destruct (c_out (d_c d)) as [|o out].
    2: { injection H as <- <-. cbn [d_p] in Hf. split; [exact Hf | reflexivity]. }
    destruct (c_err (d_c d)) as [e|].
    { injection H as <- <-. split; [exact Hf | reflexivity]. }
    destruct (refill 4 (clamp_nn n) (c_nbuf (d_c d)) (c_rerr (d_c d)) (d_p d)) as [[nbuf rerr] p1] eqn:Er.
    assert (Hf1 : p_fin p1 = false).
    { destruct (Nat.ltb (List.length nbuf) 4); [injection H as <- <-; exact Hf|].
      destruct (b64_chunk (firstn (List.length nbuf / 4 * 4) nbuf)) as [data bad].
      destruct (Nat.ltb n (List.length nbuf / 4 * 4 / 4 * 3)); injection H as <- <-; exact Hf. }
    destruct (refill_tail _ _ _ _ _ tl _ _ _ Er Hf1) as [H0 E]. split; [exact H0|].
    rewrite E.
    destruct (Nat.ltb (List.length nbuf) 4); [injection H as <- <-; reflexivity|].
    destruct (b64_chunk (firstn (List.length nbuf / 4 * 4) nbuf)) as [data bad].
    destruct (Nat.ltb n (List.length nbuf / 4 * 4 / 4 * 3)); injection H as <- <-; reflexivity.
  Qed.

  Lemma dec_read_tail : forall n d tl r d', dec_read n d = (r, d') -> p_fin (d_p d') = false ->
    p_fin (d_p d) = false /\ dec_read n (dadd d tl) = (r, dadd d' tl).
  Proof.
    intros n d tl r d' H Hf. unfold ArmorStream.dec_read in *.
    destruct (dec_read0 n d) as [r0 d0] eqn:E0.
    assert (Hf0 : p_fin (d_p d0) = false).
    { destruct (snd r0) as [[|e]|]; injection H as <- <-; cbn [d_p] in Hf; [exact Hf | | exact Hf].
      exact (proj1 (p_close_tail e (d_p d0) tl Hf)). }
    destruct (dec_read0_tail n d tl r0 d0 E0 Hf0) as [H0 E]. split; [exact H0|].
    rewrite E.
    destruct (snd r0) as [[|e]|]; injection H as <- <-; try reflexivity.
    cbn [d_p] in Hf. unfold dadd. cbn [d_c d_p].
    rewrite (proj2 (p_close_tail e (d_p d0) tl Hf)). reflexivity.
  Qed.

  Lemma read_all_tail : forall fuel sz i d acc tl b e d',
    read_all T dec_read fuel sz i d acc = (b, e, d') -> p_fin (d_p d') = false ->
    p_fin (d_p d) = false /\ read_all T dec_read fuel sz i (dadd d tl) acc = (b, e, dadd d' tl).
  Proof.
    induction fuel as [|f IH]; intros sz i d acc tl b e d' H Hf; cbn [read_all] in *.
    - injection H as <- <- <-. split; [exact Hf | reflexivity].
    - destruct (dec_read (sz i) d) as [[b1 e1] d1] eqn:E1.
      destruct e1 as [e1|].
      + injection H as <- <- <-.
        destruct (dec_read_tail _ _ tl _ _ E1 Hf) as [H0 E]. split; [exact H0|]. rewrite E. reflexivity.
      + destruct (IH _ _ _ _ tl _ _ _ H Hf) as [Hf1 E].
        destruct (dec_read_tail _ _ tl _ _ E1 Hf1) as [H0 E']. split; [exact H0|]. rewrite E'. exact E.
  Qed.

  Lemma p_init_padd : forall chunks tl, p_init T tinit (chunks ++ tl) = padd (p_init T tinit chunks) tl.
  Proof. reflexivity. Qed.

  Lemma dec_new_tail : forall chunks tl,
    match dec_new chunks with
    | NewErr _ e p => p_fin p = false -> dec_new (chunks ++ tl) = NewErr T e (padd p tl)
    | NewOk _ d => p_fin (d_p d) = false -> dec_new (chunks ++ tl) = NewOk T (dadd d tl)
    end.
  Proof.
    intros chunks tl. unfold ArmorStream.dec_new. rewrite p_init_padd.
    destruct (pipe_read 1 (p_init T tinit chunks)) as [[b|e] p1] eqn:Er.
    - destruct b as [|v b].
      + intros Hf. destruct (p_close_tail EUnknownVersion p1 tl Hf) as [Hf1 Ec].
        rewrite (proj2 (pipe_read_tail _ _ tl _ _ Er Hf1)). rewrite Ec. reflexivity.
      + destruct (v =? VERSION) eqn:Ev.
        * cbn [d_p]. intros Hf. rewrite (proj2 (pipe_read_tail _ _ tl _ _ Er Hf)). rewrite Ev. reflexivity.
        * intros Hf. destruct (p_close_tail EUnknownVersion p1 tl Hf) as [Hf1 Ec].
          rewrite (proj2 (pipe_read_tail _ _ tl _ _ Er Hf1)). rewrite Ev, Ec. reflexivity.
    - destruct e as [|e]; intros Hf; rewrite (proj2 (pipe_read_tail _ _ tl _ _ Er Hf)); reflexivity.
  Qed.

  Theorem stream_decode_tail : forall chunks tl sz fuel,
    let r := stream_decode T tinit tfeed tfin chunks sz fuel in
    p_fin (s_prod r) = false ->
    let r' := stream_decode T tinit tfeed tfin (chunks ++ tl) sz fuel in
    s_data r' = s_data r /\ s_end r' = s_end r /\ s_prod r' = padd (s_prod r) tl.
  Proof.
    intros chunks tl sz fuel. cbv zeta. unfold stream_decode, stream_decode_with.
    pose proof (dec_new_tail chunks tl) as Hn.
    destruct (dec_new chunks) as [e p|d] eqn:En.
    - cbn [s_prod s_data s_end]. intros Hf. rewrite (Hn Hf). cbn [s_prod s_data s_end]. auto.
    - destruct (read_all T dec_read fuel sz 0 d []) as [[b e] d'] eqn:Ea.
      cbn [s_prod s_data s_end]. intros Hf.
      destruct (read_all_tail _ _ _ _ _ tl _ _ _ Ea Hf) as [Hf0 E].
      rewrite (Hn Hf0). rewrite E. cbn [s_prod s_data s_end d_p dadd]. auto.
  Qed.

  (* ... in particular the source bytes consumed and the bytes left unread *)
  Corollary stream_decode_tail_consumed : forall chunks tl sz fuel,
    p_fin (s_prod (stream_decode T tinit tfeed tfin chunks sz fuel)) = false ->
    p_consumed (s_prod (stream_decode T tinit tfeed tfin (chunks ++ tl) sz fuel)) =
      p_consumed (s_prod (stream_decode T tinit tfeed tfin chunks sz fuel)) /\
    p_src (s_prod (stream_decode T tinit tfeed tfin (chunks ++ tl) sz fuel)) =
      p_src (s_prod (stream_decode T tinit tfeed tfin chunks sz fuel)) ++ tl.
  Proof.
    intros chunks tl sz fuel Hf. destruct (stream_decode_tail chunks tl sz fuel Hf) as [_ [_ E]].
    rewrite E. split; reflexivity.
  Qed.

  Theorem stream_decode_tail_full : forall chunks tl sz fuel,
    let r := stream_decode T tinit tfeed tfin chunks sz fuel in
    p_fin (s_prod r) = false ->
    let r' := stream_decode T tinit tfeed tfin (chunks ++ tl) sz fuel in
    s_data r' = s_data r /\ s_end r' = s_end r /\
    p_consumed (s_prod r') = p_consumed (s_prod r) /\ p_src (s_prod r') = p_src (s_prod r) ++ tl.
  Proof.
    intros chunks tl sz fuel r Hf r'.
    destruct (stream_decode_tail chunks tl sz fuel Hf) as [Hd [He Hp]].
    fold r r' in Hd, He, Hp. split; [exact Hd|]. split; [exact He|]. rewrite Hp. split; reflexivity.
  Qed.
End Tail.

(* instance and non-vacuity: bad base64 in the first element ("QU*D"), met by the second Read *)
Definition tail_doc : bytes := bs "<html><pre>0QUJD QU*D QUJD</pre>".

Lemma early_error_whatever_follows : forall tl,
  let r' := armor_stream_decode ([tail_doc] ++ tl) (fun _ => 16%nat) 40 in
  s_data r' = bs "ABC" /\ s_end r' = Some (RErr EBadBase64) /\
  p_consumed (s_prod r') = N.of_nat (List.length tail_doc) /\ p_src (s_prod r') = tl /\ sp_stuck (s_prod r') = false.
Proof.
  intros tl. cbv zeta. unfold armor_stream_decode.
  (* one evaluation of the run on [tail_doc] alone *)
  assert (E : let r := stream_decode tks tk_init tk_step tk_fin [tail_doc] (fun _ => 16%nat) 40 in
              p_fin (s_prod r) = false /\ s_data r = bs "ABC" /\ s_end r = Some (RErr EBadBase64) /\
              p_consumed (s_prod r) = N.of_nat (List.length tail_doc) /\ p_src (s_prod r) = [])
    by (vm_compute; repeat split).
  destruct E as (Hf & E1 & E2 & E3 & E4).
  destruct (stream_decode_tail_full tks tk_init tk_step tk_fin [tail_doc] tl (fun _ => 16%nat) 40 Hf)
    as (Hd & He & Hc & Hs).
  rewrite Hd, He, Hc, Hs, E1, E2, E3, E4. do 4 (split; [reflexivity|]).
  apply (stream_decode_released tks tk_init tk_step tk_fin). rewrite He, E2. discriminate.
Qed.
