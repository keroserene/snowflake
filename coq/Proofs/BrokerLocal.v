(* BrokerLocal.v — one step of the matching machine (Model/Broker.v) seen from one entry.
   A label other than L_Poll rewrites at most one entry, the one it names or resolves to ([touched]); what it does to
   that entry, and under which guard, is [estep]; the other entries stay, and the scalar fields move as [frame] and
   [step_spec] say. The case analysis over all labels of [step] is done once, in step_inv: a fact about steps is proved
   as a fact about [estep] and carried to states by step_entry_fwd / step_entry_bwd. [step] itself is evaluated elsewhere
   only at one given label: to exhibit a step, to follow the array-heap machine (BrokerImplProofs.v) through the same
   guards, or for what [step_spec] does not record (a refused client, the [done_answers] log). *)
From Coq Require Import List NArith ZArith Bool Arith Lia.
From Snow Require Import Lib.ListFacts Model.Broker.
Import ListNotations.
Open Scope N_scope.

Lemma upd_length {A} (f : A -> A) : forall l i, length (upd i f l) = length l.
Proof. induction l as [|x l IH]; intros [|i]; cbn [upd length]; try reflexivity. rewrite IH. reflexivity. Qed.

Lemma nth_upd_eq {A} (f : A -> A) : forall l i x, nth_error l i = Some x -> nth_error (upd i f l) i = Some (f x).
Proof.
  induction l as [|y l IH]; intros [|i] x; cbn [upd nth_error]; try discriminate.
  - intros H; injection H as ->. reflexivity.
  - apply IH.
Qed.

Lemma nth_upd_neq {A} (f : A -> A) : forall l i j, i <> j -> nth_error (upd i f l) j = nth_error l j.
Proof.
  induction l as [|y l IH]; intros [|i] [|j] H; cbn [upd nth_error]; try reflexivity; try congruence.
  apply IH. congruence.
Qed.

Lemma nth_upd_inv {A} (f : A -> A) l i j y : nth_error (upd i f l) j = Some y ->
  (i = j /\ exists x, nth_error l i = Some x /\ y = f x) \/ (i <> j /\ nth_error l j = Some y).
Proof.
  intros H. destruct (Nat.eq_dec i j) as [->|Hne].
  - left. split; [reflexivity|]. destruct (nth_error l j) as [x|] eqn:E.
    + rewrite (nth_upd_eq f l j x E) in H. injection H as <-. exists x. split; reflexivity.
    + apply nth_error_lt in H. rewrite upd_length in H. apply nth_error_None in E. lia.
  - right. split; [exact Hne|]. rewrite nth_upd_neq in H by exact Hne. exact H.
Qed.

Lemma upd_ext {A} (f g : A -> A) : forall l i, (forall x, nth_error l i = Some x -> f x = g x) -> upd i f l = upd i g l.
Proof.
  induction l as [|y l IH]; intros [|i] H; cbn [upd]; try reflexivity.
  - rewrite (H y eq_refl). reflexivity.
  - rewrite (IH i); [reflexivity|]. exact H.
Qed.

Lemma upd_const {A} (f : A -> A) l i x : nth_error l i = Some x -> upd i f l = upd i (fun _ => f x) l.
Proof. intros H. apply upd_ext. intros y Hy. congruence. Qed.

Lemma upd_same {A} (f : A -> A) l i : (forall x, nth_error l i = Some x -> f x = x) -> upd i f l = l.
Proof.
  intros H. rewrite (upd_ext f (fun x => x)) by exact H. clear H. revert i.
  induction l as [|y l IH]; intros [|i]; cbn [upd]; try reflexivity. rewrite IH. reflexivity.
Qed.

Lemma map_upd {A B} (g : A -> B) (f : A -> A) (f' : B -> B) :
  (forall x, g (f x) = f' (g x)) -> forall l p, map g (upd p f l) = upd p f' (map g l).
Proof.
  intros H. induction l as [|x l IH]; intros [|p]; cbn [upd map]; try reflexivity.
  - rewrite H. reflexivity.
  - rewrite IH. reflexivity.
Qed.

Lemma map_upd_keep {A B} (g : A -> B) l p x y : nth_error l p = Some x -> g y = g x ->
  map g (upd p (fun _ => y) l) = map g l.
Proof.
  intros Hp E. rewrite (map_upd g _ (fun _ => g y)) by reflexivity. apply upd_same. intros z Hz.
  rewrite (map_nth_error g _ _ Hp) in Hz. congruence.
Qed.

Definition touched (s : state) (l : label) : option nat :=
  match l with
  | L_Poll _ _ _ _ | L_Install _ => None
  | L_Client _ _ _ ch => ch
  | L_Answer sd _ => lookup sd (idmap s)
  | L_FireW p | L_WTake p | L_WTimeoutCS p | L_RvOffer p | L_RvForward p | L_FireC p | L_CTake p
  | L_CCleanup p | L_RvAnswer p | L_AnswerPut p | L_CTakeAnswer p => Some p
  end.

Definition new_client (s : state) (n : natty) (ofp : option fpr) (o : offer) (u : url) : clrec :=
  {| c_id := next_cid s; c_nat := n; c_fp := fp_of ofp; c_offer := o; c_pc := C_Send; c_fired := false;
     c_url := u; c_epoch := length (br_hist s) |}.

Definition offer_of (c : clrec) : fwd_info := {| f_offer := c_offer c; f_nat := c_nat c; f_fp := c_fp c |}.

Definition forward_result (s : state) (f : fwd_info) : presp :=
  match lookup (f_fp f) (bridges s) with
  | Some u => PMatch {| m_offer := f_offer f; m_nat := f_nat f; m_url := u |}
  | None => PError
  end.

Definition w_receives (w : wpc) : bool := match w with W_Select | W_Late => true | _ => false end.
Definition buf_free (e : entry) : bool := match e_buf e with None => true | Some _ => false end.

(* [estep v s l e e']: label l, taken in state s, passes its guard on entry e and rewrites it to e'. The guards carry
   fixed names, which proofs by case analysis on an [estep] use: Hw the waiter's state, Hf a timer flag, Hh in the
   heap or not, Hc / Hpc the client and its program counter, Hs the queued sends, Hb the buffered answer, Hv the
   version a label belongs to. *)
Inductive estep (v : version) (s : state) : label -> entry -> entry -> Prop :=
| E_FireW p e (Hw : e_w e = W_Select) (Hf : e_wfired e = false) : estep v s (L_FireW p) e (set_wfired e)
| E_WTake p e (Hw : e_w e = W_Select) (Hf : e_wfired e = true) : estep v s (L_WTake p) e (set_w W_TimedOut e)
| E_WExpire p e (Hw : e_w e = W_TimedOut) (Hh : e_inheap e = true) :
    estep v s (L_WTimeoutCS p) e (set_w (W_Done PNoMatch) (set_heap_live false false e))
| E_WLate p e (Hw : e_w e = W_TimedOut) (Hh : e_inheap e = false) :
    estep v s (L_WTimeoutCS p) e (set_w (match v with V0 => W_Stuck | V1 => W_Late end) e)
| E_Client n ofp o p e u (Hu : lookup (fp_of ofp) (bridges s) = Some u) (Hel : eligible n e = true)
    (Hmin : is_min n (entries s) e = true) :
    estep v s (L_Client n ofp o (Some p)) e (set_cl (Some (new_client s n ofp o u)) (set_heap_live false (e_live e) e))
| E_RvOffer p e c (Hc : e_cl e = Some c) (Hpc : c_pc c = C_Send) (Hw : w_receives (e_w e) = true) :
    estep v s (L_RvOffer p) e (set_w (W_Forward (offer_of c)) (set_cl (Some (set_cpc C_Wait c)) e))
| E_RvForward p e f (Hw : e_w e = W_Forward f) : estep v s (L_RvForward p) e (set_w (W_Done (forward_result s f)) e)
| E_FireC p e c (Hc : e_cl e = Some c) (Hpc : c_pc c = C_Wait) (Hf : c_fired c = false) :
    estep v s (L_FireC p) e (set_cl (Some (set_cfired c)) e)
| E_CTake p e c (Hc : e_cl e = Some c) (Hpc : c_pc c = C_Wait) (Hf : c_fired c = true) :
    estep v s (L_CTake p) e (set_cl (Some (set_cpc (C_Cleanup CTimedOut) c)) e)
| E_CCleanup p e c r (Hc : e_cl e = Some c) (Hpc : c_pc c = C_Cleanup r) :
    estep v s (L_CCleanup p) e (set_cl (Some (set_cpc (C_Done r) c)) (set_heap_live (e_inheap e) false e))
| E_Answer sd a e : estep v s (L_Answer sd a) e (add_posted a (set_senders (e_senders e ++ [(next_aid s, a)]) e))
| E_RvAnswer p e aid a rest c (Hv : v = V0) (Hs : e_senders e = (aid, a) :: rest) (Hc : e_cl e = Some c)
    (Hpc : c_pc c = C_Wait) :
    estep v s (L_RvAnswer p) e (set_senders rest (set_cl (Some (set_cpc (C_Cleanup (CAnswer a)) c)) e))
| E_AnswerPut p e aid a rest (Hv : v = V1) (Hs : e_senders e = (aid, a) :: rest) :
    estep v s (L_AnswerPut p) e (set_senders rest (if buf_free e then set_buf (Some a) e else e))
| E_CTakeAnswer p e a c (Hv : v = V1) (Hb : e_buf e = Some a) (Hc : e_cl e = Some c) (Hpc : c_pc c = C_Wait) :
    estep v s (L_CTakeAnswer p) e (set_buf None (set_cl (Some (set_cpc (C_Cleanup (CAnswer a)) c)) e)).

(* the fields that do not depend on the entry touched *)
Record frame (s : state) (l : label) (s' : state) : Prop := {
  fr_bridges : bridges s' = match l with L_Install br => br | _ => bridges s end;
  fr_hist : br_hist s' = match l with L_Install br => br :: br_hist s | _ => br_hist s end;
  fr_cid : next_cid s' = match l with L_Client _ _ _ _ => S (next_cid s) | _ => next_cid s end;
  fr_log : answer_log s' = match l with L_Answer sd a => (next_aid s, sd, a) :: answer_log s | _ => answer_log s end;
  fr_done : done_clients s' =
            match l with
            | L_Client n ofp o None =>
                (next_cid s, n, fp_of ofp, o,
                 match lookup (fp_of ofp) (bridges s) with Some _ => CNoProxies | None => CBadFingerprint end) :: done_clients s
            | _ => done_clients s
            end
}.

(* the waiter's timeout critical section (when it finds the poll unclaimed) and the client's last critical section
   take the poll out of the id map and off the gauge *)
Definition unregisters (l : label) (e : entry) : bool :=
  match l with L_WTimeoutCS _ => e_inheap e | L_CCleanup _ => true | _ => false end.

Inductive step_spec (v : version) (s : state) (l : label) (s' : state) : Prop :=
| SS_poll sd n pt cl : l = L_Poll sd n pt cl ->
    entries s' = entries s ++ [new_entry sd n pt cl] ->
    idmap s' = set_key sd (length (entries s)) (idmap s) -> gauge s' = (gauge s + 1)%Z -> step_spec v s l s'
| SS_entry p e e' : touched s l = Some p -> nth_error (entries s) p = Some e -> estep v s l e e' ->
    entries s' = upd p (fun _ => e') (entries s) ->
    idmap s' = (if unregisters l e then remove_key (e_sid e) (idmap s) else idmap s) ->
    gauge s' = (if unregisters l e then gauge s - 1 else gauge s)%Z -> step_spec v s l s'
| SS_none : (forall sd n pt cl, l <> L_Poll sd n pt cl) ->
    (forall p, touched s l = Some p -> nth_error (entries s) p = None /\ exists sd a, l = L_Answer sd a) ->
    entries s' = entries s -> idmap s' = idmap s -> gauge s' = gauge s -> step_spec v s l s'.

Theorem step_inv v s l s' : step v s l = Some s' -> frame s l s' /\ step_spec v s l s'.
Proof.
  intros H.
  assert (Touch : forall p e s1 (f : entry -> entry), touched s l = Some p -> nth_error (entries s) p = Some e ->
            entries s1 = upd p f (entries s) -> estep v s l e (f e) ->
            idmap s1 = (if unregisters l e then remove_key (e_sid e) (idmap s) else idmap s) ->
            gauge s1 = (if unregisters l e then gauge s - 1 else gauge s)%Z -> step_spec v s l s1).
  { intros p e s1 f Ht Hp Hes He Hi Hg. apply (SS_entry v s l s1 p e (f e)); try assumption.
    rewrite Hes. apply upd_const. exact Hp. }
  destruct l; cbn [step] in H.
  - injection H as <-. split; [constructor; reflexivity|]. eapply SS_poll; reflexivity.
  - destruct (nth_error (entries s) p) as [e|] eqn:Hp; [|discriminate].
    destruct (e_w e) eqn:Ew; try discriminate. destruct (e_wfired e) eqn:Ef; [discriminate|]. injection H as <-.
    split; [constructor; reflexivity|]. eapply Touch; [reflexivity | exact Hp | reflexivity | apply E_FireW; assumption | reflexivity..].
  - destruct (nth_error (entries s) p) as [e|] eqn:Hp; [|discriminate].
    destruct (e_w e) eqn:Ew; try discriminate. destruct (e_wfired e) eqn:Ef; [|discriminate]. injection H as <-.
    split; [constructor; reflexivity|]. eapply Touch; [reflexivity | exact Hp | reflexivity | apply E_WTake; assumption | reflexivity..].
  - destruct (nth_error (entries s) p) as [e|] eqn:Hp; [|discriminate].
    destruct (e_w e) eqn:Ew; try discriminate. destruct (e_inheap e) eqn:Eh; injection H as <-.
    + split; [constructor; reflexivity|].
      eapply Touch; [reflexivity | exact Hp | reflexivity | apply E_WExpire; assumption |
                     cbn [unregisters idmap gauge]; rewrite Eh; reflexivity..].
    + split; [constructor; reflexivity|].
      eapply Touch; [reflexivity | exact Hp | reflexivity | apply E_WLate; assumption |
                     cbn [unregisters idmap gauge with_entries]; rewrite Eh; reflexivity..].
  - destruct (lookup (fp_of ofp) (bridges s)) as [u|] eqn:Hl.
    + destruct choice as [p|].
      * destruct (nth_error (entries s) p) as [e|] eqn:Hp; [|discriminate].
        destruct (eligible n e && is_min n (entries s) e) eqn:Hel; [|discriminate]. injection H as <-.
        apply andb_prop in Hel. destruct Hel as [Hel Hmin].
        split; [constructor; reflexivity|].
        eapply Touch; [reflexivity | exact Hp | reflexivity | apply (E_Client v s n ofp o p e u); assumption | reflexivity..].
      * destruct (pool_empty n (entries s)); [|discriminate]. injection H as <-.
        split; [constructor; cbn; rewrite ?Hl; reflexivity|]. apply SS_none; [discriminate | discriminate | reflexivity..].
    + destruct choice; [discriminate|]. injection H as <-.
      split; [constructor; cbn; rewrite ?Hl; reflexivity|]. apply SS_none; [discriminate | discriminate | reflexivity..].
  - destruct (nth_error (entries s) p) as [e|] eqn:Hp; [|discriminate].
    destruct (e_cl e) as [c|] eqn:Hc; [|discriminate]. destruct (c_pc c) eqn:Hpc; try discriminate.
    destruct (match e_w e with W_Select | W_Late => true | _ => false end) eqn:Hw; [|discriminate]. injection H as <-.
    split; [constructor; reflexivity|].
    eapply Touch; [reflexivity | exact Hp | reflexivity | apply (E_RvOffer v s p e c); assumption | reflexivity..].
  - destruct (nth_error (entries s) p) as [e|] eqn:Hp; [|discriminate].
    destruct (e_w e) eqn:Ew; try discriminate. injection H as <-.
    split; [constructor; reflexivity|].
    eapply Touch; [reflexivity | exact Hp | reflexivity | apply E_RvForward; eassumption | reflexivity..].
  - destruct (nth_error (entries s) p) as [e|] eqn:Hp; [|discriminate].
    destruct (e_cl e) as [c|] eqn:Hc; [|discriminate]. destruct (c_pc c) eqn:Hpc; try discriminate.
    destruct (c_fired c) eqn:Hf; [discriminate|]. injection H as <-.
    split; [constructor; reflexivity|].
    eapply Touch; [reflexivity | exact Hp | reflexivity | apply (E_FireC v s p e c); assumption | reflexivity..].
  - destruct (nth_error (entries s) p) as [e|] eqn:Hp; [|discriminate].
    destruct (e_cl e) as [c|] eqn:Hc; [|discriminate]. destruct (c_pc c) eqn:Hpc; try discriminate.
    destruct (c_fired c) eqn:Hf; [|discriminate]. injection H as <-.
    split; [constructor; reflexivity|].
    eapply Touch; [reflexivity | exact Hp | reflexivity | apply (E_CTake v s p e c); assumption | reflexivity..].
  - destruct (nth_error (entries s) p) as [e|] eqn:Hp; [|discriminate].
    destruct (e_cl e) as [c|] eqn:Hc; [|discriminate]. destruct (c_pc c) eqn:Hpc; try discriminate. injection H as <-.
    split; [constructor; reflexivity|].
    eapply Touch; [reflexivity | exact Hp | reflexivity | apply (E_CCleanup v s p e c r); assumption | reflexivity..].
  - destruct (lookup s0 (idmap s)) as [p|] eqn:Hl; injection H as <-.
    + split; [constructor; reflexivity|]. destruct (nth_error (entries s) p) as [e|] eqn:Hp.
      * eapply Touch; [exact Hl | exact Hp | reflexivity | apply E_Answer | reflexivity..].
      * apply SS_none; [discriminate | cbn [touched]; intros q Hq; split; [congruence | eauto] | | reflexivity..].
        cbn [entries]. apply upd_same. intros x Hx. congruence.
    + split; [constructor; reflexivity|]. apply SS_none; [discriminate | cbn [touched]; congruence | reflexivity..].
  - destruct v; [|discriminate]. destruct (nth_error (entries s) p) as [e|] eqn:Hp; [|discriminate].
    destruct (e_senders e) as [|[aid a0] rest] eqn:Hs; [discriminate|].
    destruct (e_cl e) as [c|] eqn:Hc; [|discriminate]. destruct (c_pc c) eqn:Hpc; try discriminate. injection H as <-.
    split; [constructor; reflexivity|].
    eapply Touch; [reflexivity | exact Hp | reflexivity | eapply E_RvAnswer; eauto | reflexivity..].
  - destruct v; [discriminate|]. destruct (nth_error (entries s) p) as [e|] eqn:Hp; [|discriminate].
    destruct (e_senders e) as [|[aid a0] rest] eqn:Hs; [discriminate|]. injection H as <-.
    split; [constructor; reflexivity|].
    eapply Touch; [reflexivity | exact Hp | reflexivity | eapply E_AnswerPut; eauto | reflexivity..].
  - destruct v; [discriminate|]. destruct (nth_error (entries s) p) as [e|] eqn:Hp; [|discriminate].
    destruct (e_buf e) as [a0|] eqn:Hb; [|discriminate].
    destruct (e_cl e) as [c|] eqn:Hc; [|discriminate]. destruct (c_pc c) eqn:Hpc; try discriminate. injection H as <-.
    split; [constructor; reflexivity|].
    eapply Touch; [reflexivity | exact Hp | reflexivity | eapply E_CTakeAnswer; eauto | reflexivity..].
  - injection H as <-. split; [constructor; reflexivity|]. apply SS_none; [discriminate | discriminate | reflexivity..].
Qed.

Lemma step_entry_fwd v s l s' q e : step v s l = Some s' -> nth_error (entries s) q = Some e ->
  exists e', nth_error (entries s') q = Some e' /\
    (touched s l <> Some q /\ e' = e \/ touched s l = Some q /\ estep v s l e e').
Proof.
  intros H Hq. destruct (step_inv v s l s' H) as [_ [sd n pt cl -> Hes _ _ | p e0 e1 Ht Hp He Hes _ _ | _ Hno Hes _ _]].
  - exists e. split; [|left; split; [discriminate | reflexivity]].
    rewrite Hes, nth_error_app1; [exact Hq | eapply nth_error_lt; exact Hq].
  - rewrite Hes, Ht. destruct (Nat.eq_dec p q) as [->|Hne].
    + exists e1. rewrite (nth_upd_eq _ _ _ _ Hq). split; [reflexivity|]. right. split; [reflexivity | congruence].
    + exists e. rewrite nth_upd_neq by exact Hne. split; [exact Hq|]. left. split; [congruence | reflexivity].
  - exists e. rewrite Hes. split; [exact Hq|]. left. split; [|reflexivity]. intros Ht. destruct (Hno q Ht). congruence.
Qed.

Lemma step_entry_bwd v s l s' q e' : step v s l = Some s' -> nth_error (entries s') q = Some e' ->
  (nth_error (entries s) q = None /\ exists sd n pt cl, l = L_Poll sd n pt cl /\ e' = new_entry sd n pt cl) \/
  exists e, nth_error (entries s) q = Some e /\
    (touched s l <> Some q /\ e' = e \/ touched s l = Some q /\ estep v s l e e').
Proof.
  intros H Hq. destruct (nth_error (entries s) q) as [e|] eqn:He.
  - right. exists e. split; [reflexivity|]. destruct (step_entry_fwd v s l s' q e H He) as [e1 [H1 D]]. congruence.
  - left. split; [reflexivity|].
    destruct (step_inv v s l s' H) as [_ [sd n pt cl -> Hes _ _ | p e0 e1 Ht Hp _ Hes _ _ | _ _ Hes _ _]].
    + rewrite Hes in Hq. destruct (nth_error_snoc _ _ _ _ Hq) as [Ho|[_ ->]]; [congruence|]. repeat eexists.
    + apply nth_error_lt in Hq. rewrite Hes, upd_length in Hq. apply nth_error_None in He. lia.
    + congruence.
Qed.

(* an accepted client request: the one [estep] with its label, and where its result sits *)
Lemma client_step_inv v s n ofp o p s' : step v s (L_Client n ofp o (Some p)) = Some s' ->
  exists e u, nth_error (entries s) p = Some e /\ lookup (fp_of ofp) (bridges s) = Some u /\
    eligible n e = true /\ is_min n (entries s) e = true /\
    nth_error (entries s') p = Some (set_cl (Some (new_client s n ofp o u)) (set_heap_live false (e_live e) e)).
Proof.
  intros H. destruct (step_inv v s _ s' H) as [_ [sd n0 pt cl E _ _ _ | q e e' Ht Hq He Hes _ _ | _ Hno _ _ _]].
  - discriminate.
  - cbn [touched] in Ht. injection Ht as <-. inversion He; subst. exists e, u.
    rewrite Hes, (nth_upd_eq _ _ _ _ Hq). repeat split; assumption.
  - destruct (Hno p eq_refl) as [_ [sd [a E]]]. discriminate.
Qed.

Lemma step_keeps v (P : entry -> Prop) : (forall s l e e', estep v s l e e' -> P e -> P e') ->
  forall s l s' p e, step v s l = Some s' -> nth_error (entries s) p = Some e -> P e ->
  exists e', nth_error (entries s') p = Some e' /\ P e'.
Proof.
  intros HP s l s' p e H Hp He. destruct (step_entry_fwd v s l s' p e H Hp) as [e' [Hp' D]].
  exists e'. split; [exact Hp'|]. destruct D as [[_ ->]|[_ Hes]]; [exact He | eapply HP; eassumption].
Qed.

(* the guards of [estep] are the guards of [step] *)
Lemma step_enabled v s l p e e' : nth_error (entries s) p = Some e -> touched s l = Some p -> estep v s l e e' ->
  step v s l <> None.
Proof.
  intros Hp Ht He. destruct He; cbn [touched] in Ht; try (injection Ht as ->); subst; cbn [step].
  - rewrite Hp, Hw, Hf. discriminate.
  - rewrite Hp, Hw, Hf. discriminate.
  - rewrite Hp, Hw, Hh. discriminate.
  - rewrite Hp, Hw, Hh. discriminate.
  - rewrite Hu, Hp, Hel, Hmin. discriminate.
  - rewrite Hp, Hc, Hpc. fold (w_receives (e_w e)). rewrite Hw. discriminate.
  - rewrite Hp, Hw. discriminate.
  - rewrite Hp, Hc, Hpc, Hf. discriminate.
  - rewrite Hp, Hc, Hpc, Hf. discriminate.
  - rewrite Hp, Hc, Hpc. discriminate.
  - rewrite Ht. discriminate.
  - rewrite Hp, Hs, Hc, Hpc. discriminate.
  - rewrite Hp, Hs. discriminate.
  - rewrite Hp, Hb, Hc, Hpc. discriminate.
Qed.

Lemma step_len v s l s' : step v s l = Some s' -> (length (entries s) <= length (entries s'))%nat.
Proof.
  intros H. destruct (step_inv v s l s' H) as [_ [sd n pt cl _ -> _ _ | p e0 e1 _ _ _ -> _ _ | _ _ -> _ _]];
    rewrite ?app_length, ?upd_length; lia.
Qed.

Lemma touched_exists v s l s' p : step v s l = Some s' -> touched s l = Some p ->
  (forall sd a, l <> L_Answer sd a) -> nth_error (entries s) p <> None.
Proof.
  intros H Ht Hna. destruct (step_inv v s l s' H) as [_ [sd n pt cl -> _ _ _ | p0 e0 e1 Ht0 Hp _ _ _ _ | _ Hno _ _ _]].
  - discriminate.
  - congruence.
  - destruct (Hno p Ht) as [_ [sd [a E]]]. elim (Hna sd a E).
Qed.

Lemma run_app v : forall a b s, run v s (a ++ b) = match run v s a with Some s1 => run v s1 b | None => None end.
Proof.
  induction a as [|l a IH]; intros b s; cbn [app run]; [reflexivity|].
  destruct (step v s l); [apply IH | reflexivity].
Qed.

Lemma run_snoc v s ls l s1 s' : run v s ls = Some s1 -> step v s1 l = Some s' -> run v s (ls ++ [l]) = Some s'.
Proof. intros H Hs. rewrite run_app, H. cbn [run]. rewrite Hs. reflexivity. Qed.

Lemma run_ind v (Q : state -> list label -> state -> Prop) :
  (forall s, Q s [] s) ->
  (forall s l s1 ls s', step v s l = Some s1 -> run v s1 ls = Some s' -> Q s1 ls s' -> Q s (l :: ls) s') ->
  forall ls s s', run v s ls = Some s' -> Q s ls s'.
Proof.
  intros Q0 QS. induction ls as [|l ls IH]; intros s s' H; cbn [run] in H.
  - injection H as <-. apply Q0.
  - destruct (step v s l) as [s1|] eqn:Hs; [|discriminate]. eapply QS; [exact Hs | exact H | apply IH; exact H].
Qed.

Lemma run_ind_snoc v s0 (Q : list label -> state -> Prop) :
  Q [] s0 ->
  (forall ls s l s', run v s0 ls = Some s -> Q ls s -> step v s l = Some s' -> Q (ls ++ [l]) s') ->
  forall ls s, run v s0 ls = Some s -> Q ls s.
Proof.
  intros Q0 QS ls. induction ls as [|l ls IH] using rev_ind; intros s H.
  - injection H as <-. exact Q0.
  - rewrite run_app in H. destruct (run v s0 ls) as [s1|] eqn:H1; [|discriminate]. cbn [run] in H.
    destruct (step v s1 l) as [s2|] eqn:Hs; [|discriminate]. injection H as <-.
    eapply QS; [exact H1 | apply IH; reflexivity | exact Hs].
Qed.

Lemma run_keeps v (P : entry -> Prop) (Pres : forall s l s' p e, step v s l = Some s' ->
    nth_error (entries s) p = Some e -> P e -> exists e', nth_error (entries s') p = Some e' /\ P e') :
  forall ls s s' p e, run v s ls = Some s' -> nth_error (entries s) p = Some e -> P e ->
  exists e', nth_error (entries s') p = Some e' /\ P e'.
Proof.
  intros ls s s' p e H. revert ls s s' H e.
  apply (run_ind v (fun s _ s' => forall e, nth_error (entries s) p = Some e -> P e ->
    exists e', nth_error (entries s') p = Some e' /\ P e')).
  - intros s e Hp HP. exists e. split; assumption.
  - intros s l s1 ls s' Hs _ IH e Hp HP. destruct (Pres s l s1 p e Hs Hp HP) as [e1 [Hp1 HP1]]. eapply IH; eassumption.
Qed.
