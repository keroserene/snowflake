(* ServerAcceptProofs.v — proofs about Model/ServerAccept.v (the accept loop as an interleaving
   machine): for every schedule, every connection of session i carries the address looked up for
   the ClientID of session i; never another session's. *)
From Coq Require Import List NArith Bool Arith Lia.
From Snow Require Import Lib.ListFacts Model.ClientAddr Model.ServerCarrier
                         Model.ServerAccept Proofs.ClientIdProofs.
Import ListNotations.
Open Scope nat_scope.

Lemma nth_error_supd : forall l k x k',
  nth_error (supd l k x) k' =
  if Nat.eqb k' k then match nth_error l k with Some _ => Some x | None => None end else nth_error l k'.
Proof.
  induction l as [| h t IH]; intros k x k'.
  - destruct k, k'; cbn; try reflexivity. destruct (Nat.eqb k' k); reflexivity.
  - destruct k as [| k]; destruct k' as [| k']; cbn [supd nth_error Nat.eqb]; try reflexivity.
    apply IH.
Qed.

Lemma supd_length : forall l k x, length (supd l k x) = length l.
Proof.
  induction l as [| h t IH]; intros k x; [reflexivity |].
  destruct k; cbn [supd length]; [reflexivity | rewrite IH; reflexivity].
Qed.

Lemma map_cid_supd : forall l k x s, nth_error l k = Some s -> s_cid x = s_cid s ->
  map s_cid (supd l k x) = map s_cid l.
Proof.
  induction l as [| h t IH]; intros k x s H E; [reflexivity |].
  destruct k as [| k]; cbn [supd map nth_error] in *.
  - inversion H; subst. rewrite E. reflexivity.
  - f_equal. eapply IH; eauto.
Qed.

Lemma nth_error_app_some : forall A (l l' : list A) i y, nth_error l i = Some y -> nth_error (l ++ l') i = Some y.
Proof.
  intros A l l' i y H. rewrite nth_error_app1; [exact H | eapply nth_error_lt, H].
Qed.

Lemma accepted_app : forall a b, accepted (a ++ b) = accepted a ++ accepted b.
Proof.
  induction a as [| [c p | c | i | i] a IH]; intros b; cbn [app accepted]; try apply IH.
  - reflexivity.
  - rewrite IH. reflexivity.
Qed.

Lemma carriers_of_app : forall a b, carriers_of (a ++ b) = carriers_of a ++ carriers_of b.
Proof.
  induction a as [| [c p | c | i | i] a IH]; intros b; cbn [app carriers_of]; try apply IH.
  - reflexivity.
  - rewrite IH. reflexivity.
Qed.

Lemma carriers_of_none : forall l, forallb no_carrier l = true -> carriers_of l = [].
Proof.
  induction l as [| [c p | c | i | i] l IH]; intro H; cbn [forallb no_carrier carriers_of andb] in *;
    try discriminate; try (apply IH; exact H). reflexivity.
Qed.

Lemma carriers_of_in : forall l c p, In (Carrier c p) (carriers_of l) -> In (LCarrier c p) l.
Proof.
  induction l as [| [c0 p0 | c0 | i | i] l IH]; intros c p H; cbn [carriers_of In] in *;
    try (right; apply IH; exact H).
  - destruct H.
  - destruct H as [E | H]; [inversion E; subst; left; reflexivity | right; apply IH; exact H].
Qed.

Lemma afinal_app : forall sh st a b, afinal sh st (a ++ b) = afinal sh (afinal sh st a) b.
Proof. intros. unfold afinal. apply fold_left_app. Qed.

Lemma afinal_snoc : forall sh st a l, afinal sh st (a ++ [l]) = astep sh (afinal sh st a) l.
Proof. intros. rewrite afinal_app. reflexivity. Qed.

Lemma aconns_app : forall sh a st b, aconns sh st (a ++ b) = aconns sh st a ++ aconns sh (afinal sh st a) b.
Proof.
  intros sh a. induction a as [| l a IH]; intros st b; [reflexivity |].
  cbn [app aconns]. change (afinal sh st (l :: a)) with (afinal sh (astep sh st l) a).
  destruct (aout st l); rewrite IH; reflexivity.
Qed.

Lemma ring_step : forall sh st l,
  a_ring (astep sh st l) = match l with LCarrier c p => carrier_step (a_ring st) c p | _ => a_ring st end.
Proof.
  intros sh st [c p | c | i | i]; cbn [astep]; try reflexivity.
  - destruct sh; reflexivity.
  - destruct (nth_error (a_sess st) i); reflexivity.
Qed.

Lemma ring_final : forall sh evs st,
  a_ring (afinal sh st evs) = fold_left ev_step (carriers_of evs) (a_ring st).
Proof.
  intros sh evs. induction evs as [| l evs IH]; intro st; [reflexivity |].
  change (afinal sh st (l :: evs)) with (afinal sh (astep sh st l) evs). rewrite IH, ring_step.
  destruct l; reflexivity.
Qed.

Lemma ring_final_init : forall sh cap evs,
  a_ring (afinal sh (ainit cap) evs) = state_after cap (carriers_of evs).
Proof. intros. rewrite ring_final. reflexivity. Qed.

Lemma sess_start_cid : forall sh st s, s_cid (sess_start sh st s) = s_cid s.
Proof. intros sh st s. unfold sess_start. destruct (s_local s); reflexivity. Qed.

Lemma cids_step : forall sh st l,
  map s_cid (a_sess (astep sh st l)) = map s_cid (a_sess st) ++ accepted [l].
Proof.
  intros sh st [c p | c | i | i]; cbn [astep accepted].
  - rewrite app_nil_r. reflexivity.
  - destruct sh; cbn [a_sess]; rewrite map_app; reflexivity.
  - rewrite app_nil_r. destruct (nth_error (a_sess st) i) as [s |] eqn:E; [| reflexivity].
    cbn [a_sess]. eapply map_cid_supd; [exact E | apply sess_start_cid].
  - rewrite app_nil_r. reflexivity.
Qed.

Lemma cids_final : forall sh evs st,
  map s_cid (a_sess (afinal sh st evs)) = map s_cid (a_sess st) ++ accepted evs.
Proof.
  intros sh evs. induction evs as [| l evs IH]; intro st; [cbn; rewrite app_nil_r; reflexivity |].
  change (afinal sh st (l :: evs)) with (afinal sh (astep sh st l) evs). rewrite IH, cids_step.
  rewrite <- app_assoc. change (l :: evs) with ([l] ++ evs). rewrite accepted_app. reflexivity.
Qed.

Lemma cids_final_init : forall sh cap evs, map s_cid (a_sess (afinal sh (ainit cap) evs)) = accepted evs.
Proof. intros. rewrite cids_final. reflexivity. Qed.

Lemma sess_cid_accepted : forall sh cap evs i s,
  nth_error (a_sess (afinal sh (ainit cap) evs)) i = Some s -> nth_error (accepted evs) i = Some (s_cid s).
Proof.
  intros sh cap evs i s H. rewrite <- (cids_final_init sh cap evs). apply map_nth_error. exact H.
Qed.

(* once the goroutine of a session has its address, no step changes it *)
Lemma local_stable_step : forall sh st l i s a,
  nth_error (a_sess st) i = Some s -> s_local s = Some a ->
  exists s', nth_error (a_sess (astep sh st l)) i = Some s' /\ s_local s' = Some a.
Proof.
  intros sh st [c p | c | j | j] i s a H L; cbn [astep].
  - exists s. split; assumption.
  - exists s. split; [| exact L]. destruct sh; cbn [a_sess]; apply nth_error_app_some; exact H.
  - destruct (nth_error (a_sess st) j) as [sj |] eqn:E; [| exists s; split; assumption].
    cbn [a_sess]. rewrite nth_error_supd. destruct (Nat.eqb i j) eqn:Eij.
    + apply Nat.eqb_eq in Eij. subst j. rewrite E. rewrite H in E. inversion E; subst sj.
      exists (sess_start sh st s). split; [reflexivity |]. unfold sess_start. rewrite L. exact L.
    + exists s. split; assumption.
  - exists s. split; assumption.
Qed.

Lemma local_stable : forall sh evs st i s a,
  nth_error (a_sess st) i = Some s -> s_local s = Some a ->
  exists s', nth_error (a_sess (afinal sh st evs)) i = Some s' /\ s_local s' = Some a.
Proof.
  intros sh evs. induction evs as [| l evs IH]; intros st i s a H L.
  - exists s. split; assumption.
  - change (afinal sh st (l :: evs)) with (afinal sh (astep sh st l) evs).
    destruct (local_stable_step sh st l i s a H L) as (s' & H' & L'). eapply IH; eauto.
Qed.

(* where the record of session i after a step comes from: it was there, or it is the one the accept
   just appended (nothing bound in its goroutine yet), or its goroutine just started *)
Lemma astep_sess : forall sh st l i s, nth_error (a_sess (astep sh st l)) i = Some s ->
  nth_error (a_sess st) i = Some s \/
  (exists cid, l = LAccept cid /\ i = length (a_sess st) /\ s_cid s = cid /\ s_local s = None /\
               s_bound s = match sh with AtAcceptOwn => Some (accept (a_ring st) cid) | _ => None end) \/
  (exists s0, l = LStart i /\ nth_error (a_sess st) i = Some s0 /\ s_local s0 = None /\ s = sess_start sh st s0).
Proof.
  intros sh st [c p | c | j | j] i s N; cbn [astep] in N; auto.
  - assert (N' : nth_error (a_sess st ++ [mksess c (match sh with AtAcceptOwn => Some (accept (a_ring st) c) | _ => None end) None]) i = Some s)
      by (destruct sh; exact N).
    apply nth_error_snoc in N'. destruct N' as [N' | [-> ->]]; [left; exact N'|].
    right. left. exists c. auto.
  - destruct (nth_error (a_sess st) j) as [sj |] eqn:Ej; [|left; exact N].
    cbn [a_sess] in N. rewrite nth_error_supd in N. destruct (Nat.eqb_spec i j) as [->|]; [|left; exact N].
    rewrite Ej in N. injection N as <-. destruct (s_local sj) eqn:L0.
    + left. unfold sess_start. rewrite L0. exact Ej.
    + right. right. exists sj. auto.
Qed.

(* a connection is handed out by an LStream step of a session whose goroutine has its address *)
Lemma aconns_in : forall sh evs st i a,
  In (i, a) (aconns sh st evs) ->
  exists pre post s, evs = pre ++ LStream i :: post /\
    nth_error (a_sess (afinal sh st pre)) i = Some s /\ s_local s = Some a.
Proof.
  intros sh evs. induction evs as [| l evs IH]; intros st i a H; [destruct H |].
  cbn [aconns] in H.
  assert (Rest: In (i, a) (aconns sh (astep sh st l) evs) ->
                exists pre post s, l :: evs = pre ++ LStream i :: post /\
                  nth_error (a_sess (afinal sh st pre)) i = Some s /\ s_local s = Some a).
  { intro H'. destruct (IH _ _ _ H') as (pre & post & s & E & N & L).
    exists (l :: pre), post, s. split; [rewrite E; reflexivity |]. split; [exact N | exact L]. }
  destruct (aout st l) as [c |] eqn:O; [| apply Rest; exact H].
  destruct H as [E | H]; [| apply Rest; exact H].
  subst c. destruct l as [c p | c | j | j]; cbn [aout] in O; try discriminate.
  destruct (nth_error (a_sess st) j) as [s |] eqn:N; [| discriminate].
  destruct (s_local s) as [a' |] eqn:L; [| discriminate]. inversion O; subst j a'.
  exists [], evs, s. split; [reflexivity |]. split; [exact N | exact L].
Qed.

(* ... and its address is what the session's goroutine holds at the end of the schedule *)
Lemma aconns_final : forall sh evs st i a,
  In (i, a) (aconns sh st evs) ->
  exists s, nth_error (a_sess (afinal sh st evs)) i = Some s /\ s_local s = Some a.
Proof.
  intros sh evs st i a H. destruct (aconns_in sh evs st i a H) as (pre & post & s & E & N & L).
  subst evs. rewrite afinal_app. eapply local_stable; eauto.
Qed.

Definition prov_goroutine (cap : nat) (evs : list alabel) (i : nat) (cid : N) (a : addr) : Prop :=
  exists pre post, evs = pre ++ LStart i :: post /\ nth_error (accepted pre) i = Some cid /\
                   a = accept (state_after cap (carriers_of pre)) cid.

Lemma prov_goroutine_snoc : forall cap evs l i cid a,
  prov_goroutine cap evs i cid a -> prov_goroutine cap (evs ++ [l]) i cid a.
Proof.
  intros cap evs l i cid a (pre & post & E & N & A). exists pre, (post ++ [l]).
  split; [rewrite E, <- app_assoc; reflexivity |]. split; assumption.
Qed.

Lemma local_prov_goroutine : forall cap evs i s a,
  nth_error (a_sess (afinal InGoroutine (ainit cap) evs)) i = Some s -> s_local s = Some a ->
  prov_goroutine cap evs i (s_cid s) a.
Proof.
  intros cap evs. induction evs as [| l evs IH] using rev_ind; intros i s a N L.
  - destruct i; discriminate.
  - rewrite afinal_snoc in N.
    destruct (astep_sess _ _ _ _ _ N) as [N0 | [(c & _ & _ & _ & L0 & _) | (s0 & -> & N0 & L0 & ->)]].
    + apply prov_goroutine_snoc. apply IH; assumption.
    + congruence.
    + unfold sess_start in L |- *. rewrite L0 in L |- *. cbn [s_local s_cid] in *. injection L as <-.
      exists evs, []. split; [reflexivity |]. split; [eapply sess_cid_accepted, N0 | rewrite ring_final_init; reflexivity].
Qed.

(* pinned shape, all schedules: a connection of session i carries the address looked up for the
   ClientID of session i in the map as it was when the goroutine of session i started *)
Theorem sched_attribution : forall cap evs i a,
  In (i, a) (sched_conns InGoroutine cap evs) ->
  exists pre post cid, evs = pre ++ LStart i :: post /\ nth_error (accepted pre) i = Some cid /\
    nth_error (accepted evs) i = Some cid /\
    a = accept (state_after cap (carriers_of pre)) cid /\
    a = spec_attr cap (carriers_rev (carriers_of pre)) cid.
Proof.
  intros cap evs i a H. destruct (aconns_final _ _ _ _ _ H) as (s & N & L).
  destruct (local_prov_goroutine cap evs i s a N L) as (pre & post & E & Na & A).
  exists pre, post, (s_cid s). split; [exact E |]. split; [exact Na |].
  split; [eapply sess_cid_accepted; exact N |]. split; [exact A |]. rewrite A. apply attribution_spec.
Qed.

(* an address looked up after the carriers of a prefix of the schedule is empty or was presented, in that
   prefix, under the same ClientID *)
Lemma lookup_never_foreign : forall cap pre post cid,
  let a := accept (state_after cap (carriers_of pre)) cid in
  a = AStr [] \/ exists p, In (LCarrier cid p) (pre ++ post) /\ a = AStr (sanitise p).
Proof.
  intros cap pre post cid. destruct (never_foreign cap (carriers_of pre) cid) as [Z | (p & I & Z)]; [left; exact Z|].
  right. exists p. split; [|exact Z]. apply in_or_app. left. apply carriers_of_in, I.
Qed.

Definition prov_accept (cap : nat) (evs : list alabel) (i : nat) (cid : N) (a : addr) : Prop :=
  exists pre post, evs = pre ++ LAccept cid :: post /\ length (accepted pre) = i /\
                   a = accept (state_after cap (carriers_of pre)) cid.

Lemma prov_accept_snoc : forall cap evs l i cid a,
  prov_accept cap evs i cid a -> prov_accept cap (evs ++ [l]) i cid a.
Proof.
  intros cap evs l i cid a (pre & post & E & N & A). exists pre, (post ++ [l]).
  split; [rewrite E, <- app_assoc; reflexivity |]. split; assumption.
Qed.

Lemma bound_prov_accept : forall cap evs i s,
  nth_error (a_sess (afinal AtAcceptOwn (ainit cap) evs)) i = Some s ->
  (exists a, s_bound s = Some a /\ prov_accept cap evs i (s_cid s) a) /\
  (forall a, s_local s = Some a -> s_bound s = Some a).
Proof.
  intros cap evs. induction evs as [| l evs IH] using rev_ind; intros i s N.
  - destruct i; discriminate.
  - rewrite afinal_snoc in N.
    assert (Keep: forall s, nth_error (a_sess (afinal AtAcceptOwn (ainit cap) evs)) i = Some s ->
                  (exists a, s_bound s = Some a /\ prov_accept cap (evs ++ [l]) i (s_cid s) a) /\
                  (forall a, s_local s = Some a -> s_bound s = Some a)).
    { intros s' N0. destruct (IH i s' N0) as ((a & B & P) & Lo). split; [| exact Lo].
      exists a. split; [exact B | apply prov_accept_snoc; exact P]. }
    destruct (astep_sess _ _ _ _ _ N) as [N0 | [(c & -> & -> & <- & L0 & B) | (s0 & -> & N0 & L0 & ->)]].
    + apply Keep, N0.
    + split; [| congruence]. eexists. split; [exact B |]. exists evs, []. split; [reflexivity |]. split.
      * rewrite <- (cids_final_init AtAcceptOwn cap evs), map_length. reflexivity.
      * rewrite ring_final_init. reflexivity.
    + destruct (Keep _ N0) as (P & _). unfold sess_start. rewrite L0. cbn [s_bound s_cid s_local]. auto.
Qed.

Theorem sched_attribution_own : forall cap evs i a,
  In (i, a) (sched_conns AtAcceptOwn cap evs) ->
  exists pre post cid, evs = pre ++ LAccept cid :: post /\ length (accepted pre) = i /\
    a = accept (state_after cap (carriers_of pre)) cid /\
    a = spec_attr cap (carriers_rev (carriers_of pre)) cid.
Proof.
  intros cap evs i a H. destruct (aconns_final _ _ _ _ _ H) as (s & N & L).
  destruct (bound_prov_accept cap evs i s N) as ((a' & B & (pre & post & E & Len & A)) & Lo).
  apply Lo in L. rewrite L in B. injection B as B'. rewrite <- B' in A.
  exists pre, post, (s_cid s). split; [exact E |]. split; [exact Len |]. split; [exact A |].
  rewrite A. apply attribution_spec.
Qed.

(* pinned shape: in a schedule pre ++ burst whose part `burst` contains no carrier (any accepts, starts
   in any order, streams), every connection of a session accepted in `burst` carries the address its
   ClientID had in the map at the end of pre *)
Theorem sched_burst_order_irrelevant : forall cap pre burst i a,
  forallb no_carrier burst = true -> length (accepted pre) <= i ->
  In (i, a) (sched_conns InGoroutine cap (pre ++ burst)) ->
  exists cid, nth_error (accepted (pre ++ burst)) i = Some cid /\
    a = accept (state_after cap (carriers_of pre)) cid /\
    a = spec_attr cap (carriers_rev (carriers_of pre)) cid.
Proof.
  intros cap pre burst i a NC Le H.
  destruct (sched_attribution cap _ i a H) as (pre' & post' & cid & E & Na & N & A & _).
  exists cid. split; [exact N |].
  assert (C: carriers_of pre' = carriers_of pre).
  { apply app_eq_app in E. destruct E as (l & [[E1 E2] | [E1 E2]]).
    - (* pre' is a prefix of pre: then session i is not yet accepted in pre' *)
      exfalso. assert (X: i < length (accepted pre')) by (apply nth_error_Some; rewrite Na; discriminate).
      rewrite E1, accepted_app, app_length in Le. lia.
    - rewrite E1, carriers_of_app. rewrite (carriers_of_none l); [apply app_nil_r |].
      rewrite E2 in NC. rewrite forallb_app in NC. apply andb_true_iff in NC. apply NC. }
  rewrite C in A. split; [exact A |]. rewrite A. apply attribution_spec.
Qed.

Lemma expand_refines : forall evs r shv sess asess,
  map s_local asess = map (@Some addr) sess ->
  conns accept r sess evs = aconns InGoroutine (mkast r shv asess) (expand (length sess) evs).
Proof.
  induction evs as [| [cid p | cid | k] evs IH]; intros r shv sess asess M.
  - reflexivity.
  - cbn [conns expand aconns aout astep a_ring a_shared a_sess]. apply IH. exact M.
  - assert (Len: length asess = length sess).
    { rewrite <- (map_length s_local asess), M, map_length. reflexivity. }
    cbn [conns expand]. cbn [aconns aout]. cbn [astep a_ring a_shared a_sess].
    (* LStart (length sess) on the freshly appended session *)
    cbn [aconns aout]. cbn [astep a_ring a_shared a_sess].
    assert (N1: nth_error (asess ++ [mksess cid None None]) (length sess) = Some (mksess cid None None)).
    { rewrite nth_error_app2 by lia. rewrite Len, Nat.sub_diag. reflexivity. }
    rewrite N1. cbn [a_sess a_ring a_shared].
    assert (U: supd (asess ++ [mksess cid None None]) (length sess)
                 (sess_start InGoroutine (mkast r shv (asess ++ [mksess cid None None])) (mksess cid None None))
               = asess ++ [mksess cid None (Some (accept r cid))]).
    { unfold sess_start. cbn [s_local s_cid s_bound a_ring]. rewrite <- Len. clear.
      induction asess as [| h t IHt]; [reflexivity |]. cbn [app length supd]. rewrite IHt. reflexivity. }
    rewrite U. cbn [aconns aout a_sess].
    assert (N2: nth_error (asess ++ [mksess cid None (Some (accept r cid))]) (length sess)
                = Some (mksess cid None (Some (accept r cid)))).
    { rewrite nth_error_app2 by lia. rewrite Len, Nat.sub_diag. reflexivity. }
    rewrite N2. cbn [s_local astep]. f_equal.
    replace (S (length sess)) with (length (sess ++ [accept r cid])) by (rewrite app_length; cbn; lia).
    apply IH. rewrite !map_app, M. reflexivity.
  - cbn [conns expand aconns aout a_sess].
    assert (N: nth_error asess k = match nth_error sess k with
                                    | Some a => nth_error asess k | None => None end).
    { destruct (nth_error sess k) eqn:E; [reflexivity |]. apply nth_error_None.
      rewrite <- (map_length s_local asess), M, map_length. apply nth_error_None. exact E. }
    destruct (nth_error sess k) as [a |] eqn:E.
    + assert (X: nth_error (map s_local asess) k = Some (Some a)) by (rewrite M; apply map_nth_error; exact E).
      rewrite nth_error_map in X. destruct (nth_error asess k) as [s |]; [| discriminate].
      cbn [option_map] in X. inversion X as [Y]. rewrite Y. cbn [astep]. f_equal. apply IH. exact M.
    + rewrite N. cbn [astep]. apply IH. exact M.
Qed.

Lemma burst_project_in : forall base items outs a,
  In a (burst_project base items outs) -> exists i, In (i, a) outs.
Proof.
  intros base items outs a H. unfold burst_project in H. apply in_flat_map in H.
  destruct H as (jx & _ & H). apply in_map_iff in H. destruct H as ([i a'] & E & H). cbn in E. subst a'.
  apply filter_In in H. exists i. apply H.
Qed.

Theorem brun_sound : forall sh toks st n a,
  In a (brun sh st n toks) -> exists i, In (i, a) (aconns sh st (btoks_labels n toks)).
Proof.
  intros sh toks. induction toks as [| t toks IH]; intros st n a H; [destruct H |].
  cbn [brun btoks_labels] in *. rewrite aconns_app. apply in_app_or in H. destruct H as [H | H].
  - assert (X: exists i, In (i, a) (aconns sh st (btok_labels n t))).
    { destruct t as [e | items].
      - apply in_map_iff in H. destruct H as ([i a'] & E & H). cbn in E. subst a'. exists i. exact H.
      - eapply burst_project_in. exact H. }
    destruct X as (i & X). exists i. apply in_or_app. left. exact X.
  - destruct (IH _ _ _ H) as (i & X). exists i. apply in_or_app. right. exact X.
Qed.

Definition ip4 (a b c d : N) : param := Parsed (repeat 0%N 10 ++ [255; 255; a; b; c; d]%N).

(* two sessions of different clients accepted back to back, the first goroutine scheduled after the
   second accept: the first client's connection carries the second client's address *)
Definition shared_witness : list alabel :=
  [LCarrier 1%N (ip4 1 2 3 4); LCarrier 2%N (ip4 5 6 7 8); LAccept 1%N; LAccept 2%N; LStart 0; LStream 0; LStart 1; LStream 1].

Theorem shared_variable_refuted :
  exists cap evs i a cid,
    In (i, a) (sched_conns AtAcceptShared cap evs) /\ nth_error (accepted evs) i = Some cid /\
    a <> AStr [] /\ (forall p, In (LCarrier cid p) evs -> a <> AStr (sanitise p)) /\
    (exists cid' p', cid' <> cid /\ In (LCarrier cid' p') evs /\ a = AStr (sanitise p')).
Proof.
  exists 2, shared_witness, 0, (AStr (sanitise (ip4 5 6 7 8))), 1%N.
  split; [vm_compute; left; reflexivity |]. split; [reflexivity |].
  split; [vm_compute; discriminate |]. split.
  - intros p H. unfold shared_witness in H. cbn [In] in H.
    destruct H as [E | [E | [E | [E | [E | [E | [E | [E | []]]]]]]]]; try discriminate.
    inversion E; subst p. vm_compute. discriminate.
  - exists 2%N, (ip4 5 6 7 8). split; [discriminate |]. split; [right; left; reflexivity | reflexivity].
Qed.

