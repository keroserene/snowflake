(* BrokerProofs.v — invariants of the broker interleaving machine (Model/Broker.v) *)
From Coq Require Import List NArith ZArith Bool Arith Lia.
From Snow Require Import Model.Broker Proofs.BrokerLocal.
Import ListNotations.
Open Scope N_scope.

Lemma lookup_remove_key {A} k k' (l : list (N * A)) :
  lookup k' (remove_key k l) = if k' =? k then None else lookup k' l.
Proof.
  induction l as [|[a v] l IH]; cbn [remove_key lookup].
  - destruct (k' =? k); reflexivity.
  - destruct (N.eqb_spec k a) as [->|Hka].
    + rewrite IH. destruct (N.eqb_spec k' a) as [->|Hk'a]; reflexivity.
    + cbn [lookup]. rewrite IH. destruct (N.eqb_spec k' a) as [->|Hk'a].
      * destruct (N.eqb_spec a k); [congruence | reflexivity].
      * reflexivity.
Qed.

Lemma in_remove_key {A} k k' (v : A) l : In (k', v) (remove_key k l) -> In (k', v) l /\ k' <> k.
Proof.
  induction l as [|[a w] l IH]; cbn [remove_key]; [intros []|].
  destruct (N.eqb_spec k a) as [->|Hka].
  - intros H. destruct (IH H). split; [right; assumption | assumption].
  - intros [H|H].
    + injection H as -> ->. split; [left; reflexivity | congruence].
    + destruct (IH H). split; [right; assumption | assumption].
Qed.

Lemma lookup_in {A} k (v : A) l : lookup k l = Some v -> In (k, v) l.
Proof.
  induction l as [|[a w] l IH]; cbn [lookup]; [discriminate|].
  destruct (N.eqb_spec k a) as [->|H].
  - intros E; injection E as ->. left; reflexivity.
  - intros E. right. apply IH. exact E.
Qed.

Definition w_unmatched_waiting (w : wpc) : bool := match w with W_Select | W_TimedOut => true | _ => false end.
Definition w_before_offer (w : wpc) : bool :=
  match w with W_Select | W_TimedOut | W_Late | W_Stuck => true | _ => false end.
Definition w_after_offer (w : wpc) : bool :=
  match w with W_Forward _ | W_Done (PMatch _) | W_Done PError => true | _ => false end.

(* the life cycle of a registered poll and of the client that claimed it *)
Definition shape_ok (e : entry) : bool :=
  match e_cl e with
  | None =>
      match e_w e with
      | W_Select | W_TimedOut => e_inheap e && e_live e
      | W_Done PNoMatch => negb (e_inheap e) && negb (e_live e)
      | _ => false
      end
  | Some c =>
      negb (e_inheap e) &&
      match c_pc c with
      | C_Send => e_live e && w_before_offer (e_w e)
      | C_Wait | C_Cleanup _ => e_live e && w_after_offer (e_w e)
      | C_Done _ => negb (e_live e) && w_after_offer (e_w e)
      end
  end.

Definition compat (cn pn : natty) : bool :=
  if is_unrestricted cn then negb (is_unrestricted pn) else is_unrestricted pn.

Definition blist := list (fpr * url).

(* what the waiter forwards / what the handler returned belongs to the client stored in the entry; the relay URL
   of a match was configured for that client's fingerprint in a list installed NOT BEFORE the one current at the
   client's request ([hist] is newest first, the list current at the request sits at position
   [length hist - c_epoch c]: the URL comes from a position i <= that one), and it is the URL the client
   was checked against unless the list was re-installed after the client's request; the handler fails only then *)
Definition minfo_ok (hist : list blist) (e : entry) : Prop :=
  (forall f, e_w e = W_Forward f ->
     exists c, e_cl e = Some c /\ f_offer f = c_offer c /\ f_nat f = c_nat c /\ f_fp f = c_fp c) /\
  (forall m, e_w e = W_Done (PMatch m) ->
     exists c, e_cl e = Some c /\ m_offer m = c_offer c /\ m_nat m = c_nat c /\
       (exists i br, (i + c_epoch c <= length hist)%nat /\ nth_error hist i = Some br /\
                     lookup (c_fp c) br = Some (m_url m)) /\
       (m_url m = c_url c \/ (c_epoch c < length hist)%nat)) /\
  (e_w e = W_Done PError -> exists c, e_cl e = Some c /\ (c_epoch c < length hist)%nat).

Definition client_ok (cur : blist) (hist : list blist) (ncid : nat) (e : entry) : Prop :=
  forall c, e_cl e = Some c ->
    compat (c_nat c) (e_nat e) = true /\ (c_id c < ncid)%nat /\ (c_epoch c <= length hist)%nat /\
    (exists br, nth_error hist (length hist - c_epoch c) = Some br /\ lookup (c_fp c) br = Some (c_url c)) /\
    (c_epoch c = length hist -> lookup (c_fp c) cur = Some (c_url c)).

Definition answers_ok (e : entry) : Prop :=
  (forall a, e_buf e = Some a -> In a (e_posted e)) /\
  (forall aid a, In (aid, a) (e_senders e) -> In a (e_posted e)) /\
  (forall c a, e_cl e = Some c -> (c_pc c = C_Cleanup (CAnswer a) \/ c_pc c = C_Done (CAnswer a)) -> In a (e_posted e)).

Definition no_stuck (v : version) (e : entry) : Prop :=
  match v with
  | V1 => e_w e <> W_Stuck
  | V0 => e_w e <> W_Late /\ e_buf e = None
  end.

Definition entry_ok (v : version) (cur : blist) (hist : list blist) (ncid : nat) (e : entry) : Prop :=
  shape_ok e = true /\ minfo_ok hist e /\ client_ok cur hist ncid e /\ answers_ok e /\ no_stuck v e.

Fixpoint count_live (es : list entry) : Z :=
  match es with
  | [] => 0%Z
  | e :: es' => ((if e_live e then 1 else 0) + count_live es')%Z
  end.

Record Inv (v : version) (s : state) : Prop := {
  inv_entries : forall p e, nth_error (entries s) p = Some e -> entry_ok v (bridges s) (br_hist s) (next_cid s) e;
  inv_idmap : forall sd p, In (sd, p) (idmap s) ->
      exists e, nth_error (entries s) p = Some e /\ e_sid e = sd /\ e_live e = true;
  inv_gauge : gauge s = count_live (entries s);
  inv_posted : forall p e a, nth_error (entries s) p = Some e -> In a (e_posted e) ->
      exists aid, In (aid, e_sid e, a) (answer_log s);
  inv_cids : forall p q e1 e2 c1 c2, nth_error (entries s) p = Some e1 -> nth_error (entries s) q = Some e2 ->
      e_cl e1 = Some c1 -> e_cl e2 = Some c2 -> c_id c1 = c_id c2 -> p = q;
  inv_done_cids : forall cid n fp o r, In (cid, n, fp, o, r) (done_clients s) -> (cid < next_cid s)%nat;
  inv_hist : nth_error (br_hist s) 0 = Some (bridges s)   (* the current list is the newest installed one *)
}.

Lemma inv_init v br : Inv v (init br).
Proof.
  constructor; cbn [init entries idmap gauge bridges br_hist next_cid answer_log done_clients].
  - intros p e H. destruct p; discriminate.
  - intros sd p [].
  - reflexivity.
  - intros p e a H. destruct p; discriminate.
  - intros p q e1 e2 c1 c2 H. destruct p; discriminate.
  - intros cid n fp o r [].
  - reflexivity.
Qed.

Lemma inv_hist_in v s : Inv v s -> In (bridges s) (br_hist s).
Proof. intros I. eapply nth_error_In. apply (inv_hist v s I). Qed.

Lemma count_live_app a b : count_live (a ++ b) = (count_live a + count_live b)%Z.
Proof. induction a as [|e a IH]; cbn [app count_live]; [lia | rewrite IH; lia]. Qed.

Lemma count_live_upd f : forall es p e, nth_error es p = Some e ->
  count_live (upd p f es) = (count_live es - (if e_live e then 1 else 0) + (if e_live (f e) then 1 else 0))%Z.
Proof.
  induction es as [|x es IH]; intros [|p] e; cbn [nth_error upd count_live]; try discriminate.
  - intros H; injection H as ->. lia.
  - intros H. rewrite (IH p e H). lia.
Qed.

Lemma count_live_upd_same f es p e : nth_error es p = Some e -> e_live (f e) = e_live e ->
  count_live (upd p f es) = count_live es.
Proof. intros H E. rewrite (count_live_upd f es p e H), E. lia. Qed.

Lemma eligible_inheap n e : eligible n e = true -> e_inheap e = true /\ compat n (e_nat e) = true.
Proof. unfold eligible, compat. intros H. apply andb_prop in H. exact H. Qed.

Lemma shape_inheap e : shape_ok e = true -> e_inheap e = true ->
  e_cl e = None /\ e_live e = true /\ w_unmatched_waiting (e_w e) = true.
Proof.
  unfold shape_ok. intros H Hh. destruct (e_cl e) as [c|].
  - rewrite Hh in H. discriminate.
  - split; [reflexivity|]. destruct (e_w e) as [| | | |m|[|m|]]; try discriminate;
      try (apply andb_prop in H; destruct H as [_ Hl]; split; [exact Hl | reflexivity]).
    rewrite Hh in H. discriminate.
Qed.

(* a poll that holds a client is out of the heap, and registered until the client's last critical section *)
Lemma shape_client e c : shape_ok e = true -> e_cl e = Some c ->
  e_inheap e = false /\
  match c_pc c with
  | C_Send => e_live e = true /\ w_before_offer (e_w e) = true
  | C_Wait | C_Cleanup _ => e_live e = true /\ w_after_offer (e_w e) = true
  | C_Done _ => e_live e = false /\ w_after_offer (e_w e) = true
  end.
Proof.
  unfold shape_ok. intros H Hc. rewrite Hc in H. apply andb_prop in H. destruct H as [Hh H].
  apply negb_true_iff in Hh. split; [exact Hh|].
  destruct (c_pc c); apply andb_prop in H; destruct H as [Hl Hw]; rewrite ?negb_true_iff in Hl; split; assumption.
Qed.

(* the invariant reads a client record only through the fields fixed at its request *)

Definition cstatic (c : clrec) := (c_id c, c_nat c, c_fp c, c_offer c, c_url c, c_epoch c).

Lemma minfo_ok_static hist e e' : minfo_ok hist e -> e_w e' = e_w e ->
  option_map cstatic (e_cl e') = option_map cstatic (e_cl e) -> minfo_ok hist e'.
Proof.
  unfold minfo_ok. intros H Hw Hc. rewrite Hw.
  destruct (e_cl e) as [c|], (e_cl e') as [c'|]; try discriminate; [|exact H].
  injection Hc as Hid Hn Hf Ho Hu He. destruct H as [A [B C]]. split; [|split].
  - intros f Hf0. destruct (A f Hf0) as [c0 [E X]]. injection E as <-. exists c'. rewrite Ho, Hn, Hf. split; [reflexivity | exact X].
  - intros m Hm. destruct (B m Hm) as [c0 [E X]]. injection E as <-. exists c'. rewrite Ho, Hn, Hf, Hu, He. split; [reflexivity | exact X].
  - intros Hm. destruct (C Hm) as [c0 [E X]]. injection E as <-. exists c'. rewrite He. split; [reflexivity | exact X].
Qed.

Lemma client_ok_static cur hist n e e' : client_ok cur hist n e -> e_nat e' = e_nat e ->
  option_map cstatic (e_cl e') = option_map cstatic (e_cl e) -> client_ok cur hist n e'.
Proof.
  unfold client_ok. intros H Hn Hc c' Hc'. rewrite Hc' in Hc.
  destruct (e_cl e) as [c|]; [|discriminate]. injection Hc as Hid Hnat Hf Ho Hu He.
  rewrite Hn, Hid, Hnat, Hf, Hu, He. apply H. reflexivity.
Qed.

Lemma minfo_ok_none hist e :
  (forall f, e_w e <> W_Forward f) -> (forall m, e_w e <> W_Done (PMatch m)) -> e_w e <> W_Done PError ->
  minfo_ok hist e.
Proof.
  intros A B C. split; [|split].
  - intros f H. elim (A f H).
  - intros m H. elim (B m H).
  - intros H. elim (C H).
Qed.

Lemma estep_shape v s l e e' : estep v s l e e' -> shape_ok e = true -> shape_ok e' = true.
Proof.
  intros H S. destruct H; try (pose proof (shape_client e c S Hc) as [Hh X]; rewrite Hpc in X; destruct X as [Hl Hwo]);
    unfold shape_ok in *; cbn; rewrite ?Hc in *; cbn; rewrite ?Hpc, ?Hw in *; try exact S.
  - (* E_WExpire *) destruct (e_cl e); [rewrite Hh in S; discriminate | reflexivity].
  - (* E_WLate *) destruct (e_cl e) as [c|]; [|rewrite Hh in S; discriminate]. destruct v, (c_pc c); exact S.
  - (* E_Client *) apply eligible_inheap in Hel. destruct Hel as [Hh _]. rewrite Hh in S. destruct (e_cl e); [discriminate|].
    destruct (e_w e) as [| | | |f|[|m|]]; try discriminate; rewrite andb_true_l in S; rewrite S; reflexivity.
  - (* E_RvOffer *) rewrite Hh, Hl. reflexivity.
  - (* E_RvForward *) unfold forward_result. destruct (e_cl e) as [c|]; [|discriminate].
    destruct (lookup (f_fp f) (bridges s)), (c_pc c); exact S.
  - (* E_CCleanup *) rewrite Hh, Hwo. reflexivity.
  - (* E_AnswerPut *) destruct (buf_free e); exact S.
Qed.

Lemma estep_stuck v s l e e' : estep v s l e e' -> no_stuck v e -> no_stuck v e'.
Proof.
  intros H N. destruct H; destruct v; cbn in *; try exact N; try discriminate; try (split; [discriminate | apply N]).
  destruct (buf_free e); exact N.
Qed.

Lemma estep_answers v s l e e' : estep v s l e e' -> answers_ok e -> answers_ok e'.
Proof.
  intros H [A [B C]]. destruct H; unfold answers_ok; cbn; try (split; [exact A | split; [exact B | exact C]]).
  - (* E_Client *) split; [exact A|]. split; [exact B|]. intros c0 a E [X|X]; injection E as <-; discriminate.
  - (* E_RvOffer *) split; [exact A|]. split; [exact B|]. intros c0 a E [X|X]; injection E as <-; discriminate.
  - (* E_FireC *) split; [exact A|]. split; [exact B|]. intros c0 a E X. injection E as <-. apply (C c a Hc X).
  - (* E_CTake *) split; [exact A|]. split; [exact B|]. intros c0 a E [X|X]; injection E as <-; discriminate.
  - (* E_CCleanup *) split; [exact A|]. split; [exact B|]. intros c0 a E [X|X]; injection E as <-; [discriminate|].
    injection X as ->. apply (C c a Hc). left. exact Hpc.
  - (* E_Answer *) split; [intros y X; right; apply A; exact X|]. split.
    + intros aid y X. apply in_app_or in X. destruct X as [X|[X|[]]]; [right; eapply B; exact X | injection X as _ <-; left; reflexivity].
    + intros c y E X. right. eapply C; eassumption.
  - (* E_RvAnswer *) rewrite Hs in B. split; [exact A|]. split; [intros i0 y X; eapply B; right; exact X|].
    intros c0 y E [X|X]; injection E as <-; [|discriminate]. injection X as <-. eapply B. left. reflexivity.
  - (* E_AnswerPut *) rewrite Hs in B.
    destruct (buf_free e); cbn; (split; [|split; [intros i0 y X; eapply B; right; exact X | exact C]]).
    + intros y X. injection X as <-. eapply B. left. reflexivity.
    + exact A.
  - (* E_CTakeAnswer *) split; [discriminate|]. split; [exact B|].
    intros c0 y E [X|X]; injection E as <-; [|discriminate]. injection X as <-. apply A. exact Hb.
Qed.

(* the handler looks the URL up in the list current when it replies: the newest installed one, not older than the one
   the client was checked against; if it is that very list the lookup succeeds and gives the client's URL *)
Lemma estep_minfo v s l e e' : estep v s l e e' -> shape_ok e = true ->
  nth_error (br_hist s) 0 = Some (bridges s) -> client_ok (bridges s) (br_hist s) (next_cid s) e ->
  minfo_ok (br_hist s) e -> minfo_ok (br_hist s) e'.
Proof.
  intros H S Hh C M.
  destruct H; try (apply (minfo_ok_static _ e); [exact M | reflexivity | cbn; rewrite ?Hc; reflexivity]);
    try (apply minfo_ok_none; destruct v; cbn; discriminate).
  - apply eligible_inheap in Hel. destruct Hel as [Hi _]. destruct (shape_inheap e S Hi) as [_ [_ Hw]].
    apply minfo_ok_none; cbn; destruct (e_w e); discriminate.
  - split; [|split]; cbn; try discriminate. intros f E. injection E as <-. exists (set_cpc C_Wait c). repeat split.
  - destruct M as [M _]. destruct (M f Hw) as [c [Hc [Ho [Hn Hf]]]]. destruct (C c Hc) as [_ [_ [Hle [_ Hcur]]]].
    assert (Hold : (c_epoch c < length (br_hist s))%nat \/ lookup (f_fp f) (bridges s) = Some (c_url c)).
    { destruct (Nat.eq_dec (c_epoch c) (length (br_hist s))) as [E|E]; [right; rewrite Hf; apply Hcur; exact E | left; unfold blist in *; lia]. }
    unfold forward_result. split; [|split]; cbn; try discriminate.
    + intros m Hm. destruct (lookup (f_fp f) (bridges s)) as [u|] eqn:Hl; [|discriminate]. injection Hm as <-. cbn.
      exists c. split; [exact Hc|]. split; [exact Ho|]. split; [exact Hn|]. split.
      * exists 0%nat, (bridges s). split; [exact Hle|]. split; [exact Hh | rewrite <- Hf; exact Hl].
      * destruct Hold as [E|E]; [right; exact E | left; congruence].
    + intros Hm. destruct (lookup (f_fp f) (bridges s)); [discriminate|]. exists c. split; [exact Hc|].
      destruct Hold as [E|E]; [exact E | discriminate].
  - apply (minfo_ok_static _ e); [exact M | |]; destruct (buf_free e); reflexivity.
Qed.

Lemma estep_client v s l e e' : estep v s l e e' ->
  nth_error (br_hist s) 0 = Some (bridges s) -> client_ok (bridges s) (br_hist s) (next_cid s) e ->
  client_ok (bridges s) (br_hist s) (match l with L_Client _ _ _ _ => S (next_cid s) | _ => next_cid s end) e'.
Proof.
  intros H Hh C.
  destruct H; try (apply (client_ok_static _ _ _ e); [exact C | reflexivity | cbn; rewrite ?Hc; reflexivity]).
  - intros c0 E. injection E as <-. cbn. apply eligible_inheap in Hel.
    split; [apply Hel|]. split; [apply Nat.lt_succ_diag_r|]. split; [apply Nat.le_refl|].
    split; [exists (bridges s); split; [rewrite Nat.sub_diag; exact Hh | exact Hu] | intros _; exact Hu].
  - apply (client_ok_static _ _ _ e); [exact C | |]; destruct (buf_free e); reflexivity.
Qed.

(* entry_ok of an entry that a step leaves alone: client ids only grow, lists are only added *)

Lemma entry_ok_mono v cur hist n n' e : (n <= n')%nat -> entry_ok v cur hist n e -> entry_ok v cur hist n' e.
Proof.
  intros Hn [A [B [C D]]]. split; [exact A|]. split; [exact B|]. split; [|exact D].
  intros c Hc. destruct (C c Hc) as [X [Y Z]]. split; [exact X|]. split; [lia | exact Z].
Qed.

(* installing a list: every recorded fact survives (the new list is one more installed list, and every client's
   request is now strictly older than the newest installation) *)
Lemma entry_ok_install v cur hist n e br : entry_ok v cur hist n e -> entry_ok v br (br :: hist) n e.
Proof.
  intros [A [[B1 [B2 B3]] [C [D E]]]]. unfold entry_ok. split; [exact A|]. split; [|split; [|split; assumption]].
  - split; [exact B1|]. split.
    + intros m Hm. destruct (B2 m Hm) as [c [X [Y [Z [[i [b [Hi [Hb Hl]]]] W]]]]]. exists c.
      split; [exact X|]. split; [exact Y|]. split; [exact Z|]. split.
      * exists (S i), b. split; [cbn [length]; lia | split; [exact Hb | exact Hl]].
      * destruct W as [W|W]; [left; exact W | right; cbn [length]; lia].
    + intros Hm. destruct (B3 Hm) as [c [X Y]]. exists c. split; [exact X | cbn [length]; lia].
  - intros c Hc. destruct (C c Hc) as [X [Y [Z [[b [Hb Hl]] W]]]].
    split; [exact X|]. split; [exact Y|]. split; [cbn [length]; lia|]. split.
    + exists b. split; [|exact Hl]. cbn [length]. rewrite Nat.sub_succ_l by exact Z. exact Hb.
    + cbn [length]. intros Heq. lia.
Qed.

Lemma entry_ok_frame v s l s' e : frame s l s' ->
  entry_ok v (bridges s) (br_hist s) (next_cid s) e -> entry_ok v (bridges s') (br_hist s') (next_cid s') e.
Proof.
  intros [-> -> -> _ _] H. destruct l; try exact H; [eapply entry_ok_mono; [apply Nat.le_succ_diag_r | exact H] | apply entry_ok_install with (cur := bridges s); exact H].
Qed.

Lemma entry_ok_estep v s l s' e e' : frame s l s' -> estep v s l e e' -> nth_error (br_hist s) 0 = Some (bridges s) ->
  entry_ok v (bridges s) (br_hist s) (next_cid s) e -> entry_ok v (bridges s') (br_hist s') (next_cid s') e'.
Proof.
  intros [Fb Fh Fc _ _] H Hh [S [M [C [A N]]]]. rewrite Fc.
  replace (bridges s') with (bridges s) by (rewrite Fb; destruct H; reflexivity).
  replace (br_hist s') with (br_hist s) by (rewrite Fh; destruct H; reflexivity).
  split; [eapply estep_shape; eassumption|]. split; [eapply estep_minfo; eassumption|].
  split; [eapply estep_client; eassumption|]. split; [eapply estep_answers; eassumption | eapply estep_stuck; eassumption].
Qed.

Lemma entry_ok_new v cur hist n sd nt pt cl : entry_ok v cur hist n (new_entry sd nt pt cl).
Proof.
  split; [reflexivity|]. split; [apply minfo_ok_none; cbn; discriminate|]. split; [intros c Hc; discriminate|]. split.
  - split; [intros a Ha; discriminate|]. split; [intros aid a []|intros c a Hc; discriminate].
  - destruct v; [split; [discriminate | reflexivity] | discriminate].
Qed.
