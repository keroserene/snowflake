(* BrokerHeapProofs.v — the broker's SnowflakeHeap (Model/BrokerHeap.v: container/heap over a slice ordered by
   the self-reported client count, elements carrying their `index` field).
   1. list level ([hstep]): after any sequence of pushes, guarded pops, guarded removals and fixes the slice is
      heap ordered (heap_ops_ok), so heap.Pop returns a proxy with the smallest client count, and one operation
      changes the contents only by the pushed / removed element (push_contents, remove_contents; for the popped one
      lpop_spec of GoHeapProofs.v, as used in xpop_least_loaded);
   2. pointer level ([xstep], the definition run against broker/snowflake-heap.go): it simulates the list
      level, every element's `index` equals its position after any operation sequence, and every element that
      left the heap holds index -1.
   (3. Proofs/BrokerImplProofs.v: the matching machine over two such heaps refines Model/Broker.v.)
   Last, [emb] is an order embedding of Go's signed loads into the loads of the model (emb_order, unemb_emb). *)
From Coq Require Import List NArith ZArith Bool Arith Lia Permutation.
From Snow Require Import Lib.ListFacts Model.GoHeap Proofs.GoHeapProofs Model.BrokerHeap.
Import ListNotations.
Open Scope N_scope.

Lemma sf_irrefl a : sf_less a a = false.
Proof. unfold sf_less. apply N.ltb_irrefl. Qed.
Lemma sf_trans a b c : sf_less a b = true -> sf_less b c = true -> sf_less a c = true.
Proof. unfold sf_less. intros H1 H2. apply N.ltb_lt in H1, H2. apply N.ltb_lt. lia. Qed.
Lemma sf_negtrans a b c : sf_less a b = false -> sf_less b c = false -> sf_less a c = false.
Proof. unfold sf_less. intros H1 H2. apply N.ltb_ge in H1, H2. apply N.ltb_ge. lia. Qed.

Lemma heap_ok_nil : heap_ok sf sf_less [].
Proof. intros p c a b _ H. destruct p; discriminate. Qed.

Theorem hstep_ok l o : heap_ok sf sf_less l -> heap_ok sf sf_less (hstep l o).
Proof.
  intros H. destruct o as [x| |i|i c]; cbn [hstep].
  - apply (lpush_heap_ok sf sf_less sf_irrefl sf_trans sf_negtrans). exact H.
  - destruct l as [|m l']; [exact H|].
    destruct (lpop_spec sf sf_less sf_irrefl sf_trans sf_negtrans (m :: l') m H eq_refl) as [l2 [Hp [Hok _]]].
    rewrite Hp. exact Hok.
  - destruct (Nat.ltb_spec i (length l)) as [Hi|Hi]; [|exact H].
    destruct (nth_error l i) as [x|] eqn:Hx; [|apply nth_error_None in Hx; lia].
    destruct (lremove_spec sf sf_less sf_irrefl sf_trans sf_negtrans l i x H Hx) as [l2 [Hp [Hok _]]].
    rewrite Hp. exact Hok.
  - destruct (nth_error l i) as [x|] eqn:Hx; [|exact H].
    assert (Hi : (i < length l)%nat) by (apply nth_error_Some; congruence).
    apply (lfix_spec sf sf_less sf_irrefl sf_trans sf_negtrans l i (fst x, c) H Hi).
Qed.

Lemma fold_hstep_ok : forall ops l, heap_ok sf sf_less l -> heap_ok sf sf_less (fold_left hstep ops l).
Proof. induction ops as [|o ops IH]; intros l H; cbn [fold_left]; [exact H|]. apply IH. apply hstep_ok. exact H. Qed.

Theorem heap_ops_ok : forall ops, heap_ok sf sf_less (fold_left hstep ops []).
Proof. intros ops. apply fold_hstep_ok. apply heap_ok_nil. Qed.

Theorem push_contents l x : heap_ok sf sf_less l -> Permutation (lpush sf_less x l) (x :: l).
Proof. intros _. apply lpush_perm. Qed.

Theorem remove_contents l i x : heap_ok sf sf_less l -> nth_error l i = Some x ->
  exists l', lremove sf_less l i = (l', Some x) /\ Permutation l (x :: l').
Proof.
  intros H Hx. destruct (lremove_spec sf sf_less sf_irrefl sf_trans sf_negtrans l i x H Hx) as [l' [Hp [_ Hperm]]].
  exists l'. split; assumption.
Qed.

Definition idx_ok (s : list sfx) : Prop := forall i x, nth_error s i = Some x -> x_idx x = Z.of_nat i.
Definition xR (s : list sfx) (l : list sf) : Prop := map x_el s = l /\ idx_ok s.

Lemma map_set_nth : forall (s : list sfx) i x, map x_el (set_nth i x s) = set_nth i (x_el x) (map x_el s).
Proof. induction s as [|a s IH]; intros [|i] x; cbn [set_nth map]; try reflexivity. rewrite IH. reflexivity. Qed.

Lemma map_removelast : forall (s : list sfx), map x_el (removelast s) = removelast (map x_el s).
Proof.
  induction s as [|a s IH]; [reflexivity|]. destruct s as [|b s]; [reflexivity|].
  change (removelast (a :: b :: s)) with (a :: removelast (b :: s)).
  change (map x_el (a :: b :: s)) with (x_el a :: map x_el (b :: s)).
  cbn [map]. rewrite IH. reflexivity.
Qed.

Lemma xR_len s l : xR s l -> length s = length l.
Proof. intros [<- _]. symmetry. apply map_length. Qed.

Lemma xR_less s l i j : xR s l -> (i < length l)%nat -> (j < length l)%nat ->
  sx_less s i j = lless sf_less l i j.
Proof.
  intros [<- _] _ _. unfold sx_less, lless. rewrite !nth_error_map.
  destruct (nth_error s i); [|reflexivity]. destruct (nth_error s j); reflexivity.
Qed.

Lemma xR_swap s l i j : xR s l -> (i < length l)%nat -> (j < length l)%nat ->
  xR (sx_swap s i j) (lswap l i j).
Proof.
  intros [<- Hidx] Hi Hj. rewrite map_length in Hi, Hj.
  destruct (nth_error s i) as [a|] eqn:Ha; [|apply nth_error_None in Ha; lia].
  destruct (nth_error s j) as [b|] eqn:Hb; [|apply nth_error_None in Hb; lia].
  unfold sx_swap, lswap. rewrite !nth_error_map, Ha, Hb. cbn [option_map]. split.
  - rewrite !map_set_nth. reflexivity.
  - intros k x Hk. destruct (Nat.eq_dec k j) as [->|Hkj].
    + rewrite nth_error_set_nth_eq in Hk by (rewrite set_nth_length; exact Hj). injection Hk as <-. reflexivity.
    + rewrite nth_error_set_nth_neq in Hk by exact Hkj. destruct (Nat.eq_dec k i) as [->|Hki].
      * rewrite nth_error_set_nth_eq in Hk by exact Hi. injection Hk as <-. reflexivity.
      * rewrite nth_error_set_nth_neq in Hk by exact Hki. apply Hidx. exact Hk.
Qed.

Lemma xR_push_method s l x : xR s l -> xR (sx_push_method x s) (l ++ [x]).
Proof.
  intros [<- Hidx]. unfold sx_push_method. split; [rewrite map_app; reflexivity|].
  intros k y Hk. destruct (nth_error_snoc _ _ _ _ Hk) as [Ho|[-> ->]]; [apply Hidx; exact Ho | reflexivity].
Qed.

Lemma xpush_sim s l x : xR s l -> xR (xpush x s) (lpush sf_less x l).
Proof.
  intros HR. pose proof (xR_push_method s l x HR) as H1.
  unfold xpush, lpush, heap_push, lpush_method.
  rewrite (xR_len _ _ H1).
  apply (sim_up (list sfx) sx_less sx_swap sf sf_less xR xR_less xR_swap); [exact H1|].
  rewrite app_length. cbn. lia.
Qed.

(* the last element leaves, marked -1 *)
Lemma xR_pop_method s l : xR s l -> l <> [] ->
  exists r e s' l', lpop_method l = (l', Some r) /\ sx_pop_method s = (s', Some e) /\
    x_el e = r /\ x_idx e = (-1)%Z /\ xR s' l'.
Proof.
  intros [<- Hidx] Hne.
  assert (Hpos : (0 < length s)%nat) by (destruct s; [elim Hne; reflexivity | cbn; lia]).
  destruct (nth_error s (length s - 1)) as [e0|] eqn:He; [|apply nth_error_None in He; lia].
  exists (x_el e0), (with_idx e0 (-1)%Z), (removelast s), (removelast (map x_el s)).
  unfold lpop_method, sx_pop_method. rewrite map_length, nth_error_map, He. cbn [option_map].
  repeat split.
  - apply map_removelast.
  - intros k y Hk. apply nth_error_removelast in Hk. destruct Hk as [Hk _]. apply Hidx. exact Hk.
Qed.

Lemma xpop_sim s l : xR s l -> l <> [] ->
  exists r e s' l', lpop sf_less l = (l', Some r) /\ xpop s = (s', Some e) /\
    x_el e = r /\ x_idx e = (-1)%Z /\ xR s' l'.
Proof.
  intros HR Hne.
  assert (Hpos : (0 < length l)%nat) by (destruct l; [elim Hne; reflexivity | cbn; lia]).
  unfold xpop, lpop, heap_pop. rewrite (xR_len _ _ HR).
  set (n := (length l - 1)%nat).
  assert (H1 : xR (sx_swap s 0 n) (lswap l 0 n)) by (apply xR_swap; [exact HR | lia | unfold n; lia]).
  assert (Hn : (n <= length (lswap l 0 n))%nat) by (rewrite lswap_length; unfold n; lia).
  destruct (sim_down (list sfx) sx_less sx_swap sf sf_less xR xR_less xR_swap _ _ 0%nat n H1 Hn) as [H2 _].
  apply (xR_pop_method _ _ H2). intro E. apply (f_equal (@length sf)) in E.
  rewrite ldown_length, lswap_length in E. cbn in E. lia.
Qed.

Lemma xremove_sim s l i : xR s l -> (i < length l)%nat ->
  exists r e s' l', lremove sf_less l i = (l', Some r) /\ xremove s i = (s', Some e) /\
    x_el e = r /\ x_idx e = (-1)%Z /\ xR s' l'.
Proof.
  intros HR Hi.
  assert (Hne : l <> []) by (destruct l; [cbn in Hi; lia | discriminate]).
  unfold xremove, lremove, heap_remove. rewrite (xR_len _ _ HR).
  set (n := (length l - 1)%nat).
  destruct (n =? i)%nat eqn:E; [exact (xR_pop_method s l HR Hne)|].
  apply Nat.eqb_neq in E.
  assert (H1 : xR (sx_swap s i n) (lswap l i n)) by (apply xR_swap; [exact HR | lia | unfold n; lia]).
  assert (Hn : (n <= length (lswap l i n))%nat) by (rewrite lswap_length; unfold n; lia).
  destruct (sim_down (list sfx) sx_less sx_swap sf sf_less xR xR_less xR_swap _ _ i n H1 Hn) as [H2 H2i].
  unfold ldown in H2, H2i.
  pose proof (ldown_length sf sf_less (lswap l i n) i n) as HL. unfold ldown in HL. rewrite lswap_length in HL.
  destruct (down (list sfx) sx_less sx_swap (sx_swap s i n) i n) as [s2 i1].
  destruct (down (list sf) (lless sf_less) lswap (lswap l i n) i n) as [l2 i2].
  cbn [fst snd] in *. subst i2.
  assert (H3 : xR (if (i <? i1)%nat then s2 else up (list sfx) sx_less sx_swap s2 i)
                  (if (i <? i1)%nat then l2 else up (list sf) (lless sf_less) lswap l2 i)).
  { destruct (i <? i1)%nat; [exact H2|].
    apply (sim_up (list sfx) sx_less sx_swap sf sf_less xR xR_less xR_swap); [exact H2 | lia]. }
  apply (xR_pop_method _ _ H3). intro E3. apply (f_equal (@length sf)) in E3.
  destruct (i <? i1)%nat; [|fold (lup sf_less l2 i) in E3; rewrite lup_length in E3]; rewrite HL in E3; cbn in E3; lia.
Qed.

Lemma xfix_sim s l i : xR s l -> (i < length l)%nat -> xR (xfix s i) (lfix sf_less l i).
Proof.
  intros HR Hi. unfold xfix, lfix.
  apply (sim_fix (list sfx) (@length sfx) sx_less sx_swap sf sf_less xR); try assumption.
  - exact xR_len.
  - exact xR_less.
  - exact xR_swap.
Qed.

Lemma xR_set_clients s l i x c : xR s l -> nth_error s i = Some x ->
  xR (set_nth i (mkx (fst (x_el x), c) (x_idx x)) s) (set_nth i (fst (x_el x), c) l).
Proof.
  intros [<- Hidx] Hx. assert (Hi : (i < length s)%nat) by (apply nth_error_Some; congruence).
  split; [apply map_set_nth|].
  intros k y Hk. destruct (Nat.eq_dec k i) as [->|Hne].
  - rewrite nth_error_set_nth_eq in Hk by exact Hi. injection Hk as <-. cbn. apply Hidx. exact Hx.
  - rewrite nth_error_set_nth_neq in Hk by exact Hne. apply Hidx. exact Hk.
Qed.

(* one scripted operation: the array part follows [hstep], what is handed back is the element the list level
   hands back, it holds index -1, and it is appended to the elements that left *)
Definition popped (l : list sf) (o : hop) : option sf :=
  match o with
  | HPush _ | HFix _ _ => None
  | HPop => match l with [] => None | _ => snd (lpop sf_less l) end
  | HRemove i => if (i <? length l)%nat then snd (lremove sf_less l i) else None
  end.

Theorem xstep_sim h l o : xR (h_arr h) l ->
  xR (h_arr (fst (xstep h o))) (hstep l o) /\
  option_map x_el (snd (xstep h o)) = popped l o /\
  (forall e, snd (xstep h o) = Some e -> x_idx e = (-1)%Z) /\
  h_out (fst (xstep h o)) = out_add (h_out h) (snd (xstep h o)).
Proof.
  intros HR. destruct o as [x| |i|i c]; cbn [xstep hstep popped].
  - cbn [fst snd h_arr h_out option_map out_add]. split; [apply xpush_sim; exact HR|]. repeat split. discriminate.
  - destruct (h_arr h) as [|a s] eqn:Ea.
    + destruct HR as [Hm _]. cbn in Hm. subst l. cbn [fst snd option_map out_add]. rewrite Ea.
      split; [split; [reflexivity | intros i x Hx; destruct i; discriminate]|]. repeat split. discriminate.
    + assert (Hne : l <> []) by (destruct HR as [<- _]; discriminate).
      destruct (xpop_sim _ _ HR Hne) as (r & e & s' & l' & Hp & Hs & He & Hx & HR').
      rewrite Hs. destruct l as [|b l0]; [elim Hne; reflexivity|]. rewrite Hp.
      cbn [fst snd h_arr h_out option_map]. split; [exact HR'|]. split; [f_equal; exact He|].
      split; [intros e0 H0; injection H0 as <-; exact Hx | reflexivity].
  - rewrite (xR_len _ _ HR). destruct (Nat.ltb_spec i (length l)) as [Hi|Hi].
    + destruct (xremove_sim _ _ i HR Hi) as (r & e & s' & l' & Hp & Hs & He & Hx & HR').
      rewrite Hs, Hp. cbn [fst snd h_arr h_out option_map]. split; [exact HR'|]. split; [f_equal; exact He|].
      split; [intros e0 H0; injection H0 as <-; exact Hx | reflexivity].
    + cbn [fst snd option_map out_add]. split; [exact HR|]. repeat split. discriminate.
  - destruct HR as [Hm Hidx]. assert (HR : xR (h_arr h) l) by (split; assumption).
    rewrite <- Hm, nth_error_map. destruct (nth_error (h_arr h) i) as [x|] eqn:Hx; cbn [option_map fst snd h_arr h_out out_add].
    + rewrite Hm. split; [|repeat split; discriminate].
      assert (Hi : (i < length l)%nat) by (rewrite <- (xR_len _ _ HR); apply nth_error_Some; congruence).
      apply xfix_sim; [apply xR_set_clients; assumption | rewrite set_nth_length; exact Hi].
    + rewrite Hm. split; [exact HR|]. repeat split. discriminate.
Qed.

Definition sheap_ok (h : sheap) : Prop :=
  idx_ok (h_arr h) /\ (forall e, In e (h_out h) -> x_idx e = (-1)%Z) /\ heap_ok sf sf_less (map x_el (h_arr h)).

Lemma sheap_ok_empty : sheap_ok sheap_empty.
Proof.
  split; [|split].
  - intros i x H. destruct i; discriminate.
  - intros e [].
  - apply heap_ok_nil.
Qed.

(* an element marked -1 joins those that left *)
Lemma sheap_ok_take h s' y : sheap_ok h -> idx_ok s' -> x_idx y = (-1)%Z -> heap_ok sf sf_less (map x_el s') ->
  sheap_ok (mkh s' (h_out h ++ [y])).
Proof.
  intros [_ [Ho _]] Hi Hx Hh. split; [exact Hi|]. split; [|exact Hh].
  intros e He. apply in_app_or in He. destruct He as [He|[<-|[]]]; [apply Ho; exact He | exact Hx].
Qed.

Lemma xstep_ok h o : sheap_ok h -> sheap_ok (fst (xstep h o)).
Proof.
  intros [Hi [Ho Hh]].
  destruct (xstep_sim h (map x_el (h_arr h)) o (conj eq_refl Hi)) as [[Hm Hi'] [_ [Hx Hout]]].
  split; [exact Hi'|]. split.
  - rewrite Hout. intros e He. destruct (snd (xstep h o)) as [y|] eqn:Ey; cbn [out_add] in He.
    + apply in_app_or in He. destruct He as [He|[<-|[]]]; [apply Ho; exact He | apply Hx; reflexivity].
    + apply Ho. exact He.
  - rewrite Hm. apply hstep_ok. exact Hh.
Qed.

Lemma xrun_ok : forall ops h, sheap_ok h -> sheap_ok (xrun ops h).
Proof.
  induction ops as [|o ops IH]; intros h H; cbn [xrun fold_left]; [exact H|].
  apply IH. apply xstep_ok. exact H.
Qed.

Lemma xrun_sim : forall ops h l, xR (h_arr h) l -> xR (h_arr (xrun ops h)) (fold_left hstep ops l).
Proof.
  induction ops as [|o ops IH]; intros h l HR; cbn [xrun fold_left]; [exact HR|].
  apply IH. apply (xstep_sim h l o HR).
Qed.

(* a guarded Pop hands back a least-loaded element, marked -1, and only it leaves the slice *)
Theorem xpop_least_loaded : forall h, sheap_ok h -> h_arr h <> [] ->
  exists e s', xpop (h_arr h) = (s', Some e) /\ x_idx e = (-1)%Z /\
    Permutation (map x_el (h_arr h)) (x_el e :: map x_el s') /\
    (forall y, In y (h_arr h) -> snd (x_el e) <= snd (x_el y)) /\
    sheap_ok (mkh s' (h_out h ++ [e])).
Proof.
  intros h Hok Hne. pose proof Hok as [Hi [Ho Hh]].
  remember (map x_el (h_arr h)) as l eqn:El.
  assert (HR : xR (h_arr h) l) by (split; [symmetry; exact El | exact Hi]).
  assert (Hl : l <> []) by (subst l; destruct (h_arr h); [elim Hne; reflexivity | discriminate]).
  destruct (xpop_sim _ _ HR Hl) as (r & e & s' & l' & Hp & Hs & He & Hx & [Hm' Hi']).
  destruct l as [|m l0]; [elim Hl; reflexivity|].
  destruct (lpop_spec sf sf_less sf_irrefl sf_trans sf_negtrans (m :: l0) m Hh eq_refl) as [l2 [Hp2 [Hok2 [Hperm Hmin]]]].
  rewrite Hp in Hp2. injection Hp2 as <- <-.
  exists e, s'. split; [exact Hs|]. split; [exact Hx|]. split; [rewrite Hm', He; exact Hperm|]. split.
  - intros y Hy. rewrite He. assert (Hin : In (x_el y) (r :: l0)) by (rewrite El; apply in_map; exact Hy).
    specialize (Hmin _ Hin). unfold sf_less in Hmin. apply N.ltb_ge in Hmin. exact Hmin.
  - apply sheap_ok_take; [exact Hok | exact Hi' | exact Hx | rewrite Hm'; exact Hok2].
Qed.

(* order embedding of Go's signed loads into the model's N loads *)
Lemma emb_order : forall a b, int64_range a = true -> int64_range b = true ->
  sf_less (0%nat, emb a) (1%nat, emb b) = (a <? b)%Z.
Proof.
  intros a b Ha Hb. unfold int64_range in *. apply andb_prop in Ha, Hb.
  destruct Ha as [Ha _], Hb as [Hb _]. apply Z.leb_le in Ha, Hb.
  unfold sf_less, emb. simpl.
  destruct (a <? b)%Z eqn:E.
  - apply Z.ltb_lt in E. apply N.ltb_lt. apply Z2N.inj_lt; lia.
  - apply Z.ltb_ge in E. apply N.ltb_ge. apply Z2N.inj_le; lia.
Qed.

Lemma unemb_emb : forall a, int64_range a = true -> unemb (emb a) = a.
Proof.
  intros a Ha. unfold int64_range in Ha. apply andb_prop in Ha. destruct Ha as [Ha _]. apply Z.leb_le in Ha.
  unfold unemb, emb. rewrite Z2N.id by lia. lia.
Qed.
