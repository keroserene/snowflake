(* RegexDisjProofs.v — soundness of Model/RegexDisj.v:
     disj_sound        : disj r1 r2 = true -> no word is in both languages
     disj_by_exploration : is_ok (disj_run r1 r2) = true -> disj r1 r2 = true
     tail_after_sound  : x ++ e :: y in L(r), e in the class P  ->  y in L(tail_after P r)
     nonnull_sound     : w in L(r), w <> []  ->  w in L(nonnull r)
     ms_strip_eol      : on a non-empty rest, r behaves like strip_top_eol r
   and two small facts about the symbols of a word of a language. *)
From Coq Require Import List NArith Bool Arith Lia.
From Snow Require Import Lib.Wire Lib.ListFacts Model.Regex Model.RegexIncl Model.RegexDisj.
From Snow Require Import Proofs.RegexProofs Proofs.MatcherProofs.
Import ListNotations.
Open Scope N_scope.

Lemma rng_eqb_eq : forall a b, rng_eqb a b = true -> a = b.
Proof.
  intros [a1 a2] [b1 b2] H. unfold rng_eqb in H; simpl in H.
  apply andb_true_iff in H; destruct H as [H1 H2].
  apply N.eqb_eq in H1; apply N.eqb_eq in H2; subst; reflexivity.
Qed.

Lemma uniq_rngs_incl : forall rs acc x, In x acc \/ In x rs -> In x (uniq_rngs acc rs).
Proof.
  induction rs as [|y rs IH]; intros acc x H; simpl.
  - destruct H as [H|[]]; auto.
  - destruct (existsb (rng_eqb y) acc) eqn:E.
    + apply IH. destruct H as [H|[H|H]]; auto.
      subst. left. apply existsb_exists in E. destruct E as (z & Hz & Hq).
      apply rng_eqb_eq in Hq; subst; auto.
    + apply IH. destruct H as [H|[H|H]]; [left; right; auto|left; left; auto|right; auto].
Qed.

Definition disj_triv (p : pair) : bool := is_emp (fst p) || is_emp (snd p).
Definition disj_bad (p : pair) : bool := nullable (fst p) && nullable (snd p).

Lemma disj_explored : forall reps f p V, dexplore f reps [(p, [])] [] = XOk V ->
  done disj_triv V p /\ closed_set reps disj_triv disj_bad V.
Proof.
  intros reps. apply (explore_start reps disj_triv disj_bad (fun f => dexplore f reps)); [reflexivity|].
  intros f [|[[a b] w] todo] seen; reflexivity.
Qed.

Local Opaque explore_fuel.

Theorem disj_sound : forall r1 r2,
  disj r1 r2 = true -> forall w, matches r1 w -> matches r2 w -> False.
Proof.
  intros r1 r2 H. unfold disj, disj_with, disj_reps in H.
  set (rs := uniq_rngs [] (ranges r1 ++ ranges r2)) in *.
  destruct (dexplore explore_fuel (representatives rs) [(r1, r2, [])] []) as [V| |] eqn:E; try discriminate.
  destruct (disj_explored _ _ _ _ E) as [Hs Hc]. intros w.
  apply (closed_set_sound (representatives rs) disj_triv disj_bad rs
           (fun w p => matches (fst p) w -> matches (snd p) w -> False)
           (representatives_cover rs)) with (V := V) (p := (r1, r2)); auto.
  - intros u p Ht M1 M2. apply orb_true_iff in Ht. destruct Ht as [Ht|Ht]; apply is_emp_true in Ht;
      [rewrite Ht in M1; exact (matches_emp _ M1) | rewrite Ht in M2; exact (matches_emp _ M2)].
  - intros p Hb M1 M2. apply nullable_correct in M1, M2.
    unfold disj_bad in Hb. rewrite M1, M2 in Hb. discriminate.
  - intros c u p Hg M1 M2. apply Hg; apply deriv_correct; assumption.
  - apply ranges_respects. intros x Hx. apply uniq_rngs_incl. right. apply in_or_app; auto.
  - apply ranges_respects. intros x Hx. apply uniq_rngs_incl. right. apply in_or_app; auto.
Qed.

Lemma disj_by_exploration : forall r1 r2, is_ok (disj_run r1 r2) = true -> disj r1 r2 = true.
Proof.
  intros r1 r2. unfold disj_run, disj, disj_with.
  destruct (dexplore _ _ _ _) as [V| |] eqn:E; try discriminate. intros _.
  destruct (disj_explored _ _ _ _ E) as [Hs Hc].
  apply andb_true_iff. split; [apply orb_true_iff; exact Hs|].
  apply forallb_forall. intros p Hp. destruct (Hc p Hp) as [Hb Hd].
  apply andb_true_iff. split.
  - unfold disj_bad in Hb. rewrite Hb. reflexivity.
  - apply forallb_forall. intros c Hc'. apply orb_true_iff. exact (Hd c Hc').
Qed.

Lemma rep_min0 : forall a n m w, matches (Rep a m n) w -> matches (Rep a 0 n) w.
Proof.
  intros a n; induction n as [|n IH]; intros m w H; inversion H; subst; try (constructor; fail).
  apply (MRepS a 0 n); auto. simpl. eapply IH; eauto.
Qed.

Lemma rep_max_S : forall a n w, matches (Rep a 0 n) w -> matches (Rep a 0 (S n)) w.
Proof.
  intros a n; induction n as [|n IH]; intros w H; inversion H; subst; try (constructor; fail).
  apply (MRepS a 0 (S n)); auto.
Qed.

Lemma in_rng_overlap : forall e a b, in_rng e a = true -> in_rng e b = true -> rng_overlap a b = true.
Proof.
  intros e [a1 a2] [b1 b2] Ha Hb. unfold in_rng, rng_overlap in *; simpl in *.
  apply andb_true_iff in Ha; destruct Ha as [A1 A2].
  apply andb_true_iff in Hb; destruct Hb as [B1 B2].
  apply N.leb_le in A1, A2, B1, B2. apply N.leb_le. lia.
Qed.

Lemma in_cls_exists : forall e rs, in_cls e rs = true -> exists rg, In rg rs /\ in_rng e rg = true.
Proof. intros e rs H. rewrite in_cls_existsb in H. apply existsb_exists, H. Qed.

Lemma cls_overlap_true : forall rs P e,
  in_cls e rs = true -> in_cls e P = true -> cls_overlap rs P = true.
Proof.
  intros rs P e H1 H2.
  destruct (in_cls_exists _ _ H1) as (a & Ha & Ra).
  destruct (in_cls_exists _ _ H2) as (b & Hb & Rb).
  unfold cls_overlap. apply existsb_exists. exists a; split; auto.
  apply existsb_exists. exists b; split; auto. eapply in_rng_overlap; eauto.
Qed.

Lemma app_split : forall {A} (w1 w2 x : list A) e y, w1 ++ w2 = x ++ e :: y ->
  (exists y1, w1 = x ++ e :: y1 /\ y = y1 ++ w2) \/ (exists x2, x = w1 ++ x2 /\ w2 = x2 ++ e :: y).
Proof.
  intros A w1 w2 x e y H. destruct (Nat.le_gt_cases (length w1) (length x)) as [Hl|Hl].
  - right. exact (app_eq_app_le _ _ _ _ H Hl).
  - left. destruct (app_eq_app_le x (e :: y) w1 w2 (eq_sym H)) as ([|e' y1] & E1 & E2); [lia| |].
    + rewrite app_nil_r in E1. subst. lia.
    + injection E2 as <- ->. exists y1. auto.
Qed.

Lemma tail_after_sound : forall P r w, matches r w ->
  forall x e y, w = x ++ e :: y -> in_cls e P = true -> matches (tail_after P r) y.
Proof.
  intros P r w H; induction H; intros x e y E He; simpl.
  - destruct x; discriminate.
  - destruct x as [|d x]; simpl in E; [|destruct x; discriminate].
    inversion E; subst. rewrite (cls_overlap_true rs P e); auto. constructor.
  - destruct (app_split _ _ _ _ _ E) as [(y1 & E1 & E2)|(x2 & E1 & E2)]; subst.
    + apply MAltL. constructor; auto. eapply IHmatches1; eauto.
    + apply MAltR. eapply IHmatches2; eauto.
  - apply MAltL; eapply IHmatches; eauto.
  - apply MAltR; eapply IHmatches; eauto.
  - destruct x; discriminate.
  - destruct (app_split _ _ _ _ _ E) as [(y1 & E1 & E2)|(x2 & E1 & E2)]; subst.
    + constructor; auto. eapply IHmatches1; eauto.
    + eapply IHmatches2; eauto.
  - destruct x; discriminate.
  - destruct (app_split _ _ _ _ _ E) as [(y1 & E1 & E2)|(x2 & E1 & E2)]; subst.
    + constructor; [eapply IHmatches1; eauto|]. eapply rep_min0; eauto.
    + specialize (IHmatches2 _ _ _ eq_refl He). simpl in IHmatches2.
      destruct n as [|n']; [inversion IHmatches2|].
      inversion IHmatches2; subst. constructor; auto. apply rep_max_S; auto.
  - eapply IHmatches; eauto.
Qed.

Lemma nonnull_sound : forall r w, matches r w -> w <> [] -> matches (nonnull r) w.
Proof.
  intros r w H; induction H; intros Hne; simpl.
  - contradiction.
  - constructor; auto.
  - destruct w1 as [|c w1].
    + simpl in *. apply MAltR. change w2 with ([] ++ w2). constructor; auto.
    + apply MAltL. constructor; auto. apply IHmatches1; discriminate.
  - apply MAltL; auto.
  - apply MAltR; auto.
  - contradiction.
  - destruct w1 as [|c w1].
    + simpl in *. apply IHmatches2; auto.
    + constructor; auto. apply IHmatches1; discriminate.
  - contradiction.
  - destruct w1 as [|c w1].
    + simpl in *. specialize (IHmatches2 Hne). destruct n as [|n']; simpl in IHmatches2; [inversion IHmatches2|].
      inversion IHmatches2; subst. constructor; auto. apply rep_max_S; auto.
    + constructor; [apply IHmatches1; discriminate|]. eapply rep_min0; eauto.
  - auto.
Qed.

Lemma ms_strip_eol : forall r s p c s1 p1 c1,
  ms r s p c s1 p1 c1 -> s <> [] -> ms (strip_top_eol r) s p c s1 p1 c1.
Proof.
  induction 1; intros Hne; simpl; try contradiction;
    try (apply SAltL; auto; fail); try (apply SAltR; auto; fail); econstructor; eauto.
Qed.

Lemma in_cls_app : forall c a b, in_cls c (a ++ b) = in_cls c a || in_cls c b.
Proof. intros c a b. rewrite !in_cls_existsb. apply existsb_app. Qed.

Lemma matches_in_ranges : forall r w, matches r w -> forall c, In c w -> in_cls c (ranges r) = true.
Proof.
  induction 1; intros x Hin; simpl in *; try contradiction; auto.
  - destruct Hin as [Hin|[]]; subst; auto.
  - rewrite in_cls_app. apply in_app_or in Hin; destruct Hin as [Hi|Hi];
      [rewrite (IHmatches1 _ Hi)|rewrite (IHmatches2 _ Hi)]; auto using orb_true_r.
  - rewrite in_cls_app, (IHmatches _ Hin); auto.
  - rewrite in_cls_app, (IHmatches _ Hin); auto using orb_true_r.
  - apply in_app_or in Hin; destruct Hin as [Hi|Hi]; auto.
  - apply in_app_or in Hin; destruct Hin as [Hi|Hi]; auto.
Qed.

Lemma star_any : forall rs w, (forall c, In c w -> in_cls c rs = true) -> matches (Star (Cls rs)) w.
Proof.
  induction w as [|c w IH]; intros H; [constructor|].
  change (c :: w) with ([c] ++ w). constructor.
  - constructor. apply H; left; auto.
  - apply IH. intros d Hd; apply H; right; auto.
Qed.
