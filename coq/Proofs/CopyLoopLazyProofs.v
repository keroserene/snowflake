(* CopyLoopLazyProofs.v — what copyLoop guarantees about its two copiers AT ITS RETURN when Close does not terminate the
   parked copiers atomically (Model/CopyLoop.v [cl_do_lazy]: a Close only marks the conn closed).

   In the main model [wake] ends the parked copiers in the step that closes their conn, so both copiers are gone when
   copyLoop returns. Go's copyLoop does not join its copiers: it returns after the two deferred Close calls, while a copier
   may still be parked in a Read or Write that is about to fail. For the machine without the atomic wake, for ALL scripts
   and ALL schedules: at the return both conns are closed (each exactly once); a copier still inside io.Copy leaves it at
   its very next step, which moves no byte, advances no script and closes nothing; nothing is accepted after the return. *)
From Coq Require Import List NArith Bool Arith Lia.
From Snow Require Import Model.CopyLoop Proofs.CopyLoopProofs.
Import ListNotations.
Open Scope nat_scope.

(* closes made by copyLoop so far, by the stage it is at *)
Definition lazy_inv (st : cl_state) : Prop := forall s, s_closes (get_side s st) = expected_closes s (mn st).

Lemma lazy_step_inv st x : lazy_inv st -> lazy_inv (cl_do_lazy st x).
Proof.
  intros Hi. destruct x as [d| | |s0]; cbn [cl_do_lazy].
  - (* a copier closes nothing and moves copyLoop at most out of its select *)
    cbn [cl_do_lazy]. destruct (rel_frame d st) as [_ _ _ _ Hc _ _ _ Hm]. intros s. rewrite Hc, Hi.
    destruct Hm as [-> |[-> _]]; rewrite ?expected_woken; reflexivity.
  - unfold do_main_lazy. pose proof (Hi false) as H0. pose proof (Hi true) as H1. cbn [get_side] in H0, H1.
    destruct (mn st) eqn:Em; try exact Hi; cbn [expected_closes] in H0, H1; intros s; destruct s; cbn; rewrite ?H0, ?H1; reflexivity.
  - cbn [cl_do]. rewrite do_shutdown_eq. intros s. specialize (Hi s). destruct (mn st) eqn:Em; cbn; autorewrite with cl; exact Hi.
  - intros s. destruct (bool_cases s s0) as [->| ->]; autorewrite with cl; [cbn [side_ext s_closes]|]; apply Hi.
Qed.

Lemma lazy_run_inv sched : forall st, lazy_inv st -> lazy_inv (cl_run_lazy sched st).
Proof.
  induction sched as [|x l IH]; intros st Hi; [exact Hi|]. cbn [cl_run_lazy fold_left].
  change (fold_left cl_do_lazy l (cl_do_lazy st x)) with (cl_run_lazy l (cl_do_lazy st x)). apply IH, lazy_step_inv, Hi.
Qed.

Lemma lazy_init_inv r0 w0 r1 w1 : lazy_inv (cl_init r0 w0 r1 w1).
Proof. intros s. destruct s; reflexivity. Qed.

Theorem lazy_returned_closed r0 w0 r1 w1 sched :
  let st := cl_run_lazy sched (cl_init r0 w0 r1 w1) in
  mn st = Returned -> forall s, s_closes (get_side s st) = 1 /\ closed (get_side s st) = true.
Proof.
  intros st Hm s. pose proof (lazy_run_inv sched _ (lazy_init_inv r0 w0 r1 w1) s) as H. fold st in H. rewrite Hm in H.
  cbn in H. split; [exact H|]. unfold closed. rewrite H. apply closedb_S.
Qed.

(* a step of copier d after the return (both conns closed): the copier has left io.Copy, and nothing else changed *)
Lemma closed_rel_step d st :
  (forall s, closed (get_side s st) = true) -> mn st = Returned ->
  get_dir d (cl_do_lazy st (Rel d)) = Exited /\
  (forall s, get_side s (cl_do_lazy st (Rel d)) = get_side s st) /\
  get_dir (negb d) (cl_do_lazy st (Rel d)) = get_dir (negb d) st /\
  mn (cl_do_lazy st (Rel d)) = Returned.
Proof.
  intros Hc Hm. cbn [cl_do_lazy cl_do]. destruct (get_dir d st) as [|c er|] eqn:Ed.
  - unfold do_read. rewrite (Hc d). autorewrite with cl. rewrite Hm. repeat split; intros; autorewrite with cl; auto.
  - unfold do_write. rewrite (Hc (negb d)). autorewrite with cl. rewrite Hm. repeat split; intros; autorewrite with cl; auto.
  - repeat split; auto.
Qed.

(* a copier need not be gone at the return: that its next step takes it out of io.Copy (closed_rel_step) is all that
   holds of this machine *)
Lemma lazy_copier_may_outlive_return :
  let st := cl_run_lazy [Shutdown; RelMain; RelMain] (cl_init [] [] [] []) in
  mn st = Returned /\ get_dir false st = AtRead /\ get_dir true st = AtRead.
Proof. vm_compute. repeat split. Qed.

(* after the return nothing moves, whatever follows: no byte accepted or handed out, no script advanced, no Close *)
Definition after_return (st : cl_state) : Prop := mn st = Returned /\ forall s, closed (get_side s st) = true.

Lemma closed_side_view x y : side_view x = side_view y -> closed x = true -> s_ext y = s_ext x \/ s_ext y = true -> closed y = true.
Proof.
  unfold side_view, closed. intros H Hc He. injection H as _ _ _ _ Hcl. rewrite <- Hcl.
  destruct He as [-> | ->]; [exact Hc | apply closedb_ext].
Qed.

Lemma after_return_step st x :
  after_return st -> after_return (cl_do_lazy st x) /\ forall s, side_view (get_side s (cl_do_lazy st x)) = side_view (get_side s st).
Proof.
  intros [Hm Hc]. destruct x as [d| | |s0].
  - destruct (closed_rel_step d st Hc Hm) as (_ & Hs & _ & Hm').
    split; [split; [exact Hm'|intros s; rewrite Hs; apply Hc] | intros s; rewrite Hs; reflexivity].
  - cbn [cl_do_lazy]. unfold do_main_lazy. rewrite Hm. split; [split; assumption | reflexivity].
  - cbn [cl_do_lazy cl_do]. rewrite do_shutdown_eq. rewrite Hm.
    split; [split; [autorewrite with cl; reflexivity | intros s; autorewrite with cl; apply Hc] | intros s; autorewrite with cl; reflexivity].
  - cbn [cl_do_lazy]. split; [split|].
    + autorewrite with cl. exact Hm.
    + intros s. destruct (bool_cases s s0) as [->| ->]; autorewrite with cl; [|apply Hc]. unfold closed. cbn [side_ext s_ext s_closes]. apply closedb_ext.
    + intros s. destruct (bool_cases s s0) as [->| ->]; autorewrite with cl; reflexivity.
Qed.

Lemma after_return_run more : forall st, after_return st ->
  after_return (cl_run_lazy more st) /\ forall s, side_view (get_side s (cl_run_lazy more st)) = side_view (get_side s st).
Proof.
  induction more as [|x l IH]; intros st Ha; [split; [exact Ha | reflexivity]|]. cbn [cl_run_lazy fold_left].
  change (fold_left cl_do_lazy l (cl_do_lazy st x)) with (cl_run_lazy l (cl_do_lazy st x)).
  destruct (after_return_step st x Ha) as [Ha' Hv]. destruct (IH _ Ha') as [Ha'' Hv'].
  split; [exact Ha''|]. intros s. rewrite Hv', Hv. reflexivity.
Qed.

Lemma cl_run_lazy_app a b st : cl_run_lazy (a ++ b) st = cl_run_lazy b (cl_run_lazy a st).
Proof. apply fold_left_app. Qed.

Theorem lazy_returned_inert r0 w0 r1 w1 sched more :
  let st := cl_run_lazy sched (cl_init r0 w0 r1 w1) in
  mn st = Returned ->
  mn (cl_run_lazy (sched ++ more) (cl_init r0 w0 r1 w1)) = Returned /\
  forall s, side_view (get_side s (cl_run_lazy (sched ++ more) (cl_init r0 w0 r1 w1))) = side_view (get_side s st).
Proof.
  intros st Hm. rewrite cl_run_lazy_app. fold st.
  assert (Ha : after_return st) by (split; [exact Hm | intros s; apply (lazy_returned_closed r0 w0 r1 w1 sched Hm s)]).
  destruct (after_return_run more st Ha) as [[Hm' _] Hv]. split; assumption.
Qed.
