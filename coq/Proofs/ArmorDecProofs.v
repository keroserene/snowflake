(* ArmorDecProofs.v — the decoder automaton on armored documents: round trip, shape of the
   encoder's document, whitespace re-separation, size limit. *)
From Coq Require Import List NArith Lia Bool Arith String.
From Snow Require Import Lib.Wire Lib.ListFacts Model.Base64 Model.Armor Proofs.Base64Proofs Proofs.ArmorEncProofs.
Import ListNotations.
Open Scope N_scope.

(* the automaton's state outside an error: tokenizer (mode, count, data of the text token being read),
   inside pre?, words written so far *)
Definition mkb (m : mode) (n : N) (tb : bytes) (a : bool) (o : list bytes) : dst :=
  {| tkz := tk m n tb; active := a; out_rev := o; halt := None |}.
Definition mk (m : mode) (n : N) (a : bool) (o : list bytes) : dst := mkb m n [] a o.
Definition st (t : tks) (a : bool) (o : list bytes) : dst := {| tkz := t; active := a; out_rev := o; halt := None |}.

Definition strip (t : bytes) : bytes := filter (fun c => negb (isws c)) t.
Definition noLT (t : bytes) : Prop := Forall (fun c => c <> LT) t.
Definition blen (t : bytes) : N := N.of_nat (List.length t).

Lemma blen_cons : forall c t, blen (c :: t) = blen t + 1.
Proof. intros. unfold blen. cbn [List.length]. lia. Qed.
Lemma blen_app : forall a b, blen (a ++ b) = blen a + blen b.
Proof. intros. unfold blen. rewrite app_length. lia. Qed.

Lemma run_app : forall a b s, run s (a ++ b) = run (run s a) b.
Proof. intros. unfold run. apply fold_left_app. Qed.

Lemma run_cons : forall s c l, run s (c :: l) = run (step s c) l.
Proof. reflexivity. Qed.

Lemma strip_app : forall a b, strip (a ++ b) = strip a ++ strip b.
Proof. intros. unfold strip. apply filter_app. Qed.

Lemma words_aux_concat : forall l cur, List.concat (words_aux l cur) = rev cur ++ strip l.
Proof.
  induction l as [|c l IH]; intros cur.
  - cbn [words_aux strip filter]. rewrite app_nil_r. destruct cur; [reflexivity|].
    cbn [List.concat]. rewrite rev_append_rev, !app_nil_r. reflexivity.
  - cbn [words_aux strip filter]. fold (strip l). destruct (isws c) eqn:E; cbn [negb].
    + destruct cur as [|x cur]; [rewrite IH; reflexivity|].
      cbn [List.concat]. rewrite IH. rewrite rev_append_rev, app_nil_r. reflexivity.
    + rewrite IH. cbn [rev]. rewrite <- app_assoc. reflexivity.
Qed.

Lemma words_concat : forall l, List.concat (words l) = strip l.
Proof. intros. unfold words. rewrite words_aux_concat. reflexivity. Qed.

Lemma words_aux_len : forall l cur, Forall (fun w => (List.length w <= List.length cur + List.length l)%nat) (words_aux l cur).
Proof.
  induction l as [|c l IH]; intros cur.
  - cbn [words_aux]. destruct cur; [constructor|]. constructor; [|constructor].
    rewrite rev_append_rev, app_nil_r, rev_length. cbn [List.length]. lia.
  - cbn [words_aux]. destruct (isws c).
    + destruct cur as [|x cur].
      * eapply Forall_impl; [|apply IH]. cbv beta. cbn [List.length]. intros; lia.
      * constructor.
        -- rewrite rev_append_rev, app_nil_r, rev_length. cbn [List.length]. lia.
        -- eapply Forall_impl; [|apply IH]. cbv beta. cbn [List.length]. intros; lia.
    + eapply Forall_impl; [|apply IH]. cbv beta. cbn [List.length]. intros; lia.
Qed.

Lemma words_len : forall l, Forall (fun w => (List.length w <= List.length l)%nat) (words l).
Proof. intros. unfold words. apply (words_aux_len l []). Qed.

Lemma cut_long_short : forall ws, Forall (fun w => N.of_nat (List.length w) < TOOLONG) ws -> cut_long ws = (ws, false).
Proof.
  induction 1 as [|w ws Hw Hr IH]; [reflexivity|]. cbn [cut_long].
  replace (TOOLONG <=? N.of_nat (List.length w)) with false by (symmetry; apply N.leb_gt; exact Hw).
  rewrite IH. reflexivity.
Qed.

(* text that Text() returns as it is: no '&' (nothing for unescape), no CR (nothing for convertNewlines) *)
Definition plain (t : bytes) : Prop := Forall (fun c => c <> AMP /\ c <> 13) t.

Lemma conv_nl_plain : forall t, Forall (fun c => c <> 13) t -> conv_nl t = t.
Proof.
  induction 1 as [|c t Hc Ht IH]; [reflexivity|]. cbn [conv_nl].
  replace (c =? 13) with false by (symmetry; apply N.eqb_neq; exact Hc). rewrite IH. reflexivity.
Qed.
Lemma unesc_plain : forall t, Forall (fun c => c <> AMP) t -> unesc O t = t.
Proof.
  induction 1 as [|c t Hc Ht IH]; [reflexivity|]. cbn [unesc].
  replace (c =? AMP) with false by (symmetry; apply N.eqb_neq; exact Hc). rewrite IH. reflexivity.
Qed.

Lemma strip_cons : forall c l, strip (c :: l) = if isws c then strip l else c :: strip l.
Proof. intros. unfold strip. cbn [filter]. destruct (isws c); reflexivity. Qed.

(* convertNewlines looks two bytes ahead: its cases, with the result of the recursive call *)
Lemma conv_nl_ind (P : bytes -> bytes -> Prop) :
  P [] [] ->
  (forall t, P t (conv_nl t) -> P (13 :: 10 :: t) (10 :: conv_nl t)) ->
  (forall t, P t (conv_nl t) -> P (13 :: t) (10 :: conv_nl t)) ->
  (forall c t, c <> 13 -> P t (conv_nl t) -> P (c :: t) (c :: conv_nl t)) ->
  forall t, P t (conv_nl t).
Proof.
  intros H0 Hcrlf Hcr Hc.
  assert (H : forall t, P t (conv_nl t) /\ forall c, P (c :: t) (conv_nl (c :: t))).
  { induction t as [|c2 t [IH1 IH2]].
    - split; [exact H0|]. intros c. cbn [conv_nl]. destruct (N.eqb_spec c 13) as [->|N]; [apply Hcr|apply Hc]; assumption.
    - split; [apply IH2|]. intros c. cbn [conv_nl]. destruct (N.eqb_spec c 13) as [->|N]; [|apply Hc; [exact N|apply IH2]].
      destruct (N.eqb_spec c2 10) as [->|N]; [apply Hcrlf, IH1|apply Hcr, IH2]. }
  intros t. apply H.
Qed.

(* convertNewlines only rewrites whitespace into whitespace *)
Lemma strip_conv_nl : forall t, strip (conv_nl t) = strip t.
Proof.
  apply (conv_nl_ind (fun t r => strip r = strip t)); [reflexivity|intros t IH..|intros c t _ IH]; rewrite !strip_cons.
  - exact IH.
  - exact IH.
  - rewrite IH. reflexivity.
Qed.

Lemma conv_nl_noamp : forall t, Forall (fun c => c <> AMP) t -> Forall (fun c => c <> AMP) (conv_nl t).
Proof.
  apply (conv_nl_ind (fun t r => Forall (fun c => c <> AMP) t -> Forall (fun c => c <> AMP) r));
    [constructor|intros t IH H..|intros c t _ IH H].
  - inversion H as [|? ? _ H1]; inversion H1; subst. constructor; [discriminate|auto].
  - inversion H; subst. constructor; [discriminate|auto].
  - inversion H; subst. constructor; auto.
Qed.

Lemma conv_nl_len : forall t, (List.length (conv_nl t) <= List.length t)%nat.
Proof.
  apply (conv_nl_ind (fun t r => (List.length r <= List.length t)%nat)); intros; cbn [List.length]; lia.
Qed.

(* the words decodeToWriter writes for a text token whose text has no '&' *)
Lemma text_words : forall t, Forall (fun c => c <> AMP) t -> blen t < MAXBUF ->
  exists ws, cut_long (words (text_data KText t)) = (ws, false) /\ List.concat ws = strip t.
Proof.
  intros t Ht Hn. exists (words (text_data KText t)). unfold text_data, unescape.
  rewrite (unesc_plain _ (conv_nl_noamp t Ht)). split.
  - apply cut_long_short. eapply Forall_impl; [|apply words_len]. cbv beta. intros w Hw.
    pose proof (conv_nl_len t). unfold blen, MAXBUF, TOOLONG in *. lia.
  - rewrite words_concat. apply strip_conv_nl.
Qed.

Lemma apply_nil : forall t a o, apply_toks t a o [] = {| tkz := t; active := a; out_rev := o; halt := None |}.
Proof. reflexivity. Qed.

(* the tokenizer's two text states below the buffer limit *)
Lemma tk_step_txt : forall n tb c, n + 1 < MAXBUF -> tk_step (tk MTxt n tb) c = txt_on tb (n + 1) c.
Proof.
  intros n tb c Hn. unfold tk_step, tk. cbn [tmd tcnt tbuf]. rewrite (proj2 (N.leb_gt _ _) Hn). reflexivity.
Qed.
Lemma tk_step_lt : forall n tb c, n + 1 < MAXBUF ->
  tk_step (tk MLt n tb) c =
  if is_letter c then (tk (MTag false TgName [c] c) 2 [], flush KText tb)
  else if c =? SLASH then (tk MEndOpen 2 [], flush KText tb)
  else if c =? BANG then (tk (MBang 0) 2 [], flush KText tb)
  else if c =? QMARK then (tk MGt 2 [], flush KText tb)
  else txt_on (LT :: tb) (n + 1) c.
Proof.
  intros n tb c Hn. unfold tk_step, tk. cbn [tmd tcnt tbuf]. rewrite (proj2 (N.leb_gt _ _) Hn). reflexivity.
Qed.

Lemma step_mkb : forall m n tb a o c,
  step (mkb m n tb a o) c = let '(t, ts) := tk_step (tk m n tb) c in apply_toks t a o ts.
Proof. reflexivity. Qed.

Lemma step_txt : forall n tb a o c, n + 1 < MAXBUF -> c <> LT ->
  step (mkb MTxt n tb a o) c = mkb MTxt (n + 1) (c :: tb) a o.
Proof.
  intros n tb a o c Hn Hc. rewrite step_mkb, tk_step_txt by exact Hn.
  unfold txt_on. rewrite (proj2 (N.eqb_neq _ _) Hc). reflexivity.
Qed.

Lemma step_txt_lt : forall n tb a o, n + 1 < MAXBUF -> step (mkb MTxt n tb a o) LT = mkb MLt (n + 1) tb a o.
Proof. intros n tb a o Hn. rewrite step_mkb, tk_step_txt by exact Hn. reflexivity. Qed.

(* [s] is what decodeToWriter leaves of (a, o) after the text token [tb] that ends where a tag starts *)
Definition flushed (a : bool) (tb : bytes) (o : list bytes) : dst -> Prop :=
  fun s => s = apply_toks (tkz s) a o (flush KText tb).

Lemma step_lt_slash : forall n tb a o, n + 1 < MAXBUF ->
  step (mkb MLt n tb a o) SLASH = apply_toks (tk MEndOpen 2 []) a o (flush KText tb).
Proof. intros n tb a o Hn. rewrite step_mkb, tk_step_lt by exact Hn. reflexivity. Qed.

Lemma step_lt_p : forall n tb a o, n + 1 < MAXBUF ->
  step (mkb MLt n tb a o) 112 = apply_toks (tk (MTag false TgName [112] 112) 2 []) a o (flush KText tb).
Proof. intros n tb a o Hn. rewrite step_mkb, tk_step_lt by exact Hn. reflexivity. Qed.

(* outside pre a text token is dropped *)
Lemma apply_flush_inactive : forall t tb o, apply_toks t false o (flush KText tb) = st t false o.
Proof. intros t [|c tb] o; reflexivity. Qed.

(* inside pre its words are written *)
Lemma apply_flush_active : forall t tb o ws,
  cut_long (words (text_data KText (rev tb))) = (ws, false) ->
  apply_toks t true o (flush KText tb) = st t true (rev ws ++ o).
Proof.
  intros t tb o ws H. destruct tb as [|c tb].
  - cbn in H. injection H as <-. reflexivity.
  - unfold flush, apply_toks. cbn [dw_toks dw_tok]. rewrite rev_append_rev, app_nil_r. rewrite H.
    cbn [w_end w_act w_words]. rewrite app_nil_r. rewrite rev_append_rev. reflexivity.
Qed.

Lemma run_text : forall t n tb a o, noLT t -> n + blen t < MAXBUF ->
  run (mkb MTxt n tb a o) t = mkb MTxt (n + blen t) (rev t ++ tb) a o.
Proof.
  induction t as [|c t IH]; intros n tb a o Hs Hn.
  - cbn. unfold blen. cbn. rewrite N.add_0_r. reflexivity.
  - inversion Hs as [|? ? Hc Ht]; subst. rewrite blen_cons in *.
    rewrite run_cons.
    rewrite step_txt by (assumption || lia).
    rewrite IH by (assumption || lia).
    cbn [rev]. rewrite <- app_assoc. cbn [app]. f_equal. lia.
Qed.

Lemma run_open_pre : forall o, run (st (tk (MTag false TgName [112] 112) 2 []) false o) (bs "re>"%string) = mk MTxt 0 true o.
Proof. intros o. vm_compute. reflexivity. Qed.
Lemma run_close_pre : forall o, run (st (tk MEndOpen 2 []) true o) (bs "pre>"%string) = mk MTxt 0 false o.
Proof. intros o. vm_compute. reflexivity. Qed.
Lemma run_boiler_start : run dinit boilerplate_start = mkb MTxt 1 [LF] false [].
Proof. vm_compute. reflexivity. Qed.
Lemma boiler_end_eq : boilerplate_end = LT :: SLASH :: bs "body>"%string ++ [LF] ++ bs "</html>"%string.
Proof. vm_compute. reflexivity. Qed.
Lemma run_boiler_end_tail : forall o,
  run (st (tk MEndOpen 2 []) false o) (bs "body>"%string ++ [LF] ++ bs "</html>"%string) = mk MTxt 0 false o.
Proof. intros o. vm_compute. reflexivity. Qed.
Lemma pre_open_eq : bs "<pre>"%string = LT :: 112 :: bs "re>"%string.
Proof. vm_compute. reflexivity. Qed.
Lemma pre_close_eq : bs "</pre>"%string = LT :: SLASH :: bs "pre>"%string.
Proof. vm_compute. reflexivity. Qed.

(* "<pre>" met in the text outside pre *)
Lemma run_pre_open : forall n tb o, n + 2 < MAXBUF ->
  run (mkb MTxt n tb false o) (bs "<pre>"%string) = mk MTxt 0 true o.
Proof.
  intros n tb o Hn. rewrite pre_open_eq, !run_cons.
  rewrite step_txt_lt by lia. rewrite step_lt_p by lia. rewrite apply_flush_inactive.
  apply run_open_pre.
Qed.

Lemma run_boiler_end : forall n tb o, n + 2 < MAXBUF ->
  run (mkb MTxt n tb false o) boilerplate_end = mk MTxt 0 false o.
Proof.
  intros n tb o Hn. rewrite boiler_end_eq.
  rewrite !run_cons.
  rewrite step_txt_lt by lia. rewrite step_lt_slash by lia. rewrite apply_flush_inactive.
  apply run_boiler_end_tail.
Qed.

(* documents: boilerplate, pre elements whose text has no '<' and no '&', '<'-free text after each *)
Definition seg_bytes (sg : bytes * bytes) : bytes := bs "<pre>"%string ++ fst sg ++ bs "</pre>"%string ++ snd sg.
Definition doc_of (segs : list (bytes * bytes)) : bytes :=
  boilerplate_start ++ List.concat (map seg_bytes segs) ++ boilerplate_end.
Definition noAMP (t : bytes) : Prop := Forall (fun c => c <> AMP) t.
(* +2: the tokenizer reads two bytes of look-ahead ("</") into the text token's buffer *)
Definition seg_ok (sg : bytes * bytes) : Prop :=
  noLT (fst sg) /\ noAMP (fst sg) /\ noLT (snd sg) /\ blen (fst sg) + 2 < MAXBUF /\ blen (snd sg) + 2 < MAXBUF.

Definition words_cat (o : list bytes) : bytes := List.concat (rev o).

Lemma run_seg : forall t post n tb o, n + 2 < MAXBUF -> seg_ok (t, post) ->
  exists o', run (mkb MTxt n tb false o) (seg_bytes (t, post)) = mkb MTxt (blen post) (rev post) false o' /\
             words_cat o' = words_cat o ++ strip t.
Proof.
  intros t post n tb o Hn (H1 & HA & H2 & H3 & H4). cbn [fst snd] in *.
  destruct (text_words t HA ltac:(lia)) as (ws & Hws & Hcat).
  exists (rev ws ++ o). split.
  - unfold seg_bytes. cbn [fst snd]. rewrite run_app, run_pre_open by exact Hn. rewrite pre_close_eq.
    rewrite run_app. unfold mk. rewrite run_text by (assumption || lia).
    cbn [app]. rewrite !run_cons.
    rewrite step_txt_lt by lia. rewrite step_lt_slash by lia.
    rewrite app_nil_r. rewrite (apply_flush_active _ (rev t) o ws) by (rewrite rev_involutive; exact Hws).
    rewrite run_app. rewrite run_close_pre.
    unfold mk. rewrite run_text by (assumption || lia).
    rewrite N.add_0_l, app_nil_r. reflexivity.
  - unfold words_cat. rewrite rev_app_distr, rev_involutive, concat_app, Hcat. reflexivity.
Qed.

Lemma run_segs : forall segs n tb o, n + 2 < MAXBUF -> Forall seg_ok segs ->
  exists n' tb' o', n' + 2 < MAXBUF /\
    run (mkb MTxt n tb false o) (List.concat (map seg_bytes segs)) = mkb MTxt n' tb' false o' /\
    words_cat o' = words_cat o ++ strip (List.concat (map fst segs)).
Proof.
  induction segs as [|[t post] segs IH]; intros n tb o Hn Hok.
  - exists n, tb, o. split; [assumption|]. split; [reflexivity|]. cbn. rewrite app_nil_r. reflexivity.
  - inversion Hok as [|? ? Hs Hrest]; subst.
    cbn [map List.concat]. rewrite run_app.
    destruct (run_seg t post n tb o Hn Hs) as (o1 & E1 & C1). rewrite E1.
    destruct Hs as (_ & _ & _ & _ & Hp). cbn [snd] in Hp.
    destruct (IH (blen post) (rev post) o1 Hp Hrest) as (n' & tb' & o' & Hn' & E & C).
    exists n', tb', o'. split; [assumption|]. split; [exact E|].
    rewrite C, C1. cbn [fst]. rewrite strip_app, <- app_assoc. reflexivity.
Qed.

Lemma finish_quiet : forall o, finish (mk MTxt 0 false o) = (rev o, TEnd).
Proof. intros o. unfold finish, mk, mkb. cbn. rewrite rev_append_rev, app_nil_r. reflexivity. Qed.

Lemma scan_doc : forall segs, Forall seg_ok segs ->
  armor_scan (doc_of segs) = (strip (List.concat (map fst segs)), TEnd).
Proof.
  intros segs Hok. unfold armor_scan, armor_words_of, doc_of.
  rewrite run_app, run_boiler_start. rewrite run_app.
  destruct (run_segs segs 1 [LF] [] ltac:(unfold MAXBUF; lia) Hok) as (n' & tb' & o' & Hn' & E & C).
  rewrite E. rewrite run_boiler_end by assumption. rewrite finish_quiet.
  f_equal. exact C.
Qed.

Lemma decode_doc : forall segs p, bytes_ok p = true -> Forall seg_ok segs ->
  strip (List.concat (map fst segs)) = VERSION :: b64_encode p ->
  armor_decode (doc_of segs) = DOk p.
Proof.
  intros segs p Hp Hok Hs. unfold armor_decode. rewrite scan_doc by assumption. rewrite Hs.
  unfold decode_result. rewrite N.eqb_refl. cbn [negb].
  rewrite b64_roundtrip_seq by assumption. reflexivity.
Qed.

Definition armor_char (c : N) : Prop :=
  c = PAD \/ c = VERSION \/ (65 <= c <= 90) \/ (97 <= c <= 122) \/ (48 <= c <= 57) \/ c = 43 \/ c = 47.

Lemma armor_char_enc6 : forall n, armor_char (enc6 n).
Proof. intros n. unfold armor_char. right; right. apply enc6_range. Qed.
Lemma armor_char_pad : armor_char PAD.
Proof. left; reflexivity. Qed.

Lemma b64_encode_chars : forall p, Forall armor_char (b64_encode p).
Proof.
  intros p. induction p as [ | a | a b | a b c p IH] using list_ind3.
  - constructor.
  - cbn [b64_encode enc_tail].
    repeat (apply Forall_cons; [first [apply armor_char_enc6 | apply armor_char_pad]|]). apply Forall_nil.
  - cbn [b64_encode enc_tail].
    repeat (apply Forall_cons; [first [apply armor_char_enc6 | apply armor_char_pad]|]). apply Forall_nil.
  - cbn [b64_encode enc3 app].
    repeat (apply Forall_cons; [apply armor_char_enc6|]). exact IH.
Qed.

Lemma armor_char_safe : forall c, armor_char c -> c <> LT /\ isws c = false.
Proof.
  intros c H. unfold armor_char, PAD, VERSION in H. unfold LT, isws.
  split; [lia|]. destruct H as [->|[->|H]]; try reflexivity.
  repeat match goal with |- context [?a =? ?b] => destruct (N.eqb_spec a b); [lia|] end. reflexivity.
Qed.

Lemma armor_char_noamp : forall c, armor_char c -> c <> AMP.
Proof. intros c H. unfold armor_char, PAD, VERSION in H. unfold AMP. lia. Qed.

Definition seg_of (ws : list bytes) : bytes * bytes := (LF :: List.concat (map word_line ws), [LF]).

Lemma element_seg : forall ws, element ws = seg_bytes (seg_of ws).
Proof.
  intros ws. unfold element, seg_bytes, seg_of, PRE_OPEN, PRE_CLOSE. cbn [fst snd].
  rewrite <- !app_assoc. reflexivity.
Qed.

Lemma armor_encode_doc : forall p, armor_encode p = doc_of (map seg_of (armor_elements p)).
Proof.
  intros p. unfold armor_encode, doc_of. rewrite map_map.
  rewrite (map_ext element (fun x => seg_bytes (seg_of x)) element_seg). reflexivity.
Qed.

Lemma chars_strip : forall w, Forall armor_char w -> strip w = w.
Proof.
  induction 1 as [|c w Hc Hw IH]; [reflexivity|].
  rewrite strip_cons, IH. destruct (armor_char_safe c Hc) as [_ ->]. reflexivity.
Qed.

Lemma strip_words : forall ws, Forall (Forall armor_char) ws ->
  strip (List.concat (map word_line ws)) = List.concat ws.
Proof.
  induction 1 as [|w ws Hw _ IH]; [reflexivity|]. cbn [map List.concat]. unfold word_line at 1.
  rewrite !strip_app, IH, (chars_strip w Hw). change (strip [LF]) with (@nil N). rewrite app_nil_r. reflexivity.
Qed.

(* text made of armor characters and whitespace contains no byte x that is neither: the tokenizer stays
   in its text state on it ('<') and Text() leaves it alone ('&') *)
Definition avoids (x : N) (t : bytes) : Prop := Forall (fun c => c <> x) t.

Lemma chars_avoid : forall x w, ~ armor_char x -> Forall armor_char w -> avoids x w.
Proof. intros x w Hx H. eapply Forall_impl; [|exact H]. intros c Hc ->. exact (Hx Hc). Qed.

Lemma lt_not_char : ~ armor_char LT.
Proof. intros H. apply (armor_char_safe LT H). reflexivity. Qed.
Lemma amp_not_char : ~ armor_char AMP.
Proof. intros H. apply (armor_char_noamp AMP H). reflexivity. Qed.

Lemma words_avoid : forall x ws, x <> LF -> ~ armor_char x -> Forall (Forall armor_char) ws ->
  avoids x (List.concat (map word_line ws)).
Proof.
  intros x ws Hlf Hx. induction 1 as [|w ws Hw _ IH]; [constructor|].
  cbn [map List.concat]. unfold word_line at 1, avoids. rewrite !Forall_app. split; [split|exact IH].
  - apply chars_avoid; assumption.
  - constructor; [congruence|constructor].
Qed.

Lemma len_word_lines : forall ws, Forall (fun w => (List.length w <= bytesPerChunk)%nat) ws ->
  (List.length (List.concat (map word_line ws)) <= (bytesPerChunk + 1) * List.length ws)%nat.
Proof.
  unfold bytesPerChunk. induction ws as [|w ws IH]; intros H; [cbn; lia|].
  inversion H; subst. cbn [map List.concat List.length]. unfold word_line at 1.
  rewrite !app_length. cbn [List.length]. specialize (IH ltac:(assumption)). lia.
Qed.

Lemma in_group_chars {A} (P : A -> Prop) : forall n l, (1 <= n)%nat -> Forall P l -> Forall (Forall P) (group n l).
Proof.
  intros n l Hn H. apply Forall_forall. intros g Hg. apply Forall_forall. intros x Hx.
  rewrite Forall_forall in H. apply H. rewrite <- (group_concat n l Hn).
  apply in_concat. exists g. split; assumption.
Qed.

Lemma armor_words_facts : forall p,
  Forall (Forall armor_char) (armor_words p) /\
  Forall (fun w => (1 <= List.length w <= bytesPerChunk)%nat) (armor_words p) /\
  List.concat (armor_words p) = VERSION :: b64_encode p.
Proof.
  intros p. unfold armor_words, bytesPerChunk. repeat split.
  - apply in_group_chars; [lia|]. constructor; [right; left; reflexivity|apply b64_encode_chars].
  - apply group_sizes. lia.
  - apply group_concat. lia.
Qed.

Lemma armor_elements_facts : forall p,
  Forall (fun ws => Forall (Forall armor_char) ws /\
                    Forall (fun w => (1 <= List.length w <= bytesPerChunk)%nat) ws /\
                    (1 <= List.length ws <= chunksPerElement)%nat) (armor_elements p) /\
  List.concat (List.concat (armor_elements p)) = VERSION :: b64_encode p.
Proof.
  intros p. destruct (armor_words_facts p) as (H1 & H2 & H3).
  unfold armor_elements, chunksPerElement. split.
  - pose proof (in_group_chars (Forall armor_char) 992%nat _ ltac:(lia) H1) as G1.
    pose proof (in_group_chars (fun w => (1 <= List.length w <= 32)%nat) 992%nat _ ltac:(lia) H2) as G2.
    pose proof (group_sizes 992%nat (armor_words p) ltac:(lia)) as G3.
    rewrite Forall_forall in *. intros ws Hws. auto.
  - rewrite group_concat by lia. exact H3.
Qed.

Lemma seg_of_ok : forall ws, Forall (Forall armor_char) ws ->
  Forall (fun w => (1 <= List.length w <= bytesPerChunk)%nat) ws -> (List.length ws <= chunksPerElement)%nat ->
  seg_ok (seg_of ws).
Proof.
  intros ws Hc Hl Hn. unfold bytesPerChunk, chunksPerElement in *. unfold seg_ok, seg_of. cbn [fst snd].
  split; [|split; [|split; [|split]]].
  - constructor; [discriminate|]. apply words_avoid; [discriminate|exact lt_not_char|assumption].
  - constructor; [discriminate|]. apply words_avoid; [discriminate|exact amp_not_char|assumption].
  - constructor; [unfold LF, LT; lia|constructor].
  - assert (Hl' : Forall (fun w => (List.length w <= 32)%nat) ws)
      by (eapply Forall_impl; [|exact Hl]; cbv beta; intros; lia).
    pose proof (len_word_lines ws Hl') as L. unfold bytesPerChunk in L. unfold blen, MAXBUF. cbn [List.length]. lia.
  - unfold blen, MAXBUF. cbn. lia.
Qed.

Lemma strip_segs : forall els, Forall (Forall (Forall armor_char)) els ->
  strip (List.concat (map fst (map seg_of els))) = List.concat (List.concat els).
Proof.
  induction els as [|ws els IH]; intros H; [reflexivity|].
  inversion H; subst. cbn [map List.concat fst seg_of]. rewrite concat_app.
  rewrite strip_app. rewrite IH by assumption.
  change (LF :: List.concat (map word_line ws)) with ([LF] ++ List.concat (map word_line ws)).
  rewrite strip_app. rewrite strip_words by assumption. reflexivity.
Qed.

Lemma encode_segs : forall p, Forall seg_ok (map seg_of (armor_elements p)) /\
  strip (List.concat (map fst (map seg_of (armor_elements p)))) = VERSION :: b64_encode p.
Proof.
  intros p. destruct (armor_elements_facts p) as (F & C). split.
  - apply Forall_map. eapply Forall_impl; [|exact F]. intros ws (A1 & A2 & A3). apply seg_of_ok; [assumption|assumption|lia].
  - rewrite strip_segs; [exact C|]. eapply Forall_impl; [|exact F]. intros ws (A1 & _). exact A1.
Qed.

Lemma scan_encode : forall p, armor_scan (armor_encode p) = (VERSION :: b64_encode p, TEnd).
Proof.
  intros p. destruct (encode_segs p) as (S & E). rewrite armor_encode_doc, (scan_doc _ S), E. reflexivity.
Qed.

Lemma roundtrip : forall p, bytes_ok p = true -> armor_decode (armor_encode p) = DOk p.
Proof.
  intros p Hp. destruct (encode_segs p) as (S & E). rewrite armor_encode_doc. exact (decode_doc _ p Hp S E).
Qed.

Definition element_text (ws : list bytes) : bytes := LF :: List.concat (map word_line ws).

Lemma shape : forall p, exists els : list (list bytes),
  armor_encode p = boilerplate_start ++ List.concat (map element els) ++ boilerplate_end /\
  Forall (fun ws => (1 <= List.length ws <= 992)%nat /\
                    Forall (fun w => (1 <= List.length w <= 32)%nat /\ Forall armor_char w) ws /\
                    element ws = bs "<pre>"%string ++ element_text ws ++ bs "</pre>"%string ++ [LF] /\
                    blen (element_text ws) <= 32737) els /\
  List.concat (List.concat els) = VERSION :: b64_encode p.
Proof.
  intros p. exists (armor_elements p). destruct (armor_elements_facts p) as (F & C).
  split; [reflexivity|]. split; [|exact C].
  rewrite Forall_forall in *. intros ws Hws. destruct (F ws Hws) as (A1 & A2 & A3).
  split; [exact A3|]. split; [|split].
  - rewrite Forall_forall in *. intros w Hw. split; [apply A2; exact Hw | apply A1; exact Hw].
  - apply element_seg.
  - unfold bytesPerChunk, chunksPerElement in A2, A3.
    assert (Hl' : Forall (fun w => (List.length w <= 32)%nat) ws)
      by (eapply Forall_impl; [|exact A2]; cbv beta; intros; lia).
    pose proof (len_word_lines ws Hl') as L. unfold bytesPerChunk in L. unfold element_text, blen. cbn [List.length]. lia.
Qed.

Definition ws_only (t : bytes) : Prop := Forall (fun c => isws c = true) t.

(* one pre element after rewriting: leading whitespace, then each word followed by its
   separator; [post] is the text after "</pre>" *)
Record rseg := { r_lead : bytes; r_words : list (bytes * bytes); r_post : bytes }.
Definition resep_text (r : rseg) : bytes :=
  r_lead r ++ List.concat (map (fun ws => fst ws ++ snd ws) (r_words r)).
Definition resep_doc (rs : list rseg) : bytes := doc_of (map (fun r => (resep_text r, r_post r)) rs).
Definition rseg_ws (r : rseg) : Prop :=
  ws_only (r_lead r) /\ Forall (fun ws => ws_only (snd ws)) (r_words r) /\ ws_only (r_post r).
Definition rseg_fits (r : rseg) : Prop := blen (resep_text r) + 2 < MAXBUF /\ blen (r_post r) + 2 < MAXBUF.

Lemma ws_only_avoids : forall x t, isws x = false -> ws_only t -> avoids x t.
Proof. intros x t Hx H. eapply Forall_impl; [|exact H]. intros c Hc ->. cbv beta in Hc. congruence. Qed.

Lemma ws_only_strip : forall t, ws_only t -> strip t = [].
Proof.
  induction 1 as [|c t Hc Ht IH]; [reflexivity|]. rewrite strip_cons, Hc. exact IH.
Qed.

Lemma resep_text_avoids : forall x r, isws x = false -> ~ armor_char x ->
  rseg_ws r -> Forall (Forall armor_char) (map fst (r_words r)) -> avoids x (resep_text r).
Proof.
  intros x [lead wss post] Hw Hx (Hl & Hs & _) Hc. cbn [r_lead r_words] in *. unfold resep_text, avoids. cbn [r_lead r_words].
  rewrite Forall_app. split; [apply ws_only_avoids; assumption|].
  induction wss as [|[w s] wss IH]; [constructor|].
  inversion Hs; subst. inversion Hc; subst. cbn [map List.concat fst snd] in *.
  rewrite !Forall_app. repeat split; [apply chars_avoid; assumption|apply ws_only_avoids; assumption|].
  apply IH; assumption.
Qed.

Lemma resep_text_strip : forall r, rseg_ws r -> Forall (Forall armor_char) (map fst (r_words r)) ->
  strip (resep_text r) = List.concat (map fst (r_words r)).
Proof.
  intros [lead wss post] (Hl & Hs & _) Hc. cbn [r_lead r_words] in *. unfold resep_text. cbn [r_lead r_words].
  rewrite strip_app, (ws_only_strip lead Hl). cbn [app].
  induction wss as [|[w s] wss IH]; [reflexivity|].
  inversion Hs; subst. inversion Hc; subst. cbn [map List.concat fst snd] in *.
  rewrite !strip_app. rewrite chars_strip by assumption. rewrite ws_only_strip by assumption.
  rewrite IH by assumption. rewrite app_nil_r. reflexivity.
Qed.

Lemma resep_seg_ok : forall r, rseg_ws r -> Forall (Forall armor_char) (map fst (r_words r)) ->
  rseg_fits r -> seg_ok (resep_text r, r_post r).
Proof.
  intros r W C (S1 & S2). unfold seg_ok. cbn [fst snd]. repeat split; try assumption.
  - apply (resep_text_avoids LT); [reflexivity|exact lt_not_char|assumption|assumption].
  - apply (resep_text_avoids AMP); [reflexivity|exact amp_not_char|assumption|assumption].
  - apply (ws_only_avoids LT); [reflexivity|apply W].
Qed.

Lemma resep_ok : forall p rs, bytes_ok p = true ->
  map (fun r => map fst (r_words r)) rs = armor_elements p ->
  Forall rseg_ws rs -> Forall rseg_fits rs ->
  armor_decode (resep_doc rs) = DOk p.
Proof.
  intros p rs Hp Hw Hws Hfit. destruct (armor_elements_facts p) as (F & C).
  rewrite <- Hw in F, C. clear Hw.
  assert (Hch : Forall (fun r => Forall (Forall armor_char) (map fst (r_words r))) rs).
  { rewrite Forall_forall in *. intros r Hr.
    apply (F (map fst (r_words r))). apply in_map_iff. exists r. split; [reflexivity|exact Hr]. }
  clear F. unfold resep_doc. apply decode_doc; [assumption| |].
  - rewrite Forall_forall in *. intros sg Hsg. apply in_map_iff in Hsg as (r & <- & Hr).
    apply resep_seg_ok; auto.
  - rewrite <- C. clear C Hfit Hp.
    induction rs as [|r rs IH]; [reflexivity|].
    inversion Hws; subst. inversion Hch; subst.
    cbn [map List.concat fst]. rewrite strip_app, concat_app. rewrite IH by assumption.
    rewrite resep_text_strip by assumption. reflexivity.
Qed.

Lemma run_dead : forall l s e, halt s = Some e -> run s l = s.
Proof.
  induction l as [|c l IH]; intros s e H; [reflexivity|].
  rewrite run_cons. assert (E : step s c = s) by (unfold step; rewrite H; reflexivity).
  rewrite E. eapply IH; exact H.
Qed.

Definition is_err (s : dst) : Prop := exists e, halt s = Some (TErr e).

Lemma run_err : forall l s, is_err s -> is_err (run s l).
Proof. intros l s [e H]. rewrite (run_dead l s _ H). exists e. exact H. Qed.

(* the text token cut off by the buffer limit, then the ErrorToken: decodeToWriter returns an error *)
Lemma dw_flush_over : forall a k tb, exists e, w_end (dw_toks a (flush k tb ++ [TkOver])) = Some (TErr e).
Proof.
  intros a k [|c tb]; [exists EOversize; reflexivity|].
  unfold flush. cbn [app dw_toks]. destruct a.
  - cbn [dw_tok]. destruct (cut_long _) as [ws [|]]; cbn [w_end w_act w_words]; eexists; reflexivity.
  - exists EOversize. reflexivity.
Qed.

(* the buffer limit reached while a text token is being read *)
Lemma step_over : forall m n tb a o c, is_text_mode m = true -> MAXBUF <= n + 1 ->
  is_err (step (mkb m n tb a o) c).
Proof.
  intros m n tb a o c Hm H. rewrite step_mkb.
  assert (E : tk_step (tk m n tb) c = (tk MStop 0 [], flush (kind_of m) (c :: push (pending m) tb) ++ [TkOver])).
  { unfold tk_step, tk. cbn [tmd tcnt tbuf]. rewrite (proj2 (N.leb_le _ _) H), Hm. destruct m; try discriminate; reflexivity. }
  rewrite E. unfold is_err, apply_toks. cbn [halt]. apply dw_flush_over.
Qed.

Lemma text_over : forall t n tb a o x rest, noLT t -> MAXBUF <= n + blen t + 2 ->
  is_err (run (mkb MTxt n tb a o) (t ++ LT :: x :: rest)).
Proof.
  induction t as [|c t IH]; intros n tb a o x rest Hs Hov.
  - cbn [app]. unfold blen in Hov. cbn [List.length] in Hov. rewrite run_cons.
    destruct (N.le_gt_cases MAXBUF (n + 1)) as [H1|H1].
    + apply run_err. apply step_over; [reflexivity|exact H1].
    + rewrite step_txt_lt by lia. rewrite run_cons.
      apply run_err. apply step_over; [reflexivity|lia].
  - inversion Hs as [|? ? Hc Ht]; subst. rewrite blen_cons in Hov. cbn [app]. rewrite run_cons.
    destruct (N.le_gt_cases MAXBUF (n + 1)) as [H1|H1].
    + apply run_err. apply step_over; [reflexivity|exact H1].
    + rewrite step_txt by assumption. apply IH; [assumption|lia].
Qed.

Lemma decode_result_err : forall out e, exists e', decode_result (out, TErr e) = DErr e'.
Proof.
  intros [|v body] e; [eexists; reflexivity|]. unfold decode_result.
  destruct (negb (v =? VERSION)); [eexists; reflexivity|].
  destruct (b64_decode_seq body) as [d [| |]]; eexists; reflexivity.
Qed.

Lemma doc_over : forall segs1 t post segs2, Forall seg_ok segs1 -> noLT t -> MAXBUF <= blen t + 2 ->
  exists e, armor_decode (doc_of (segs1 ++ (t, post) :: segs2)) = DErr e.
Proof.
  intros segs1 t post segs2 Hok Ht Hov.
  assert (D : is_err (run dinit (doc_of (segs1 ++ (t, post) :: segs2)))).
  { unfold doc_of. rewrite run_app, run_boiler_start. rewrite map_app, concat_app. rewrite !run_app.
    destruct (run_segs segs1 1 [LF] [] ltac:(unfold MAXBUF; lia) Hok) as (n' & tb' & o' & Hn' & E & _). rewrite E.
    cbn [map List.concat]. rewrite run_app. unfold seg_bytes at 1. cbn [fst snd].
    rewrite run_app, run_pre_open by exact Hn'. rewrite pre_close_eq. cbn [app].
    do 2 apply run_err.
    apply text_over; [assumption|lia]. }
  destruct D as [e D]. unfold armor_decode, armor_scan, armor_words_of, finish. rewrite D. apply decode_result_err.
Qed.

Lemma resep_over : forall rs1 r rs2,
  Forall rseg_ws (rs1 ++ [r]) ->
  Forall (fun r => Forall (Forall armor_char) (map fst (r_words r))) (rs1 ++ [r]) ->
  Forall rseg_fits rs1 -> MAXBUF <= blen (resep_text r) + 2 ->
  exists e, armor_decode (resep_doc (rs1 ++ r :: rs2)) = DErr e.
Proof.
  intros rs1 r rs2 Hws Hch Hfit Hov. unfold resep_doc. rewrite map_app. cbn [map].
  apply Forall_app in Hws as (Hws1 & Hwsr). apply Forall_app in Hch as (Hch1 & Hchr).
  inversion Hwsr; subst. inversion Hchr; subst.
  apply doc_over.
  - rewrite Forall_forall in *. intros sg Hsg. apply in_map_iff in Hsg as (r0 & <- & Hr).
    apply resep_seg_ok; auto.
  - apply (resep_text_avoids LT); [reflexivity|exact lt_not_char|assumption|assumption].
  - exact Hov.
Qed.

Lemma ws_only_repeat : forall n, ws_only (repeat 32 n).
Proof. induction n; constructor; [reflexivity|assumption]. Qed.
