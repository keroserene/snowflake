(* JournalConcProofs.v — the journal writer under concurrent callers (Model/JournalConc.v):
   with the mutex every schedule is a sequential run of the completed calls; without it an address is lost. *)
From Coq Require Import List ZArith Lia.
From Snow Require Import Model.Journal Model.Round8 Model.JournalConc Proofs.Round8Proofs Proofs.JournalProofs.
Import ListNotations.
Open Scope Z_scope.

Section JournalConcProofs.
  Variables addr hash : Type.
  Variable mask : addr -> hash.
  Variable heqb : hash -> hash -> bool.
  Variables t0 int : Z.

  Notation jrun := (jrun addr hash mask heqb).
  Notation add := (add addr hash mask heqb).
  Notation flush := (flush hash).
  Notation sk_add := (sk_add hash heqb).
  Notation mono := (mono addr).
  Notation op_time := (op_time addr).
  Notation cstep := (cstep addr hash mask heqb).
  Notation crun := (crun addr hash mask heqb).
  Notation cst := (cst addr hash).
  Notation jpc := (jpc addr).

  Definition last_time (h : list (jop addr)) : Z := fold_left (fun _ o => op_time o) h t0.

  Lemma mono_snoc : forall h o, mono t0 (h ++ [o]) <-> mono t0 h /\ last_time h <= op_time o.
  Proof.
    unfold last_time. intros h. generalize t0. induction h as [|x h IH]; intros t o; cbn [app JournalProofs.mono fold_left].
    - tauto.
    - rewrite IH. tauto.
  Qed.
  Lemma last_time_snoc : forall h o, last_time (h ++ [o]) = op_time o.
  Proof. intros. unfold last_time. rewrite fold_left_app. reflexivity. Qed.
  Lemma jrun_snoc : forall h o w, jrun (h ++ [o]) w = japply addr hash mask heqb (jrun h w) o.
  Proof. intros. unfold Journal.jrun. rewrite fold_left_app. reflexivity. Qed.

  Definition waiting (p : jpc) : Prop := p = JI \/ exists c, p = JWant c.

  Definition put (ip : addr) (w : writer hash) : writer hash :=
    {| w_last := w_last w; w_int := w_int w; w_cur := sk_add (w_cur w) (mask ip); w_out := w_out w |}.
  Definition written (now : Z) (w : writer hash) : writer hash :=
    {| w_last := w_last w; w_int := w_int w; w_cur := w_cur w;
       w_out := w_out w ++ [{| c_start := w_last w; c_end := now; c_sk := w_cur w |}] |}.

  (* what the thread inside the critical section has done so far, relative to the sequential writer W run on the
     completed calls *)
  Definition holder_ok (w : writer hash) (h : list (jop addr)) (clk : Z) (p : jpc) : Prop :=
    let W := jrun h (new_writer t0 int) in
    match p with
    | JI | JWant _ => False
    | JCheck _ | JU => w = W
    | JW1 None => w = W
    | JW1 (Some _) => w = W /\ w_last W + w_int W < clk
    | JW2 now k => w = written now W /\ last_time h <= now <= clk /\
                   match k with Some _ => w_last W + w_int W < now | None => True end
    | JPut now ip => put ip w = add now ip W /\ last_time h <= now <= clk
    end.

  Record CJinv (s : cst) : Prop := {
    cj_mono : mono t0 (c_hist s);
    cj_clk : last_time (c_hist s) <= c_clk s;
    cj_wait : forall j, c_lock s <> Some j -> waiting (c_pc s j);
    cj_hold : match c_lock s with
              | None => c_w s = jrun (c_hist s) (new_writer t0 int)
              | Some i => holder_ok (c_w s) (c_hist s) (c_clk s) (c_pc s i)
              end }.

  Lemma CJinv_init : CJinv (cinit t0 int).
  Proof.
    constructor; cbn [cinit c_hist c_clk c_lock c_w c_pc JournalProofs.mono].
    - exact I.
    - unfold last_time. cbn. lia.
    - intros j _. left. reflexivity.
    - reflexivity.
  Qed.

  Lemma not_waiting_holder : forall (s : cst) i, CJinv s -> ~ waiting (c_pc s i) ->
    c_lock s = Some i /\ (forall j, j <> i -> waiting (c_pc s j)) /\ holder_ok (c_w s) (c_hist s) (c_clk s) (c_pc s i).
  Proof.
    intros s i [Hm Hc Hw Hh] Hn.
    assert (El : c_lock s = Some i).
    { destruct (c_lock s) as [h|] eqn:El; [destruct (Nat.eq_dec h i) as [->|Hne]; [reflexivity|]|];
        exfalso; apply Hn, Hw; congruence. }
    rewrite El in *. split; [reflexivity|]. split; [|exact Hh]. intros j Hj. apply Hw. congruence.
  Qed.

  Lemma holder_ok_tick : forall w h clk clk' p, clk <= clk' -> holder_ok w h clk p -> holder_ok w h clk' p.
  Proof.
    intros w h clk clk' p Hle H. destruct p as [|c|ip|[ip|]|now k|now ip|]; cbn [holder_ok] in *; try exact H.
    - destruct H as [H1 H2]. split; [exact H1 | lia].
    - destruct H as [H1 [H2 H3]]. split; [exact H1 | split; [lia | exact H3]].
    - destruct H as [H1 H2]. split; [exact H1 | lia].
  Qed.

  (* the holder moves: everything else stays *)
  Lemma CJinv_holder_move : forall (s : cst) i w' h' p',
    (forall j, j <> i -> waiting (c_pc s j)) ->
    mono t0 h' -> last_time h' <= c_clk s -> holder_ok w' h' (c_clk s) p' ->
    CJinv {| c_w := w'; c_clk := c_clk s; c_lock := Some i; c_pc := upd (c_pc s) i p'; c_hist := h' |}.
  Proof.
    intros s i w' h' p' Ho Hm Hc Hh. constructor; cbn [c_hist c_clk c_lock c_w c_pc]; [exact Hm | exact Hc | |].
    - intros j Hj. rewrite upd_other by congruence. apply Ho. congruence.
    - rewrite upd_same. exact Hh.
  Qed.

  Lemma waiting_dec_false : forall p : jpc, match p with JI | JWant _ => False | _ => True end -> ~ waiting p.
  Proof. intros p H [E|[c E]]; subst; exact H. Qed.

  (* a step of a thread at p inside its call: it is the holder, and all there is to show is what the step
     does to the holder's record (and to the history, when the call completes) *)
  Lemma holder_step : forall (s : cst) i p w' h' p',
    CJinv s -> c_pc s i = p -> match p with JI | JWant _ => False | _ => True end ->
    (mono t0 (c_hist s) -> last_time (c_hist s) <= c_clk s -> holder_ok (c_w s) (c_hist s) (c_clk s) p ->
     mono t0 h' /\ last_time h' <= c_clk s /\ holder_ok w' h' (c_clk s) p') ->
    CJinv {| c_w := w'; c_clk := c_clk s; c_lock := c_lock s; c_pc := upd (c_pc s) i p'; c_hist := h' |}.
  Proof.
    intros s i p w' h' p' HI Epc Hp Hstep.
    destruct (not_waiting_holder s i HI) as [El [Ho Hh]]; [rewrite Epc; apply waiting_dec_false, Hp|].
    rewrite Epc in Hh. destruct (Hstep (cj_mono s HI) (cj_clk s HI) Hh) as [Hm [Hc Hh']].
    rewrite El. apply CJinv_holder_move; assumption.
  Qed.

  Lemma CJinv_step : forall (s : cst) e, CJinv s -> CJinv (cstep true s e).
  Proof.
    intros s e HI. destruct e as [d|i c|i]; cbn [JournalConc.cstep].
    - (* the clock advances *)
      destruct HI as [Hm Hc Hw Hh]. constructor; cbn [c_hist c_clk c_lock c_w c_pc]; [exact Hm | lia | exact Hw |].
      destruct (c_lock s) as [h|]; [|exact Hh]. apply (holder_ok_tick _ _ (c_clk s)); [lia | exact Hh].
    - (* a thread is given a call: it is outside, so it is not the holder *)
      destruct (c_pc s i) eqn:Epc; try exact HI. unfold set_pc.
      destruct HI as [Hm Hc Hw Hh]. constructor; cbn [c_hist c_clk c_lock c_w c_pc]; [exact Hm | exact Hc | |].
      + intros j Hj. destruct (Nat.eq_dec j i) as [->|Hji]; [rewrite upd_same; right; eexists; reflexivity|].
        rewrite upd_other by exact Hji. apply Hw, Hj.
      + destruct (c_lock s) as [h|]; [|exact Hh]. rewrite upd_other; [exact Hh|]. intros ->. rewrite Epc in Hh. exact Hh.
    - (* a thread takes a step *)
      destruct (c_pc s i) as [|c|ip|k|now k|now ip|] eqn:Epc.
      + exact HI.
      + (* Lock() *)
        destruct (c_lock s) as [h|] eqn:El; [exact HI|].
        destruct HI as [Hm Hc Hw Hh]. rewrite El in Hw, Hh.
        apply (CJinv_holder_move s i); [intros j _; apply Hw; discriminate | exact Hm | exact Hc |].
        destruct c as [ip|]; cbn [entry holder_ok]; exact Hh.
      + (* the interval test *)
        destruct (w_last (c_w s) + w_int (c_w s) <? c_clk s) eqn:E; unfold set_pc;
          apply (holder_step s i _ _ _ _ HI Epc I); cbn [holder_ok]; intros Hm Hc Hh; (split; [exact Hm|]; split; [exact Hc|]).
        * split; [exact Hh | rewrite <- Hh; lia].
        * split; [|lia]. unfold Journal.add. rewrite <- Hh, E. reflexivity.
      + (* Dump and Write *)
        apply (holder_step s i _ _ _ _ HI Epc I). intros Hm Hc Hh. split; [exact Hm|]. split; [exact Hc|].
        destruct k as [ip|]; cbn [holder_ok] in *.
        * destruct Hh as [Hw Hlt]. split; [rewrite Hw; reflexivity | split; [lia | exact Hlt]].
        * split; [rewrite Hh; reflexivity | split; [lia | exact I]].
      + (* lastWriteTime = now; Reset *)
        apply (holder_step s i _ _ _ _ HI Epc I). cbn [holder_ok]. intros Hm Hc [Hw [Hn Hk]]. rewrite Hw. cbn [written w_int w_out].
        change {| w_last := now; w_int := ?a; w_cur := []; w_out := ?b ++ [?c] |} with (flush now (jrun (c_hist s) (new_writer t0 int))).
        destruct k as [ip|].
        * split; [exact Hm|]. split; [exact Hc|]. cbn [holder_ok]. split; [|exact Hn].
          unfold Journal.add. replace (_ <? now) with true by lia. reflexivity.
        * cbn [holder_ok]. rewrite mono_snoc, last_time_snoc, jrun_snoc. cbn [JournalProofs.op_time]. repeat split; auto; lia.
      + (* the sketch takes the address *)
        apply (holder_step s i _ _ _ _ HI Epc I). cbn [holder_ok]. intros Hm Hc [Hw Hn].
        rewrite mono_snoc, last_time_snoc, jrun_snoc. cbn [JournalProofs.op_time Journal.japply]. repeat split; auto; lia.
      + (* Unlock() *)
        destruct (not_waiting_holder s i HI) as [El [Ho Hh]]; [rewrite Epc; apply waiting_dec_false; exact I|].
        rewrite Epc in Hh. constructor; cbn [c_hist c_clk c_lock c_w c_pc]; [apply HI | apply HI | | exact Hh].
        intros j _. destruct (Nat.eq_dec j i) as [->|Hji]; [rewrite upd_same; left; reflexivity|].
        rewrite upd_other by exact Hji. apply Ho, Hji.
  Qed.

  Lemma CJinv_run : forall evs s, CJinv s -> CJinv (crun true evs s).
  Proof.
    induction evs as [|e evs IH]; intros s HI; cbn [JournalConc.crun fold_left]; [exact HI|].
    apply IH. apply CJinv_step. exact HI.
  Qed.

  Lemma CJinv_reach : forall evs, CJinv (crun true evs (cinit t0 int)).
  Proof. intro evs. apply CJinv_run. apply CJinv_init. Qed.

  (* Serialisability: for EVERY schedule, whenever the mutex is free the writer's state is that of the sequential
     writer run on the completed calls (in completion order = order of lock acquisitions), whose clock readings never
     go backwards; and a thread that is not waiting for the mutex holds it (so when all are outside it is free). *)
  Lemma conc_serial : forall evs,
    let s := crun true evs (cinit t0 int) in
    mono t0 (c_hist s) /\
    (c_lock s = None -> c_w s = jrun (c_hist s) (new_writer t0 int)) /\
    ((forall j, c_pc s j = JI) -> c_lock s = None).
  Proof.
    intros evs s. destruct (CJinv_reach evs) as [Hm Hc Hw Hh]. fold s in Hm, Hc, Hw, Hh.
    split; [exact Hm|]. split.
    - intro El. rewrite El in Hh. exact Hh.
    - intro Ha. destruct (c_lock s) as [h|]; [|reflexivity]. rewrite Ha in Hh. destruct Hh.
  Qed.

  (* flush is atomic w.r.t. adds: nothing of another call happens between Dump and Reset.  While a thread is between
     the two halves of WriteIPSetToDisk (JW2), every other thread is outside or waiting for the mutex, the open sketch
     still is the one that was dumped, and lastWriteTime still is the chunk's start *)
  Lemma conc_flush_undisturbed : forall evs i now k,
    let s := crun true evs (cinit t0 int) in
    c_pc s i = JW2 now k ->
    (forall j, j <> i -> c_pc s j = JI \/ exists c, c_pc s j = JWant c) /\
    exists c, w_out (c_w s) = w_out (jrun (c_hist s) (new_writer t0 int)) ++ [c] /\
              c_sk c = w_cur (c_w s) /\ c_start c = w_last (c_w s) /\ c_end c = now /\
              w_cur (c_w s) = w_cur (jrun (c_hist s) (new_writer t0 int)).
  Proof.
    intros evs i now k s Epc. pose proof (CJinv_reach evs) as HI. fold s in HI.
    destruct (not_waiting_holder s i HI) as [El [Ho Hh]]; [rewrite Epc; apply waiting_dec_false; exact I|].
    rewrite Epc in Hh. cbn [holder_ok] in Hh. destruct Hh as [Hw _]. split; [exact Ho|].
    eexists. rewrite Hw. cbn [written w_out w_cur w_last c_sk c_start c_end]. repeat split; reflexivity.
  Qed.

  (* every completed RecordIPAddress is in exactly one chunk or in the open sketch ([partition] for the
     completed calls), under every schedule *)
  Lemma conc_records_every_call : forall evs,
    let s := crun true evs (cinit t0 int) in
    c_lock s = None ->
    exists (segs : list (list (Z * addr))) (open : list (Z * addr)),
      concat segs ++ open = flat_map (op_events addr) (c_hist s) /\
      Forall2 (chunk_ok addr hash mask heqb) (w_out (c_w s)) segs /\
      w_cur (c_w s) = sk_of hash heqb (masks addr hash mask open) /\
      Forall (fun e => w_last (c_w s) <= fst e) open /\
      tiled hash t0 (w_out (c_w s)) (w_last (c_w s)).
  Proof.
    intros evs s El. destruct (conc_serial evs) as [Hm [Hw _]]. fold s in Hm, Hw.
    rewrite (Hw El). apply (partition addr hash mask heqb t0 int (c_hist s) Hm).
  Qed.
End JournalConcProofs.

(* The schedule that loses an address when the calls are not bracketed by the mutex: interval 2.  Thread 0 records
   address 1 at instant 1.  At instant 5 thread 0 records address 2: the interval has
   elapsed, it dumps and writes chunk [0,5] = {1} and is now in the disk write.  At instant 6 thread 1 records
   address 3: lastWriteTime still is 0, so it writes the same sketch again as chunk [0,6], resets, adds 3, returns.
   Thread 0 comes back from the disk: lastWriteTime = 5, Reset - address 3 is gone - then adds 2.  A final flush at 9. *)
Definition lost_sched : list (cev N) :=
  [Tick 1; Call 0 (CPoll 1%N); Step 0; Step 0; Step 0; Step 0;
   Tick 4; Call 0 (CPoll 2%N); Step 0; Step 0; Step 0;
   Tick 1; Call 1 (CPoll 3%N); Step 1; Step 1; Step 1; Step 1; Step 1; Step 1;
   Step 0; Step 0; Step 0;
   Tick 3; Call 0 CFlush; Step 0; Step 0; Step 0; Step 0]%nat.
