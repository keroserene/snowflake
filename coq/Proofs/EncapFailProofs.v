(* EncapFailProofs.v — a failing reader changes only the label of the final error (Model/EncapFail.v). *)
From Coq Require Import List NArith Arith.
From Snow Require Import Lib.Wire Model.Encap Model.EncapFail Proofs.EncapProofs.
Import ListNotations.
Open Scope N_scope.

Definition rrel (r : rres) : rresx :=
  match r with ROk a b c => ROkX a b c | RErr _ => RErrX end.

Lemma read_full_x_rel : forall sc n acc rem, read_full_x sc n acc rem = rrel (read_full sc n acc rem).
Proof.
  induction sc as [|[m fl] sc IH]; intros n acc rem.
  - destruct n as [|n]; [reflexivity|]. destruct rem as [|b rem]; [reflexivity|].
    cbn [read_full read_full_x]. cbv zeta.
    destruct (length (firstn (S n) (b :: rem)) <? S n)%nat; reflexivity.
  - destruct n as [|n]; [reflexivity|]. destruct rem as [|b rem]; [reflexivity|].
    cbn [read_full read_full_x]. cbv zeta.
    destruct (S n - length (firstn (Nat.min m (S n)) (b :: rem)))%nat as [|n'] eqn:En; [reflexivity|].
    destruct (skipn (Nat.min m (S n)) (b :: rem)) as [|b' rem'] eqn:Es.
    + destruct fl; [reflexivity | apply IH].
    + apply IH.
Qed.

Lemma read_full_err_kind sc n acc rem e : read_full sc n acc rem = RErr e -> e <> TooLong.
Proof.
  destruct (Nat.le_gt_cases n (length rem)) as [H|H].
  - destruct (read_full_spec sc n acc rem H) as [sc' ->]. discriminate.
  - rewrite (read_full_short sc n acc rem H). intros [= <-]. unfold full_err. destruct (acc ++ rem); discriminate.
Qed.

Definition lrel (r : option (N * bytes * script) + rerr) : option (N * bytes * script) + xerr :=
  match r with inl v => inl v | inr e => inr (match e with TooLong => XTooLong | _ => XIo end) end.

Lemma map_eof_never_eof e : map_eof e <> EOF.
Proof. destruct e; discriminate. Qed.

Lemma read_len_x_rel : forall k i more n rem sc,
  read_len_x k i more n rem sc = lrel (read_len k i more n rem sc).
Proof.
  induction k as [|k IH]; intros i more n rem sc.
  - destruct more; reflexivity.
  - destruct more; [|reflexivity]. cbn [read_len read_len_x].
    destruct (2 <=? i)%nat; [reflexivity|].
    rewrite read_full_x_rel.
    destruct (read_full sc 1 [] rem) as [got rest sc'|e] eqn:Hrf; cbn [rrel].
    + destruct got as [|b [|b2 got]]; try reflexivity. apply IH.
    + cbn [lrel]. pose proof (read_full_err_kind _ _ _ _ _ Hrf) as Hk. destruct e; [reflexivity | reflexivity | congruence].
Qed.

Definition drel (r : dres) : dresx :=
  match r with DChunk d rest sc => DChunkX d rest sc | DErr e => DErrX (xmap e) end.

Lemma read_data_x_rel : forall fuel rem sc, read_data_x fuel rem sc = drel (read_data fuel rem sc).
Proof.
  induction fuel as [|f IH]; intros rem sc; [reflexivity|].
  cbn [read_data read_data_x]. rewrite read_full_x_rel.
  destruct (read_full sc 1 [] rem) as [got rest sc1|e] eqn:Hrf; cbn [rrel].
  - destruct got as [|b [|b2 got]]; try reflexivity.
    cbv zeta. rewrite read_len_x_rel.
    destruct (read_len 3 0 (negb (N.land b 64 =? 0)) (N.land b 63) rest sc1) as [[[[n rem2] sc2]|]|e]; cbn [lrel].
    + rewrite read_full_x_rel.
      destruct (read_full sc2 (N.to_nat n) [] rem2) as [p rem3 sc3|e] eqn:Hrf2; cbn [rrel].
      * destruct (negb (N.land b 128 =? 0)); [reflexivity | apply IH].
      * cbn [drel]. pose proof (read_full_err_kind _ _ _ _ _ Hrf2) as Hk. destruct e; [reflexivity | reflexivity | congruence].
    + reflexivity.
    + cbn [drel]. destruct e; reflexivity.
  - cbn [drel]. pose proof (read_full_err_kind _ _ _ _ _ Hrf) as Hk. destruct e; [reflexivity | reflexivity | congruence].
Qed.

Lemma read_all_x_rel : forall fuel rem sc,
  read_all_x fuel rem sc = (fst (read_all fuel rem sc), xmap (snd (read_all fuel rem sc))).
Proof.
  induction fuel as [|f IH]; intros rem sc; [reflexivity|].
  cbn [read_all read_all_x]. rewrite read_data_x_rel.
  destruct (read_data (S (length rem)) rem sc) as [d rem' sc'|e]; cbn [drel].
  - rewrite IH. destruct (read_all f rem' sc') as [ds e]. reflexivity.
  - reflexivity.
Qed.
