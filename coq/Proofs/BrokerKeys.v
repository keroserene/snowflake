(* BrokerKeys.v — how each label of the matching machine (Model/Broker.v) changes what the matching pool
   is made of: the triple (in heap?, NAT class, client count) of every registered poll. A poll enters the pool when
   it is registered, leaves it when a client pops it or when its waiter's timeout critical section finds it
   unclaimed, and never returns; no other step touches the triple. *)
From Coq Require Import List NArith.
From Snow Require Import Model.Broker Proofs.BrokerLocal.
Import ListNotations.
Open Scope N_scope.

Definition key := (bool * natty * N)%type.
Definition ekey (e : entry) : key := (e_inheap e, e_nat e, e_clients e).
Definition keys (s : state) : list key := map ekey (entries s).
Definition kclear (k : key) : key := let '(_, n, c) := k in (false, n, c).

Definition key_effect (s : state) (l : label) : list key :=
  match l with
  | L_Poll _ n _ cl => keys s ++ [(true, n, cl)]
  | L_Client _ _ _ (Some p) => upd p kclear (keys s)
  | L_WTimeoutCS p => upd p kclear (keys s)      (* clearing a cleared key changes nothing *)
  | _ => keys s
  end.

Lemma keys_nth s p e : nth_error (entries s) p = Some e -> nth_error (keys s) p = Some (ekey e).
Proof. apply map_nth_error. Qed.

Lemma kclear_out e : e_inheap e = false -> kclear (ekey e) = ekey e.
Proof. unfold kclear, ekey. intros ->. reflexivity. Qed.

Theorem step_keys v s l s' : step v s l = Some s' -> keys s' = key_effect s l.
Proof.
  intros H. unfold keys.
  destruct (step_inv v s l s' H) as [_ [sd n pt cl -> -> _ _ | p e e' Ht Hp Hes -> _ _ | Hnp Hno -> _ _]].
  - rewrite map_app. reflexivity.
  - rewrite (map_upd ekey _ (fun _ => ekey e')) by reflexivity. pose proof (keys_nth s p e Hp) as Hk. fold (keys s).
    (* the key is cleared (which changes nothing when it was clear already), or kept *)
    assert (Same : ekey e' = ekey e -> upd p (fun _ => ekey e') (keys s) = keys s).
    { intros ->. apply upd_same. intros x Hx. congruence. }
    assert (Clear : ekey e' = kclear (ekey e) -> upd p (fun _ => ekey e') (keys s) = upd p kclear (keys s)).
    { intros ->. symmetry. apply upd_const. exact Hk. }
    destruct Hes; cbn [touched] in Ht; try injection Ht as ->; cbn [key_effect]; try (apply Same; reflexivity).
    + apply Clear. reflexivity.
    + apply Clear. rewrite (kclear_out e Hh). reflexivity.
    + apply Clear. reflexivity.
    + apply Same. destruct (buf_free e); reflexivity.
  - destruct l as [sd n pt cl| | | |n ofp o [p|]| | | | | | | | | |]; try reflexivity; [elim (Hnp sd n pt cl); reflexivity | destruct (Hno _ eq_refl) as [_ [sd [a E]]]; discriminate..].
Qed.

(* once out of the pool, never back *)
Lemma estep_left_pool v s l e e' : estep v s l e e' -> e_inheap e = false -> e_inheap e' = false.
Proof. destruct 1; cbn; intros Hout; try assumption; try reflexivity. destruct (buf_free e); exact Hout. Qed.

Theorem left_pool_forever v s l s' p e :
  step v s l = Some s' -> nth_error (entries s) p = Some e -> e_inheap e = false ->
  exists e', nth_error (entries s') p = Some e' /\ e_inheap e' = false.
Proof. apply (step_keeps v (fun e => e_inheap e = false) (estep_left_pool v)). Qed.
