(* SessDescProofs.v — Model/SessDesc.v (C13): [lookup] returns the last binding of a key; the repaired deserialiser
   never panics and accepts exactly [accepts]; the pinned one ([deserialize_v0]) is the repaired one with two errors
   turned into panics; the round trip, also at text level over an abstract encoding/json. *)
From Coq Require Import List NArith String.
From Snow Require Import Lib.Wire Lib.WireFacts Model.SessDesc.
Import ListNotations.
Open Scope N_scope.

Lemma lookup_acc_app : forall k m1 m2 acc,
  lookup_acc k (m1 ++ m2) acc = lookup_acc k m2 (lookup_acc k m1 acc).
Proof.
  intros k m1. induction m1 as [|[k' v] m1 IH]; intros m2 acc; cbn [lookup_acc app]; [reflexivity|].
  apply IH.
Qed.

Lemma lookup_acc_absent : forall k m acc,
  (forall k' v', In (k', v') m -> k' <> k) -> lookup_acc k m acc = acc.
Proof.
  intros k m. induction m as [|[k' v] m IH]; intros acc H; cbn [lookup_acc]; [reflexivity|].
  assert (Hk : beq k' k = false) by (apply beq_neq; apply (H k' v); left; reflexivity).
  rewrite Hk. apply IH. intros k2 v2 Hin. apply (H k2 v2). right. exact Hin.
Qed.

(* [last_binding k v m]: (k,v) occurs in m and no later member has key k *)
Definition last_binding (k : bytes) (v : json) (m : list (bytes * json)) : Prop :=
  exists m1 m2, m = m1 ++ (k, v) :: m2 /\ forall k' v', In (k', v') m2 -> k' <> k.

Lemma lookup_acc_spec : forall k m acc,
  (lookup_acc k m acc = acc /\ (forall k' v', In (k', v') m -> k' <> k))
  \/ (exists v, lookup_acc k m acc = Some v /\ last_binding k v m).
Proof.
  intros k m. induction m as [|[k' v] m IH]; intros acc; cbn [lookup_acc].
  - left. split; [reflexivity|]. intros ? ? [].
  - destruct (IH (if beq k' k then Some v else acc)) as [[He Hno] | [w [He Hl]]].
    + destruct (beq k' k) eqn:Ek.
      * right. exists v. split; [exact He|]. apply beq_eq in Ek. subst k'.
        exists [], m. split; [reflexivity|exact Hno].
      * left. split; [exact He|]. intros k2 v2 [Hin|Hin].
        -- inversion Hin; subst. apply beq_neq. exact Ek.
        -- apply (Hno k2 v2 Hin).
    + right. exists w. split; [exact He|]. destruct Hl as [m1 [m2 [Hm Hno]]].
      exists ((k', v) :: m1), m2. split; [rewrite Hm; reflexivity|exact Hno].
Qed.

Lemma last_binding_lookup : forall k v m, last_binding k v m -> lookup k m = Some v.
Proof.
  intros k v m [m1 [m2 [Hm Hno]]]. unfold lookup. subst m.
  rewrite lookup_acc_app. cbn [lookup_acc]. rewrite beq_refl. apply lookup_acc_absent. exact Hno.
Qed.

Lemma lookup_some_iff : forall k m v, lookup k m = Some v <-> last_binding k v m.
Proof.
  intros k m v. split; [|apply last_binding_lookup].
  intro H. unfold lookup in H. destruct (lookup_acc_spec k m None) as [[He _] | [w [He Hl]]].
  - rewrite He in H. discriminate.
  - rewrite He in H. inversion H; subst. exact Hl.
Qed.

Lemma lookup_none_iff : forall k m, lookup k m = None <-> (forall k' v', In (k', v') m -> k' <> k).
Proof.
  intros k m. split.
  - intro H. unfold lookup in H. destruct (lookup_acc_spec k m None) as [[_ Hno] | [w [He _]]]; [exact Hno|].
    rewrite He in H. discriminate.
  - intro H. unfold lookup. apply lookup_acc_absent. exact H.
Qed.

Lemma type_of_name_spec : forall n t, type_of_name n = Some t <-> (t <> TOther /\ n = type_name t).
Proof.
  intros n t. unfold type_of_name. split.
  - intro H.
    destruct (beq n (bs "offer")) eqn:E1; [apply beq_eq in E1; inversion H; subst; split; [discriminate|reflexivity]|].
    destruct (beq n (bs "pranswer")) eqn:E2; [apply beq_eq in E2; inversion H; subst; split; [discriminate|reflexivity]|].
    destruct (beq n (bs "answer")) eqn:E3; [apply beq_eq in E3; inversion H; subst; split; [discriminate|reflexivity]|].
    destruct (beq n (bs "rollback")) eqn:E4; [apply beq_eq in E4; inversion H; subst; split; [discriminate|reflexivity]|].
    discriminate.
  - intros [Ht Hn]. subst n. destruct t; try contradiction; reflexivity.
Qed.

Lemma type_of_name_none : forall n, type_of_name n = None <-> (forall t, t <> TOther -> n <> type_name t).
Proof.
  intros n. split.
  - intros H t Ht E. assert (type_of_name n = Some t) by (apply type_of_name_spec; split; assumption). congruence.
  - intro H. destruct (type_of_name n) as [t|] eqn:E; [|reflexivity].
    apply type_of_name_spec in E. destruct E as [Ht En]. exfalso. apply (H t Ht En).
Qed.

Lemma lookup_type_serialize : forall d, lookup K_TYPE (match serialize d with JObj m => m | _ => [] end) = Some (JStr (type_name (d_type d))).
Proof. intros d. reflexivity. Qed.

Lemma lookup_sdp_serialize : forall d, lookup K_SDP (match serialize d with JObj m => m | _ => [] end) = Some (JStr (d_sdp d)).
Proof. intros d. reflexivity. Qed.

Lemma roundtrip : forall d, d_type d <> TOther -> deserialize (Some (serialize d)) = Ok d.
Proof. intros [[] s] Ht; try reflexivity. destruct (Ht eq_refl). Qed.

Lemma total : forall j, deserialize j <> Panic.
Proof.
  intros j. unfold deserialize.
  destruct (unmarshal_map j) as [m|]; [|discriminate].
  destruct (lookup K_TYPE m) as [tv|]; [|discriminate].
  destruct (lookup K_SDP m) as [sv|]; [|discriminate].
  destruct tv as [|tb|tn|name|tl|tm]; try discriminate.
  destruct (type_of_name name) as [t|]; [|discriminate].
  destruct sv; discriminate.
Qed.

Definition accepts (j : option json) (d : desc) : Prop :=
  exists m, unmarshal_map j = Some m
    /\ last_binding K_TYPE (JStr (type_name (d_type d))) m
    /\ d_type d <> TOther
    /\ last_binding K_SDP (JStr (d_sdp d)) m.

Lemma accept_iff : forall j d, deserialize j = Ok d <-> accepts j d.
Proof.
  intros j d. unfold accepts, deserialize. split.
  - intro H. destruct (unmarshal_map j) as [m|]; [|discriminate]. exists m.
    destruct (lookup K_TYPE m) as [tv|] eqn:Et; [|discriminate].
    destruct (lookup K_SDP m) as [sv|] eqn:Es; [|discriminate].
    destruct tv as [| | |name| |]; try discriminate.
    destruct (type_of_name name) as [t|] eqn:En; [|discriminate].
    destruct sv as [| | |s| |]; try discriminate. injection H as <-. cbn [d_type d_sdp].
    apply type_of_name_spec in En as [Hno ->]. apply lookup_some_iff in Et, Es. auto.
  - intros (m & Hm & Ht & Hno & Hs). apply lookup_some_iff in Ht, Hs. rewrite Hm, Ht, Hs.
    rewrite (proj2 (type_of_name_spec _ _) (conj Hno eq_refl)). destruct d; reflexivity.
Qed.

Lemma reject_iff : forall j, (exists e, deserialize j = Err e) <-> (forall d, ~ accepts j d).
Proof.
  intros j. split.
  - intros [e He] d Ha. apply accept_iff in Ha. congruence.
  - intro H. destruct (deserialize j) as [d|e|] eqn:E.
    + exfalso. apply (H d). apply accept_iff. exact E.
    + exists e. reflexivity.
    + exfalso. apply (total j E).
Qed.

Definition is_str (v : json) : bool := match v with JStr _ => true | _ => false end.

(* exactly when the pinned code panics: both members present, and either "type" is not a string,
   or "type" names one of the four types and "sdp" is not a string *)
Definition v0_panic_cond (j : option json) : Prop :=
  exists m tv sv, unmarshal_map j = Some m /\ lookup K_TYPE m = Some tv /\ lookup K_SDP m = Some sv
    /\ (is_str tv = false \/ (exists name t, tv = JStr name /\ type_of_name name = Some t /\ is_str sv = false)).

(* the pinned deserialiser is the repaired one with the errors ETypeNotString and ESdpNotString turned back into panics *)
Lemma v0_of_fixed : forall j,
  deserialize_v0 j = match deserialize j with Err ETypeNotString | Err ESdpNotString => Panic | o => o end.
Proof.
  intros j. unfold deserialize, deserialize_v0.
  destruct (unmarshal_map j) as [m|]; [|reflexivity].
  destruct (lookup K_TYPE m) as [tv|]; [|reflexivity].
  destruct (lookup K_SDP m) as [sv|]; [|reflexivity].
  destruct tv as [| | |name| |]; try reflexivity.
  destruct (type_of_name name) as [t|]; [|reflexivity].
  destruct sv; reflexivity.
Qed.

Lemma v0_panics_iff : forall j, deserialize_v0 j = Panic <-> v0_panic_cond j.
Proof.
  intros j. unfold v0_panic_cond, deserialize_v0. split.
  - intro H. destruct (unmarshal_map j) as [m|]; [|discriminate].
    destruct (lookup K_TYPE m) as [tv|] eqn:Et; [|discriminate].
    destruct (lookup K_SDP m) as [sv|] eqn:Es; [|discriminate].
    exists m, tv, sv. repeat split; try assumption.
    destruct tv as [| | |name| |]; try (left; reflexivity).
    destruct (type_of_name name) as [t|] eqn:En; [|discriminate].
    right. exists name, t. repeat split; [exact En|]. destruct sv; try reflexivity. discriminate.
  - intros (m & tv & sv & -> & -> & -> & [Hc | (name & t & -> & -> & Hc)]).
    + destruct tv; try reflexivity. discriminate.
    + destruct sv; try reflexivity. discriminate.
Qed.

Definition v0_witness : option json := Some (JObj [(bs "type", JNum (bs "1")); (bs "sdp", JStr (bs "x"))]).

Lemma v0_refuted : exists j, deserialize_v0 j = Panic.
Proof. exists v0_witness. reflexivity. Qed.

(* the repair changes nothing where the pinned code did not panic *)
Lemma fix_conservative : forall j, deserialize_v0 j <> Panic -> deserialize j = deserialize_v0 j.
Proof.
  intros j. rewrite v0_of_fixed. destruct (deserialize j) as [d|[]|]; intros H; try reflexivity; destruct (H eq_refl).
Qed.

(* and where it panicked the repaired code returns an error *)
Lemma fix_error_where_panic : forall j, deserialize_v0 j = Panic -> exists e, deserialize j = Err e.
Proof.
  intros j. rewrite v0_of_fixed. pose proof (total j) as T.
  destruct (deserialize j) as [d|e|]; intros H; [discriminate | exists e; reflexivity | destruct (T eq_refl)].
Qed.

(* text level: encoding/json as Section variables *)

Section Text.
  Variable jprint : json -> bytes.               (* json.Marshal *)
  Variable jparse : bytes -> option json.        (* json.Unmarshal's view of a text; None = not JSON *)
  Variable utf8_ok : bytes -> Prop.              (* the string is valid UTF-8 *)
  (* encoding/json reads back what it wrote, for flat objects of valid-UTF-8 strings *)
  Hypothesis print_parse : forall k1 v1 k2 v2,
    utf8_ok k1 -> utf8_ok v1 -> utf8_ok k2 -> utf8_ok v2 ->
    jparse (jprint (JObj [(k1, JStr v1); (k2, JStr v2)])) = Some (JObj [(k1, JStr v1); (k2, JStr v2)]).
  Hypothesis ascii_ok : forall s, Forall (fun b => b < 128) s -> utf8_ok s.

  Definition serialize_text (d : desc) : bytes := jprint (serialize d).
  Definition deserialize_text (s : bytes) : outcome := deserialize (jparse s).

  Lemma type_name_ascii : forall t, Forall (fun b => b < 128) (type_name t).
  Proof. intros t. destruct t; repeat constructor. Qed.

  Lemma roundtrip_text : forall d, d_type d <> TOther -> utf8_ok (d_sdp d) ->
    deserialize_text (serialize_text d) = Ok d.
  Proof.
    intros d Ht Hu. unfold deserialize_text, serialize_text, serialize.
    rewrite print_parse.
    - apply (roundtrip d Ht).
    - apply ascii_ok. repeat constructor.
    - apply ascii_ok. apply type_name_ascii.
    - apply ascii_ok. repeat constructor.
    - exact Hu.
  Qed.

End Text.
