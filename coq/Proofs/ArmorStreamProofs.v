(* ArmorStreamProofs.v — the streaming decoder (Model/ArmorStream.v): independence of the way the source
   delivers the document and of the caller's read sizes; release of the goroutine.
   Everything is proved for an arbitrary tokenizer given as a byte-feed function (the library boundary). *)
From Coq Require Import List NArith Lia Bool Arith.
From Snow Require Import Lib.Wire Model.Base64 Model.Armor Model.ArmorStream.
Import ListNotations.
Open Scope N_scope.

Lemma dw_toks_cons : forall t x a,
  dw_toks a (t :: x) =
  match w_end (dw_tok a t) with
  | Some _ => dw_tok a t
  | None => let r' := dw_toks (w_act (dw_tok a t)) x in
            {| w_act := w_act r'; w_words := w_words (dw_tok a t) ++ w_words r'; w_end := w_end r' |}
  end.
Proof. reflexivity. Qed.

Lemma dw_toks_app : forall x y a,
  dw_toks a (x ++ y) =
  match w_end (dw_toks a x) with
  | Some _ => dw_toks a x
  | None => {| w_act := w_act (dw_toks (w_act (dw_toks a x)) y);
               w_words := w_words (dw_toks a x) ++ w_words (dw_toks (w_act (dw_toks a x)) y);
               w_end := w_end (dw_toks (w_act (dw_toks a x)) y) |}
  end.
Proof.
  induction x as [|t x IH]; intros y a.
  - cbn [app dw_toks w_end w_act w_words]. destruct (dw_toks a y); reflexivity.
  - change ((t :: x) ++ y) with (t :: (x ++ y)). rewrite !dw_toks_cons.
    destruct (w_end (dw_tok a t)) eqn:E.
    + rewrite E. reflexivity.
    + cbv zeta. cbn [w_end w_act w_words]. rewrite IH.
      destruct (w_end (dw_toks (w_act (dw_tok a t)) x)) eqn:E2.
      * rewrite E2. reflexivity.
      * cbn [w_act w_words w_end]. rewrite app_assoc. reflexivity.
Qed.

Definition is_end (e : pevent) : bool := match e with PEnd _ => true | PW _ => false end.
Definition has_end (q : list pevent) : bool := existsb is_end q.
(* what follows a queue: nothing once decodeToWriter has returned *)
Definition ev_app (q rest : list pevent) : list pevent := if has_end q then q else q ++ rest.

Lemma has_end_words : forall ws, has_end (map PW ws) = false.
Proof. induction ws; [reflexivity|]. cbn. exact IHws. Qed.

Lemma has_end_evs : forall r, has_end (evs_of r) = match w_end r with Some _ => true | None => false end.
Proof.
  intros r. unfold evs_of, has_end. rewrite existsb_app. fold (has_end (map PW (w_words r))).
  rewrite has_end_words. destruct (w_end r); reflexivity.
Qed.

Lemma evs_app : forall x y a,
  evs_of (dw_toks a (x ++ y)) = ev_app (evs_of (dw_toks a x)) (evs_of (dw_toks (w_act (dw_toks a x)) y)).
Proof.
  intros x y a. unfold ev_app. rewrite has_end_evs. rewrite dw_toks_app.
  destruct (w_end (dw_toks a x)) eqn:E; [reflexivity|].
  unfold evs_of. cbn [w_words w_end]. rewrite E. rewrite map_app, app_nil_r, <- app_assoc. reflexivity.
Qed.

Lemma ev_app_nil : forall r, ev_app [] r = r.
Proof. reflexivity. Qed.

Lemma ev_app_assoc : forall a b c, ev_app (ev_app a b) c = ev_app a (ev_app b c).
Proof.
  intros a b c. unfold ev_app. destruct (has_end a) eqn:Ea.
  - rewrite Ea. reflexivity.
  - unfold has_end in *. rewrite existsb_app. fold (has_end a) (has_end b). unfold has_end in Ea |- *. rewrite Ea. cbn [orb].
    destruct (existsb is_end b); [reflexivity|]. rewrite app_assoc. reflexivity.
Qed.

Lemma dw_eof_end : forall x a, w_end (dw_toks a (x ++ [TkEOF])) <> None.
Proof.
  intros x a. rewrite dw_toks_app. destruct (w_end (dw_toks a x)) eqn:E; [congruence|].
  cbn. destruct (w_act (dw_toks a x)); discriminate.
Qed.

(* words are never empty *)
Lemma words_aux_ne : forall l cur, Forall (fun w => w <> []) (words_aux l cur).
Proof.
  induction l as [|c l IH]; intros cur.
  - cbn [words_aux]. destruct cur as [|x cur]; [constructor|]. constructor; [|constructor].
    rewrite rev_append_rev, app_nil_r. cbn [rev]. intros H. apply app_eq_nil in H as [_ H]. discriminate.
  - cbn [words_aux]. destruct (isws c).
    + destruct cur as [|x cur]; [apply IH|]. constructor; [|apply IH].
      rewrite rev_append_rev, app_nil_r. cbn [rev]. intros H. apply app_eq_nil in H as [_ H]. discriminate.
    + apply IH.
Qed.
Lemma cut_long_sub : forall ws, exists k, fst (cut_long ws) = firstn k ws.
Proof.
  induction ws as [|w ws [k IH]]; [exists O; reflexivity|]. cbn [cut_long].
  destruct (TOOLONG <=? _); [exists O; reflexivity|]. destruct (cut_long ws) as [a b]. cbn [fst] in *.
  exists (S k). cbn [firstn]. rewrite IH. reflexivity.
Qed.
Lemma Forall_firstn {A} (P : A -> Prop) : forall k l, Forall P l -> Forall P (firstn k l).
Proof. induction k; intros l H; [constructor|]. destruct l; [constructor|]. inversion H; subst. constructor; auto. Qed.

Definition wne (q : list pevent) : Prop := Forall (fun e => match e with PW w => w <> [] | PEnd _ => True end) q.

Lemma dw_tok_wne : forall a t, Forall (fun w => w <> []) (w_words (dw_tok a t)).
Proof.
  intros a t. destruct t; cbn [dw_tok]; try (destruct (beq _ _)); try (destruct a); cbn [w_words]; try constructor.
  destruct (cut_long_sub (words (text_data k data))) as [n E]. destruct (cut_long _) as [ws long]. cbn [fst] in E. subst ws.
  cbn [w_words]. apply Forall_firstn. apply words_aux_ne.
Qed.
Lemma dw_toks_wne : forall ts a, Forall (fun w => w <> []) (w_words (dw_toks a ts)).
Proof.
  induction ts as [|t ts IH]; intros a; [constructor|]. cbn [dw_toks].
  destruct (w_end (dw_tok a t)); [apply dw_tok_wne|]. cbn [w_words]. apply Forall_app. split; [apply dw_tok_wne|apply IH].
Qed.
Lemma evs_wne : forall a ts, wne (evs_of (dw_toks a ts)).
Proof.
  intros a ts. unfold wne, evs_of. apply Forall_app. split.
  - apply Forall_forall. intros e He. apply in_map_iff in He as (w & <- & Hw).
    pose proof (dw_toks_wne ts a) as F. rewrite Forall_forall in F. apply F. exact Hw.
  - destruct (w_end _); constructor; [exact I|constructor].
Qed.
Lemma wne_ev_app : forall q r, wne q -> wne r -> wne (ev_app q r).
Proof. intros q r Hq Hr. unfold ev_app. destruct (has_end q); [exact Hq|]. apply Forall_app. split; assumption. Qed.

(* no correctly padded quantum before the end of the character stream (the only inputs on which
   base64.NewDecoder's result depends on how its Reads cut the stream) *)
Fixpoint no_ipad (l : bytes) : bool :=
  match l with
  | c0 :: c1 :: c2 :: c3 :: r =>
      match dec6 c0, dec6 c1 with
      | Some _, Some _ =>
          match dec6 c2, dec6 c3 with
          | Some _, Some _ => no_ipad r
          | Some _, None => if c3 =? PAD then match r with [] => true | _ => false end else true
          | None, _ => if (c2 =? PAD) && (c3 =? PAD) then match r with [] => true | _ => false end else true
          end
      | _, _ => true
      end
  | _ => true
  end.

(* a padded quantum that DecodeString accepts is the last one *)
Lemma clean_no_ipad : forall l, snd (b64_decode_seq l) = B64Clean -> no_ipad l = true.
Proof.
  fix IH 1. intros [|c0 [|c1 [|c2 [|c3 r]]]]; try reflexivity.
  cbn [b64_decode_seq no_ipad].
  destruct (dec6 c0); [|reflexivity]. destruct (dec6 c1); [|reflexivity].
  destruct (dec6 c2); [destruct (dec6 c3)|].
  - specialize (IH r). destruct (b64_decode_seq r). exact IH.
  - destruct (c3 =? PAD); [|reflexivity]. destruct r; [reflexivity|discriminate].
  - destruct ((c2 =? PAD) && (c3 =? PAD)); [|reflexivity]. destruct r; [reflexivity|discriminate].
Qed.

Lemma app_nil_inv {A} : forall (a b : list A), match a ++ b with [] => true | _ => false end = true -> a = [] /\ b = [].
Proof. intros [|x a] [|y b] H; try discriminate; auto. Qed.

(* Encoding.Decode on a chunk of k quanta that begins the stream [chunk ++ tail] *)
Lemma b64_chunk_strict : forall k chunk tail, List.length chunk = (4 * k)%nat -> no_ipad (chunk ++ tail) = true ->
  let '(data, bad) := b64_chunk chunk in
  if bad then b64_decode_seq (chunk ++ tail) = (data, B64Corrupt)
  else b64_decode_seq (chunk ++ tail) = (data ++ fst (b64_decode_seq tail), snd (b64_decode_seq tail)) /\
       no_ipad tail = true.
Proof.
  induction k as [|k IH]; intros chunk tail Hl Hp.
  - destruct chunk; [|discriminate]. cbn [b64_chunk app]. split; [destruct (b64_decode_seq tail); reflexivity|exact Hp].
  - destruct chunk as [|c0 [|c1 [|c2 [|c3 r]]]]; try (cbn in Hl; lia).
    assert (Hr : List.length r = (4 * k)%nat) by (cbn [List.length] in Hl; lia).
    change ((c0 :: c1 :: c2 :: c3 :: r) ++ tail) with (c0 :: c1 :: c2 :: c3 :: (r ++ tail)) in *.
    cbn [no_ipad] in Hp. cbn [b64_chunk b64_decode_seq].
    destruct (dec6 c0) as [v0|]; [|reflexivity]. destruct (dec6 c1) as [v1|]; [|reflexivity].
    destruct (dec6 c2) as [v2|].
    + destruct (dec6 c3) as [v3|].
      * specialize (IH r tail Hr Hp). destruct (b64_chunk r) as [d bad]. destruct bad.
        -- rewrite IH. reflexivity.
        -- destruct IH as [IH1 IH2]. rewrite IH1. split; [|exact IH2]. rewrite app_assoc. reflexivity.
      * destruct (c3 =? PAD); [|reflexivity]. cbn [andb].
        apply app_nil_inv in Hp as [-> ->]. cbn [app]. split; reflexivity.
    + destruct ((c2 =? PAD) && (c3 =? PAD)); [|reflexivity]. cbn [andb].
      apply app_nil_inv in Hp as [-> ->]. cbn [app]. split; reflexivity.
Qed.

Lemma b64_chunk_len : forall k chunk, List.length chunk = (4 * k)%nat ->
  (List.length (fst (b64_chunk chunk)) <= 3 * k)%nat.
Proof.
  induction k as [|k IH]; intros chunk Hl.
  - destruct chunk; [cbn; lia|discriminate].
  - destruct chunk as [|c0 [|c1 [|c2 [|c3 r]]]]; try (cbn in Hl; lia).
    assert (Hr : List.length r = (4 * k)%nat) by (cbn [List.length] in Hl; lia).
    cbn [b64_chunk].
    destruct (dec6 c0) as [v0|]; [|cbn; lia]. destruct (dec6 c1) as [v1|]; [|cbn; lia].
    destruct (dec6 c2) as [v2|].
    + destruct (dec6 c3) as [v3|].
      * specialize (IH r Hr). destruct (b64_chunk r) as [d bad]. cbn [fst] in *.
        rewrite app_length. unfold dec4. cbn [List.length]. lia.
      * destruct (c3 =? PAD); cbn; lia.
    + destruct ((c2 =? PAD) && (c3 =? PAD)); cbn; lia.
Qed.

Lemma b64_seq_short : forall l, (List.length l < 4)%nat ->
  b64_decode_seq l = ([], match l with [] => B64Clean | _ => B64Partial end).
Proof. intros [|a [|b [|c [|d l]]]] H; try reflexivity. cbn in H. lia. Qed.

(* how a Read that reports an end reports it *)
Definition end_of (st : b64end) (e : tend) : rend :=
  match st, e with
  | B64Corrupt, _ => RErr EBadBase64
  | B64Clean, TEnd => REOF
  | B64Partial, TEnd => RErr EBadBase64
  | _, TErr e => RErr e
  end.

Fixpoint chars (f : list pevent) : bytes := match f with PW w :: f' => w ++ chars f' | _ => [] end.
Fixpoint fend (f : list pevent) : tend := match f with PW _ :: f' => fend f' | PEnd e :: _ => e | [] => TEnd end.

Definition prefix (a b : bytes) : Prop := exists r, b = a ++ r.

Lemma clamp_ge4 : forall n, (4 <= clamp_nn n <= 1024)%nat.
Proof.
  intros n. unfold clamp_nn. destruct (Nat.ltb (n / 3 * 4) 4) eqn:A; [lia|].
  destruct (Nat.ltb 1024 (n / 3 * 4)) eqn:B; [lia|]. apply Nat.ltb_ge in A, B. lia.
Qed.

Lemma div4 : forall n, exists k, (n / 4 * 4 = 4 * k)%nat /\ (n / 4 * 4 <= n)%nat /\ (n - n / 4 * 4 < 4)%nat /\ (n / 4 * 4 / 4 * 3 = 3 * k)%nat.
Proof.
  intros n. exists (n / 4)%nat. pose proof (Nat.div_mod n 4 ltac:(lia)). pose proof (Nat.mod_upper_bound n 4 ltac:(lia)).
  rewrite Nat.div_mul by lia. lia.
Qed.

Section StreamProofs.
  Variable T : Type.
  Variable tinit : T.
  Variable tfeed : T -> N -> T * list tok.
  Variable tfin : T -> list tok.

  Notation prod := (prod T).
  Notation dec := (dec T).
  Notation fill_cur := (fill_cur T tfeed).
  Notation fill_src := (fill_src T tfeed).
  Notation p_fill := (p_fill T tfeed tfin).
  Notation pipe_read := (pipe_read T tfeed tfin).
  Notation p_close := (p_close T tfeed tfin).
  Notation refill := (refill T tfeed tfin).
  Notation dec_read0 := (dec_read0 T tfeed tfin).
  Notation dec_read := (dec_read T tfeed tfin).
  Notation dec_new := (dec_new T tinit tfeed tfin).

  (* the tokens Next returns from tokenizer state [t] on the input [l], then on end of input *)
  Fixpoint toks_of (t : T) (l : bytes) : list tok :=
    match l with
    | [] => tfin t ++ [TkEOF]
    | c :: l' => let '(t', ts) := tfeed t c in ts ++ toks_of t' l'
    end.

  (* everything the pipe will carry from there on: a function of the BYTES still to come, not of the
     way the source's Reads cut them *)
  Definition events_of (act : bool) (t : T) (l : bytes) : list pevent := evs_of (dw_toks act (toks_of t l)).

  Lemma toks_of_eof : forall l t, exists x, toks_of t l = x ++ [TkEOF].
  Proof.
    induction l as [|c l IH]; intros t.
    - exists (tfin t). reflexivity.
    - cbn [toks_of]. destruct (tfeed t c) as [t' ts]. destruct (IH t') as [x E]. exists (ts ++ x). rewrite E, app_assoc. reflexivity.
  Qed.

  Lemma events_has_end : forall a t l, has_end (events_of a t l) = true.
  Proof.
    intros a t l. unfold events_of. rewrite has_end_evs. destruct (toks_of_eof l t) as [x ->].
    pose proof (dw_eof_end x a). destruct (w_end _); [reflexivity|congruence].
  Qed.

  Lemma events_cons : forall a t c l,
    events_of a t (c :: l) =
    let '(t', ts) := tfeed t c in
    ev_app (evs_of (dw_toks a ts)) (events_of (w_act (dw_toks a ts)) t' l).
  Proof. intros. unfold events_of. cbn [toks_of]. destruct (tfeed t c) as [t' ts]. apply evs_app. Qed.

  Definition future (p : prod) : list pevent :=
    ev_app (p_q p) (events_of (p_act p) (p_tk p) (p_cur p ++ List.concat (p_src p))).

  Lemma fill_cur_spec : forall cur t act rest,
    let '(t', act', cur', evs) := fill_cur t act cur in
    events_of act t (cur ++ rest) = ev_app evs (events_of act' t' (cur' ++ rest)) /\
    (evs = [] -> cur' = []) /\ (List.length cur' <= List.length cur)%nat /\ wne evs.
  Proof.
    induction cur as [|c cur IH]; intros t act rest.
    - cbn [fill_cur app]. split; [reflexivity|]. split; [reflexivity|]. split; [lia|constructor].
    - cbn [fill_cur app]. rewrite events_cons. destruct (tfeed t c) as [t1 ts].
      destruct (evs_of (dw_toks act ts)) as [|e evs] eqn:E.
      + specialize (IH t1 (w_act (dw_toks act ts)) rest).
        destruct (fill_cur t1 (w_act (dw_toks act ts)) cur) as [[[t' act'] cur'] evs'].
        destruct IH as (I1 & I2 & I3 & I4). rewrite ev_app_nil. split; [exact I1|]. split; [exact I2|].
        split; [cbn [List.length]; lia|exact I4].
      + split; [reflexivity|]. split; [discriminate|]. split; [cbn [List.length]; lia|].
        rewrite <- E. apply evs_wne.
  Qed.

  Lemma fill_src_spec : forall src t act n,
    let '(t', act', src', cur', evs, n') := fill_src t act src n in
    events_of act t (List.concat src) = ev_app evs (events_of act' t' (cur' ++ List.concat src')) /\
    (evs = [] -> cur' = [] /\ src' = []) /\ wne evs.
  Proof.
    induction src as [|ch src IH]; intros t act n.
    - cbn [fill_src List.concat app]. split; [reflexivity|]. split; [auto|constructor].
    - cbn [fill_src List.concat].
      pose proof (fill_cur_spec ch t act (List.concat src)) as F.
      destruct (fill_cur t act ch) as [[[t1 a1] cur1] ev1]. destruct F as (F1 & F2 & F3 & F4).
      destruct ev1 as [|e ev1].
      + specialize (F2 eq_refl). subst cur1. cbn [app] in F1. rewrite ev_app_nil in F1.
        specialize (IH t1 a1 (n + N.of_nat (List.length ch))).
        destruct (fill_src t1 a1 src (n + N.of_nat (List.length ch))) as [[[[[t' act'] src'] cur'] evs] n'].
        destruct IH as (I1 & I2 & I3). split; [rewrite F1; exact I1|]. split; [exact I2|exact I3].
      + split; [exact F1|]. split; [discriminate|exact F4].
  Qed.

  Lemma p_fill_future : forall p, future (p_fill p) = future p.
  Proof.
    intros p. unfold p_fill. destruct (p_q p) as [|e q] eqn:Q; [|reflexivity].
    unfold future at 2. rewrite Q, ev_app_nil.
    pose proof (fill_cur_spec (p_cur p) (p_tk p) (p_act p) (List.concat (p_src p))) as F.
    destruct (fill_cur (p_tk p) (p_act p) (p_cur p)) as [[[t1 a1] cur1] ev1]. destruct F as (F1 & F2 & _).
    destruct ev1 as [|e1 ev1].
    - specialize (F2 eq_refl). subst cur1. rewrite ev_app_nil in F1. cbn [app] in F1.
      pose proof (fill_src_spec (p_src p) t1 a1 (p_consumed p)) as G.
      destruct (fill_src t1 a1 (p_src p) (p_consumed p)) as [[[[[t2 a2] src2] cur2] ev2] n2].
      destruct G as (G1 & G2 & _). destruct ev2 as [|e2 ev2].
      + destruct (G2 eq_refl) as [-> ->]. rewrite ev_app_nil in G1. cbn [app List.concat] in G1.
        unfold future. cbn [p_q p_act p_tk p_cur p_src]. rewrite F1, G1. unfold events_of at 2. cbn [toks_of].
        unfold ev_app. rewrite has_end_evs.
        pose proof (dw_eof_end (tfin t2) a2). destruct (w_end _); [reflexivity|congruence].
      + unfold future. cbn [p_q p_act p_tk p_cur p_src]. rewrite F1, G1. reflexivity.
    - unfold future. cbn [p_q p_act p_tk p_cur p_src]. exact (eq_sym F1).
  Qed.

  Lemma p_fill_nonempty : forall p, p_q (p_fill p) <> [].
  Proof.
    intros p. unfold p_fill. destruct (p_q p) as [|e q] eqn:Q; [|rewrite Q; discriminate].
    destruct (fill_cur (p_tk p) (p_act p) (p_cur p)) as [[[t1 a1] cur1] ev1].
    destruct ev1 as [|e1 ev1]; [|cbn [p_q]; discriminate].
    destruct (fill_src t1 a1 (p_src p) (p_consumed p)) as [[[[[t2 a2] src2] cur2] ev2] n2].
    destruct ev2 as [|e2 ev2]; [|cbn [p_q]; discriminate].
    cbn [p_q]. intros H. pose proof (has_end_evs (dw_toks a2 (tfin t2 ++ [TkEOF]))) as E. rewrite H in E.
    pose proof (dw_eof_end (tfin t2) a2). destruct (w_end _); [discriminate|congruence].
  Qed.

  Lemma p_fill_idem : forall p, p_q p <> [] -> p_fill p = p.
  Proof. intros p H. unfold p_fill. destruct (p_q p); [congruence|reflexivity]. Qed.

  Lemma future_has_end : forall p, has_end (future p) = true.
  Proof.
    intros p. unfold future, ev_app. destruct (has_end (p_q p)) eqn:E; [exact E|].
    unfold has_end. rewrite existsb_app. fold (has_end (p_q p)). rewrite E. apply events_has_end.
  Qed.

  (* the queue is the beginning of the future *)
  Lemma future_head : forall p e q, p_q p = e :: q ->
    future p = e :: ev_app q (if is_end e then [] else events_of (p_act p) (p_tk p) (p_cur p ++ List.concat (p_src p))).
  Proof.
    intros p e q Q. unfold future. rewrite Q. unfold ev_app. cbn [has_end existsb]. fold (has_end q).
    destruct e as [w|e]; cbn [is_end orb].
    - destruct (has_end q); reflexivity.
    - destruct (has_end q); [reflexivity|]. rewrite app_nil_r. reflexivity.
  Qed.

  (* a Read of the pipe, in terms of the future *)
  Lemma pipe_read_spec : forall k p,
    match future p with
    | PW w :: f => exists p', pipe_read k p = (PData (firstn k w), p') /\
                              future p' = match skipn k w with [] => f | w' => PW w' :: f end
    | PEnd e :: f => exists p', pipe_read k p = (PClosed e, p') /\ future p' = future p /\ p_q p' = PEnd e :: tl (p_q p')
    | [] => False
    end.
  Proof.
    intros k p. rewrite <- (p_fill_future p). unfold pipe_read.
    pose proof (p_fill_nonempty p) as NE. set (p1 := p_fill p) in *.
    destruct (p_q p1) as [|e q] eqn:Q; [congruence|].
    rewrite (future_head p1 e q Q). destruct e as [w|e]; cbn [is_end].
    - eexists. split; [reflexivity|]. unfold future, set_q. cbn [p_q p_act p_tk p_cur p_src].
      destruct (skipn k w) as [|x w'] eqn:S; [reflexivity|].
      unfold ev_app. cbn [has_end existsb is_end orb]. fold (has_end q). destruct (has_end q); reflexivity.
    - exists p1. split; [reflexivity|]. split; [rewrite (future_head p1 (PEnd e) q Q); reflexivity|].
      rewrite Q. reflexivity.
  Qed.

  (* the chunks in which the source delivers the document do not matter *)
  Lemma future_init : forall chunks,
    future (p_init T tinit chunks) = events_of false tinit (List.concat chunks).
  Proof. intros. reflexivity. Qed.

  Definition returned (p : prod) : Prop := exists e q, p_q p = PEnd e :: q.

  (* a Read of the pipe, on the characters still to come *)
  Lemma pipe_read_chars : forall k p, (1 <= k)%nat -> wne (future p) ->
    match pipe_read k p with
    | (PData b, p') => b <> [] /\ b ++ chars (future p') = chars (future p) /\
                       fend (future p') = fend (future p) /\ wne (future p')
    | (PClosed e, p') => chars (future p) = [] /\ fend (future p) = e /\ future p' = future p /\ returned p'
    end.
  Proof.
    intros k p Hk Hw. pose proof (pipe_read_spec k p) as R.
    destruct (future p) as [|[w|e] f] eqn:F; [destruct R| |].
    - destruct R as (p' & -> & ->). inversion Hw as [|? ? Hwne Hf]; subst.
      split; [destruct w, k; [congruence|congruence|lia|discriminate]|]. cbn [chars fend].
      destruct (skipn k w) eqn:S.
      + rewrite <- (firstn_skipn k w) at 2. rewrite S, app_nil_r. auto.
      + cbn [chars fend]. rewrite <- S, app_assoc, firstn_skipn. repeat split. constructor; [rewrite S; discriminate|exact Hf].
    - destruct R as (p' & -> & -> & R3). repeat split. eexists _, _. exact R3.
  Qed.

  Lemma refill_spec : forall fuel target nbuf p,
    (4 <= fuel + List.length nbuf)%nat -> (4 <= target)%nat -> wne (future p) ->
    let '(nbuf', rerr', p') := refill fuel target nbuf None p in
    nbuf' ++ chars (future p') = nbuf ++ chars (future p) /\ fend (future p') = fend (future p) /\ wne (future p') /\
    (((4 <= List.length nbuf')%nat /\ rerr' = None) \/
     ((List.length nbuf' < 4)%nat /\ rerr' = Some (fend (future p)) /\ chars (future p') = [] /\ returned p')).
  Proof.
    induction fuel as [|fuel IH]; intros target nbuf p Hf Ht Hw; cbn [refill].
    - repeat split; try assumption. left. split; [cbn in Hf; lia|reflexivity].
    - destruct (Nat.ltb_spec (List.length nbuf) 4) as [L|L];
        [|repeat split; try assumption; left; split; [lia|reflexivity]].
      pose proof (pipe_read_chars (target - List.length nbuf) p ltac:(lia) Hw) as R.
      destruct (pipe_read (target - List.length nbuf) p) as [[b|e] p1].
      + destruct R as (Rb & Rc & Re & Rw).
        assert (Hb : (1 <= List.length b)%nat) by (destruct b; [congruence|cbn; lia]).
        specialize (IH target (nbuf ++ b) p1). rewrite app_length in IH. specialize (IH ltac:(lia) Ht Rw).
        destruct (refill fuel target (nbuf ++ b) None p1) as [[nbuf' rerr'] p''].
        destruct IH as (I1 & I2 & I3 & I4).
        split; [rewrite I1, <- app_assoc, Rc; reflexivity|]. split; [congruence|]. split; [exact I3|].
        rewrite <- Re. exact I4.
      + destruct R as (Rc & Re & Rf & Rr). rewrite Rf, Re. repeat split; try assumption.
        right. repeat split; assumption || lia.
  Qed.

  (* how a Read ends when the pipe closes with fewer than four characters buffered *)
  Definition short_end (nbuf : bytes) (rerr : option tend) : rend :=
    match rerr with
    | Some TEnd => match nbuf with [] => REOF | _ => RErr EBadBase64 end
    | Some (TErr e) => RErr e
    | None => RErr EBadBase64
    end.

  (* The outcomes of one Read: output left over; a sticky error; after refilling, a short end or a chunk of
     k >= 1 quanta.  The code's two branches for the chunk ("fits the caller's buffer" or not) are firstn / skipn
     of the same data, because k quanta decode to at most 3k bytes. *)
  Inductive read0_case (n : nat) (d : dec) : Prop :=
  | R0_leftover : forall x out, c_out (d_c d) = x :: out ->
      dec_read0 n d = ((firstn n (x :: out), None),
        {| d_c := {| c_nbuf := c_nbuf (d_c d); c_out := skipn n (x :: out); c_err := c_err (d_c d); c_rerr := c_rerr (d_c d) |};
           d_p := d_p d |}) ->
      read0_case n d
  | R0_sticky : forall e, c_out (d_c d) = [] -> c_err (d_c d) = Some e -> dec_read0 n d = (([], Some e), d) ->
      read0_case n d
  | R0_short : forall nbuf rerr p', c_out (d_c d) = [] -> c_err (d_c d) = None ->
      refill 4 (clamp_nn n) (c_nbuf (d_c d)) (c_rerr (d_c d)) (d_p d) = (nbuf, rerr, p') ->
      (List.length nbuf < 4)%nat ->
      dec_read0 n d = (([], Some (short_end nbuf rerr)),
        {| d_c := {| c_nbuf := nbuf; c_out := []; c_err := Some (short_end nbuf rerr); c_rerr := rerr |}; d_p := p' |}) ->
      read0_case n d
  | R0_chunk : forall rerr p' k chunk rest data bad, c_out (d_c d) = [] -> c_err (d_c d) = None ->
      refill 4 (clamp_nn n) (c_nbuf (d_c d)) (c_rerr (d_c d)) (d_p d) = (chunk ++ rest, rerr, p') ->
      (1 <= k)%nat -> List.length chunk = (4 * k)%nat -> (List.length rest < 4)%nat ->
      b64_chunk chunk = (data, bad) -> (List.length data <= 3 * k)%nat ->
      (let err := if bad then Some (RErr EBadBase64) else None in
       dec_read0 n d = ((firstn n data, err),
         {| d_c := {| c_nbuf := rest; c_out := skipn n data; c_err := err; c_rerr := rerr |}; d_p := p' |})) ->
      read0_case n d.

  Lemma dec_read0_cases : forall n d, read0_case n d.
  Proof.
    intros n [c p].
    destruct (c_out c) as [|x out] eqn:O; [|eapply R0_leftover; [exact O|]; unfold dec_read0; cbn [d_c d_p]; rewrite O; reflexivity].
    destruct (c_err c) as [e|] eqn:Er; [eapply R0_sticky; [exact O|exact Er|]; unfold dec_read0; cbn [d_c d_p]; rewrite O, Er; reflexivity|].
    destruct (refill 4 (clamp_nn n) (c_nbuf c) (c_rerr c) p) as [[nbuf rerr] p'] eqn:R.
    destruct (Nat.ltb (List.length nbuf) 4) eqn:L4.
    { apply Nat.ltb_lt in L4 as L. eapply R0_short; [exact O|exact Er|exact R|exact L|].
      unfold dec_read0. cbn [d_c d_p]. rewrite O, Er, R, L4. reflexivity. }
    apply Nat.ltb_ge in L4 as L.
    destruct (div4 (List.length nbuf)) as (k & K1 & K2 & K3 & K4).
    set (nr := (List.length nbuf / 4 * 4)%nat) in *.
    assert (Hcl : List.length (firstn nr nbuf) = (4 * k)%nat) by (rewrite firstn_length; lia).
    pose proof (b64_chunk_len k _ Hcl) as Ln.
    destruct (b64_chunk (firstn nr nbuf)) as [data bad] eqn:EB. cbn [fst] in Ln.
    apply (R0_chunk n _ rerr p' k (firstn nr nbuf) (skipn nr nbuf) data bad);
      [exact O|exact Er|rewrite firstn_skipn; exact R|lia|exact Hcl|rewrite skipn_length; lia|exact EB|exact Ln|].
    cbv zeta. unfold dec_read0. cbn [d_c d_p]. rewrite O, Er, R.
    rewrite L4. fold nr. rewrite EB, K4.
    destruct (Nat.ltb_spec n (3 * k)) as [N|N]; [reflexivity|].
    rewrite (firstn_all2 (n:=n) data), (skipn_all2 (n:=n) data) by lia. reflexivity.
  Qed.

  Definition cinv (d : dec) : Prop :=
    c_err (d_c d) = None /\ c_rerr (d_c d) = None /\ (List.length (c_nbuf (d_c d)) < 4)%nat /\ wne (future (d_p d)).
  (* the base64 characters not decoded yet, and how the pipe will end *)
  Definition rem (d : dec) : bytes := c_nbuf (d_c d) ++ chars (future (d_p d)).
  Definition pend (d : dec) : tend := fend (future (d_p d)).
  Definition meas (d : dec) : nat := (List.length (c_out (d_c d)) + List.length (rem d))%nat.

  (* one Read, without any condition on the padding: it reports an end, or what is left shrinks *)
  Lemma dec_read0_progress : forall n d, cinv d -> (1 <= n)%nat ->
    let '((b, e), d') := dec_read0 n d in
    match e with
    | None => cinv d' /\ (meas d' < meas d)%nat
    | Some _ => True
    end.
  Proof.
    intros n d (C1 & C2 & C3 & C4) Hn. unfold meas, rem.
    destruct (dec_read0_cases n d) as [x out O -> | e _ _ -> | nbuf rerr p' O _ R _ ->
                                      | rerr p' k chunk rest data bad O _ R Hk Hl Hr _ Hd ->]; try exact I.
    - cbn [d_c d_p c_out c_err c_rerr c_nbuf]. split; [repeat split; assumption|].
      rewrite O, skipn_length. cbn [List.length]. lia.
    - destruct bad; [exact I|]. cbn [d_c d_p c_out c_err c_rerr c_nbuf].
      pose proof (refill_spec 4 (clamp_nn n) (c_nbuf (d_c d)) (d_p d) ltac:(lia) (proj1 (clamp_ge4 n)) C4) as S.
      rewrite <- C2, R in S. destruct S as (S1 & _ & S3 & S4).
      destruct S4 as [(_ & ->) | (L & _)]; [|rewrite app_length in L; lia].
      split; [repeat split; assumption|].
      rewrite <- S1, O, <- app_assoc, !app_length, skipn_length, Hl. cbn [List.length]. lia.
  Qed.

  (* ... and under the padding condition what it returns is the next piece of the whole-stream decoding *)
  Lemma dec_read0_spec : forall n d, cinv d -> (1 <= n)%nat -> no_ipad (rem d) = true ->
    let '((b, e), d') := dec_read0 n d in
    let '(ds, st) := b64_decode_seq (rem d) in
    match e with
    | None =>
        cinv d' /\ pend d' = pend d /\ no_ipad (rem d') = true /\ (meas d' < meas d)%nat /\
        (exists pre, ds = pre ++ fst (b64_decode_seq (rem d')) /\ c_out (d_c d) ++ pre = b ++ c_out (d_c d')) /\
        snd (b64_decode_seq (rem d')) = st
    | Some E =>
        c_out (d_c d) = [] /\ E = end_of st (pend d) /\ prefix b ds /\ (st <> B64Corrupt -> b = ds) /\
        (E = REOF -> returned (d_p d'))
    end.
  Proof.
    intros n d Hc Hn Hp. pose proof (dec_read0_progress n d Hc Hn) as P. destruct Hc as (C1 & C2 & C3 & C4).
    unfold rem, pend in *.
    destruct (dec_read0_cases n d) as [x out O E | e _ E1 _ | nbuf rerr p' O _ R L E
                                      | rerr p' k chunk rest data bad O _ R Hk Hl Hr Hch Hd E];
      [|congruence| |]; rewrite E in *; clear E; cbn [d_c d_p c_out c_err c_rerr c_nbuf] in *.
    - (* left-over output of the previous Read *)
      destruct (b64_decode_seq (c_nbuf (d_c d) ++ chars (future (d_p d)))) as [ds st]. destruct P as [P1 P2].
      split; [exact P1|]. split; [reflexivity|]. split; [exact Hp|]. split; [exact P2|]. split; [|reflexivity].
      exists []. cbn [fst]. split; [reflexivity|]. rewrite O, app_nil_r, firstn_skipn. reflexivity.
    - (* the pipe is closed with fewer than 4 characters left *)
      pose proof (refill_spec 4 (clamp_nn n) (c_nbuf (d_c d)) (d_p d) ltac:(lia) (proj1 (clamp_ge4 n)) C4) as S.
      rewrite <- C2, R in S. destruct S as (S1 & S2 & _ & [(L' & _) | (_ & -> & Ch & Ret)]); [lia|].
      rewrite <- S1, Ch, app_nil_r, (b64_seq_short nbuf L). cbn [fst snd].
      split; [exact O|]. split; [destruct (fend (future (d_p d))); destruct nbuf; reflexivity|].
      split; [exists []; reflexivity|]. split; [reflexivity|]. intros _. exact Ret.
    - (* a chunk of k quanta *)
      pose proof (refill_spec 4 (clamp_nn n) (c_nbuf (d_c d)) (d_p d) ltac:(lia) (proj1 (clamp_ge4 n)) C4) as S.
      rewrite <- C2, R in S. destruct S as (S1 & S2 & _ & _).
      rewrite <- S1, <- S2, <- app_assoc in *.
      pose proof (b64_chunk_strict k chunk (rest ++ chars (future p')) Hl Hp) as S. rewrite Hch in S.
      destruct bad.
      + rewrite S. split; [exact O|]. split; [reflexivity|].
        split; [exists (skipn n data); symmetry; apply firstn_skipn|]. split; [congruence|discriminate].
      + destruct S as [S3 S4]. rewrite S3. destruct P as [P1 P2].
        split; [exact P1|]. split; [reflexivity|]. split; [exact S4|]. split; [exact P2|]. split; [|reflexivity].
        exists data. split; [reflexivity|]. rewrite O. symmetry. apply firstn_skipn.
  Qed.

  Lemma rev_append_app : forall {A} (b acc : list A), rev_append (rev_append b acc) [] = rev_append acc [] ++ b.
  Proof. intros. rewrite !rev_append_rev, !app_nil_r, rev_app_distr, rev_involutive. reflexivity. Qed.

  (* the caller's loop: every sequence of buffer sizes gives the whole-stream result *)
  Lemma read_all0_spec : forall fuel sz i d acc,
    (forall j, (1 <= sz j)%nat) -> cinv d -> no_ipad (rem d) = true -> (meas d < fuel)%nat ->
    exists b d' x,
      read_all T dec_read0 fuel sz i d acc = (b, Some (end_of (snd (b64_decode_seq (rem d))) (pend d)), d') /\
      b = rev_append acc [] ++ c_out (d_c d) ++ x /\ prefix x (fst (b64_decode_seq (rem d))) /\
      (snd (b64_decode_seq (rem d)) <> B64Corrupt -> x = fst (b64_decode_seq (rem d))) /\
      (end_of (snd (b64_decode_seq (rem d))) (pend d) = REOF -> returned (d_p d')).
  Proof.
    induction fuel as [|fuel IH]; intros sz i d acc Hsz Hc Hp Hm; [lia|].
    cbn [read_all]. pose proof (dec_read0_spec (sz i) d Hc (Hsz i) Hp) as S.
    destruct (dec_read0 (sz i) d) as [[b e] d1]. destruct (b64_decode_seq (rem d)) as [ds st] eqn:Eds. cbn [fst snd].
    destruct e as [E|].
    - destruct S as (S1 & S2 & S3 & S4 & S5). exists (rev_append (rev_append b acc) []), d1, b.
      split; [rewrite S2; reflexivity|]. split; [rewrite S1, rev_append_app; reflexivity|].
      split; [exact S3|]. split; [exact S4|]. rewrite <- S2. exact S5.
    - destruct S as (S1 & S2 & S3 & S4 & (pre & S5 & S6) & S7).
      destruct (IH sz (N.succ i) d1 (rev_append b acc) Hsz S1 S3 ltac:(lia)) as (b' & d' & x & R1 & R2 & R3 & R4 & R5).
      rewrite S7, S2 in R1, R5. exists b', d', (pre ++ x).
      split; [exact R1|]. split.
      { rewrite R2, rev_append_app. rewrite <- !app_assoc. f_equal. rewrite (app_assoc (c_out (d_c d))), S6, <- app_assoc. reflexivity. }
      split.
      { destruct R3 as [r R3]. exists r. rewrite S5, R3, app_assoc. reflexivity. }
      split; [|exact R5].
      intros Hst. rewrite S7 in R4. rewrite (R4 Hst), S5. reflexivity.
  Qed.

  Lemma read_all0_total : forall fuel sz i d acc,
    (forall j, (1 <= sz j)%nat) -> cinv d -> (meas d < fuel)%nat ->
    exists b e d', read_all T dec_read0 fuel sz i d acc = (b, Some e, d').
  Proof.
    induction fuel as [|fuel IH]; intros sz i d acc Hsz Hc Hm; [lia|].
    cbn [read_all]. pose proof (dec_read0_progress (sz i) d Hc (Hsz i)) as S.
    destruct (dec_read0 (sz i) d) as [[b e] d1]. destruct e as [e|].
    - eexists _, _, _. reflexivity.
    - destruct S as [S1 S2]. apply IH; [exact Hsz|exact S1|lia].
  Qed.

  Lemma p_close_returned : forall e p, returned (p_close e p).
  Proof.
    intros e p. unfold p_close, returned. destruct (p_q (p_fill p)) as [|[w|e'] q] eqn:Q.
    - eexists _, _. reflexivity.
    - eexists _, _. reflexivity.
    - eexists _, _. exact Q.
  Qed.

  Lemma returned_not_stuck : forall p, returned p -> p_stuck T tfeed tfin p = false.
  Proof.
    intros p (e & q & Q). unfold p_stuck. rewrite p_fill_idem by (rewrite Q; discriminate).
    unfold p_returned. rewrite Q. reflexivity.
  Qed.

  (* the loop over [dec_read] returns what the loop over [dec_read0] returns, and has closed the pipe after an error *)
  Lemma read_all_closing : forall fuel sz i d acc b e d',
    read_all T dec_read0 fuel sz i d acc = (b, e, d') ->
    exists d'', read_all T dec_read fuel sz i d acc = (b, e, d'') /\
      match e with Some (RErr _) => returned (d_p d'') | _ => d'' = d' end.
  Proof.
    induction fuel as [|fuel IH]; intros sz i d acc b e d' H.
    - cbn [read_all] in *. injection H as <- <- <-. eexists. split; reflexivity.
    - cbn [read_all] in *. unfold dec_read at 1. destruct (dec_read0 (sz i) d) as [[b1 e1] d1].
      cbn [snd]. destruct e1 as [[|x]|].
      + injection H as <- <- <-. eexists. split; reflexivity.
      + injection H as <- <- <-. eexists. split; [reflexivity|]. cbn [d_p]. apply p_close_returned.
      + apply IH. exact H.
  Qed.

  Lemma chars_nil : forall f, wne f -> has_end f = true -> chars f = [] -> exists e f', f = PEnd e :: f'.
  Proof.
    intros [|[w|e] f] Hw He Hc; [discriminate| |eexists _, _; reflexivity].
    inversion Hw; subst. cbn [chars] in Hc. apply app_eq_nil in Hc as [-> _]. congruence.
  Qed.

  (* what the caller's loop returned, against the whole-stream meaning of the pipe traffic [F]: the data and
     io.EOF, or the error after a prefix of the decodable data; it holds with either Read
     (stream_decode_spec, stream_decode0_spec) *)
  Definition fixed_ok (r : sres T) (F : list pevent) : Prop :=
    match decode_result (chars F, fend F) with
    | DOk d => s_data r = d /\ s_end r = Some REOF
    | DErr e => s_end r = Some (RErr e) /\ prefix (s_data r) (fst (b64_decode_seq (tl (chars F))))
    end.

  Lemma end_of_class : forall body t,
    match b64_decode_seq body, t with
    | (_, B64Corrupt), _ => end_of (snd (b64_decode_seq body)) t = RErr EBadBase64
    | (d, B64Clean), TEnd => end_of (snd (b64_decode_seq body)) t = REOF
    | (_, B64Partial), TEnd => end_of (snd (b64_decode_seq body)) t = RErr EBadBase64
    | (_, _), TErr e => end_of (snd (b64_decode_seq body)) t = RErr e
    end.
  Proof. intros body t. destruct (b64_decode_seq body) as [d [| |]]; destruct t; reflexivity. Qed.

  (* NewArmorDecoder reads the version byte: what it returns, by the first event of the document *)
  Lemma dec_new_spec : forall chunks,
    match events_of false tinit (List.concat chunks) with
    | PW (v :: w) :: f =>
        if v =? VERSION
        then exists d, dec_new chunks = NewOk T d /\ cinv d /\ c_out (d_c d) = [] /\ rem d = w ++ chars f /\ pend d = fend f
        else exists p, dec_new chunks = NewErr T EUnknownVersion p
    | PEnd TEnd :: _ => exists p, dec_new chunks = NewErr T EEmpty p
    | PEnd (TErr e) :: _ => exists p, dec_new chunks = NewErr T e p
    | _ => False
    end.
  Proof.
    intros chunks. unfold dec_new.
    pose proof (pipe_read_spec 1 (p_init T tinit chunks)) as R. rewrite future_init in R.
    assert (W : wne (events_of false tinit (List.concat chunks))) by apply evs_wne.
    destruct (events_of false tinit (List.concat chunks)) as [|[w|e] f]; [exact R| |].
    - destruct R as (p1 & -> & R2). inversion W as [|? ? Hw Wf]; subst.
      destruct w as [|v w]; [congruence|]. cbn [firstn skipn] in *.
      destruct (v =? VERSION); [|eexists; reflexivity].
      eexists. split; [reflexivity|]. unfold cinv, rem, pend. cbn [d_c d_p cons0 c_err c_rerr c_nbuf c_out List.length app].
      rewrite R2. destruct w; cbn [chars fend app]; repeat split; try lia; try exact Wf.
      constructor; [discriminate|exact Wf].
    - destruct R as (p1 & -> & _). destruct e; eexists; reflexivity.
  Qed.

  (* one proof for both Reads: [rd] is any Read whose loop returns what the loop over [dec_read0] returns *)
  Lemma stream_decode_generic : forall rd chunks sz fuel,
    (forall j, (1 <= sz j)%nat) ->
    (forall fuel sz i d acc b e d', read_all T dec_read0 fuel sz i d acc = (b, e, d') ->
       exists d'', read_all T rd fuel sz i d acc = (b, e, d'')) ->
    let F := events_of false tinit (List.concat chunks) in
    no_ipad (tl (chars F)) = true -> (List.length (chars F) < fuel)%nat ->
    fixed_ok (stream_decode_with T tinit tfeed tfin rd chunks sz fuel) F.
  Proof.
    intros rd chunks sz fuel Hsz Hrd F Hp Hf. unfold fixed_ok, stream_decode_with.
    pose proof (dec_new_spec chunks) as N. fold F in N.
    destruct F as [|[[|v w]|e] f]; try contradiction; cbn [chars fend tl app] in *; unfold decode_result.
    - destruct (v =? VERSION); cbn [negb].
      + destruct N as (d0 & -> & Hc & Ho & Hr & Hpe).
        destruct (read_all0_spec fuel sz 0 d0 [] Hsz Hc ltac:(rewrite Hr; exact Hp)
                    ltac:(unfold meas; rewrite Hr, Ho; cbn [List.length] in *; lia))
          as (b & d' & x & A1 & A2 & A3 & A4 & A5).
        destruct (Hrd _ _ _ _ _ _ _ _ A1) as (d'' & ->). cbn [s_data s_end].
        rewrite Hr, Hpe, Ho in *. cbn [rev_append app] in A2. subst b.
        pose proof (end_of_class (w ++ chars f) (fend f)) as C.
        destruct (b64_decode_seq (w ++ chars f)) as [ds [| |]] eqn:Eds; cbn [fst snd] in *; destruct (fend f) as [|e'];
          rewrite C; first [ split; [apply A4; discriminate|reflexivity] | split; [reflexivity|exact A3] ].
      + destruct N as (p & ->). cbn [s_data s_end]. split; [reflexivity|].
        exists (fst (b64_decode_seq (w ++ chars f))). reflexivity.
    - destruct e as [|e]; destruct N as (p & ->); cbn [s_data s_end]; (split; [reflexivity|]);
        exists (fst (b64_decode_seq (tl []))); reflexivity.
  Qed.

  (* arbitrary documents (any padding): the caller's loop ends, after at most one Read per character that
     reached the pipe *)
  Theorem stream_decode_total : forall chunks sz fuel,
    (forall j, (1 <= sz j)%nat) ->
    (List.length (chars (events_of false tinit (List.concat chunks))) < fuel)%nat ->
    s_end (stream_decode T tinit tfeed tfin chunks sz fuel) <> None.
  Proof.
    intros chunks sz fuel Hsz Hf. unfold stream_decode, stream_decode_with.
    pose proof (dec_new_spec chunks) as N.
    destruct (events_of false tinit (List.concat chunks)) as [|[[|v w]|e] f]; try contradiction.
    - destruct (v =? VERSION); [|destruct N as (p & ->); cbn; discriminate].
      destruct N as (d0 & -> & Hc & Ho & Hr & _).
      assert (Hm : (meas d0 < fuel)%nat) by (unfold meas; rewrite Hr, Ho; cbn [chars app List.length] in *; lia).
      destruct (read_all0_total fuel sz 0 d0 [] Hsz Hc Hm) as (b & e & d' & A).
      destruct (read_all_closing _ _ _ _ _ _ _ _ A) as (d'' & -> & _). cbn. discriminate.
    - destruct e; destruct N as (p & ->); cbn; discriminate.
  Qed.

  Theorem stream_decode_spec : forall chunks sz fuel,
    (forall j, (1 <= sz j)%nat) ->
    let F := events_of false tinit (List.concat chunks) in
    no_ipad (tl (chars F)) = true -> (List.length (chars F) < fuel)%nat ->
    fixed_ok (stream_decode T tinit tfeed tfin chunks sz fuel) F.
  Proof.
    intros chunks sz fuel Hsz. apply stream_decode_generic; [exact Hsz|].
    intros f s i d acc b e d' H. destruct (read_all_closing _ _ _ _ _ _ _ _ H) as (d'' & H' & _). exists d''. exact H'.
  Qed.

  Theorem stream_decode0_spec : forall chunks sz fuel,
    (forall j, (1 <= sz j)%nat) ->
    let F := events_of false tinit (List.concat chunks) in
    no_ipad (tl (chars F)) = true -> (List.length (chars F) < fuel)%nat ->
    fixed_ok (stream_decode0 T tinit tfeed tfin chunks sz fuel) F.
  Proof.
    intros chunks sz fuel Hsz. apply stream_decode_generic; [exact Hsz|].
    intros f s i d acc b e d' H. exists d'. exact H.
  Qed.

  Lemma pipe_read_closed : forall k p e p', pipe_read k p = (PClosed e, p') -> returned p'.
  Proof.
    intros k p e p' H. unfold pipe_read in H. pose proof (p_fill_nonempty p) as NE.
    destruct (p_q (p_fill p)) as [|[w|e1] q] eqn:Q; [congruence|discriminate|].
    injection H as <- <-. eexists _, _. exact Q.
  Qed.

  Lemma returned_fill : forall p, returned p -> p_fill p = p.
  Proof. intros p (e & q & Q). apply p_fill_idem. rewrite Q. discriminate. Qed.

  Lemma pipe_read_returned : forall k p, returned p -> exists r, pipe_read k p = (r, p).
  Proof.
    intros k p H. unfold pipe_read. rewrite (returned_fill p H). destruct H as (e & q & Q). rewrite Q.
    eexists. reflexivity.
  Qed.

  Lemma refill_returned : forall fuel target nbuf rerr p nbuf' rerr' p',
    refill fuel target nbuf rerr p = (nbuf', rerr', p') ->
    (rerr <> None -> returned p) -> (rerr' <> None -> returned p') /\ (returned p -> returned p').
  Proof.
    induction fuel as [|fuel IH]; intros target nbuf rerr p nbuf' rerr' p' H Hr.
    - cbn [refill] in H. injection H as <- <- <-. split; [exact Hr|auto].
    - cbn [refill] in H. destruct (Nat.ltb (List.length nbuf) 4); [|injection H as <- <- <-; split; [exact Hr|auto]].
      destruct rerr as [e|]; [injection H as <- <- <-; split; [exact Hr|auto]|].
      destruct (pipe_read (target - List.length nbuf) p) as [[b|e] p1] eqn:R.
      + destruct (IH _ _ _ _ _ _ _ H ltac:(congruence)) as [I1 I2]. split; [exact I1|].
        intros Hp. apply I2. destruct (pipe_read_returned (target - List.length nbuf) p Hp) as [r R']. congruence.
      + injection H as <- <- <-. split; intros _; eapply pipe_read_closed; exact R.
  Qed.

  Definition winv (d : dec) : Prop :=
    (c_rerr (d_c d) <> None -> returned (d_p d)) /\ (c_err (d_c d) = Some REOF -> returned (d_p d)).

  Lemma dec_read0_winv : forall n d, winv d ->
    let '((b, e), d') := dec_read0 n d in winv d' /\ (e = Some REOF -> returned (d_p d')).
  Proof.
    intros n d [W1 W2]. unfold winv.
    destruct (dec_read0_cases n d) as [x out _ -> | e _ E -> | nbuf rerr p' _ _ R _ ->
                                      | rerr p' k chunk rest data bad _ _ R _ _ _ _ _ ->];
      cbn [d_c d_p c_rerr c_err].
    - split; [split; assumption|discriminate].
    - split; [split; assumption|]. intros [= ->]. apply W2, E.
    - destruct (refill_returned _ _ _ _ _ _ _ _ R W1) as [R1 _].
      destruct rerr as [[|e]|]; cbn [short_end].
      + split; [split; intros _; apply R1; discriminate|]. intros _. apply R1. discriminate.
      + split; [split; [intros _; apply R1; discriminate|discriminate]|discriminate].
      + split; [split; [congruence|discriminate]|discriminate].
    - destruct (refill_returned _ _ _ _ _ _ _ _ R W1) as [R1 _].
      split; [split; [exact R1|destruct bad; discriminate]|destruct bad; discriminate].
  Qed.

  Lemma p_close_keeps : forall e p, returned p -> p_close e p = p.
  Proof.
    intros e p H. unfold p_close. rewrite (returned_fill p H). destruct H as (e1 & q & Q). rewrite Q. reflexivity.
  Qed.

  Lemma dec_read_winv : forall n d, winv d ->
    let '((b, e), d') := dec_read n d in winv d' /\ (e <> None -> returned (d_p d')).
  Proof.
    intros n d W. unfold dec_read. pose proof (dec_read0_winv n d W) as H.
    destruct (dec_read0 n d) as [[b e] d1]. destruct H as [[H1 H2] H3]. cbn [snd].
    destruct e as [[|x]|].
    - split; [split; assumption|]. intros _. apply H3. reflexivity.
    - assert (R : returned (p_close x (d_p d1))) by apply p_close_returned.
      split; [split; intros _; exact R|]. intros _. exact R.
    - split; [split; assumption|congruence].
  Qed.

  Lemma read_all_released : forall fuel sz i d acc b e d',
    winv d -> read_all T dec_read fuel sz i d acc = (b, Some e, d') -> returned (d_p d').
  Proof.
    induction fuel as [|fuel IH]; intros sz i d acc b e d' W H; [discriminate|].
    cbn [read_all] in H. pose proof (dec_read_winv (sz i) d W) as S.
    destruct (dec_read (sz i) d) as [[b1 e1] d1]. destruct S as [S1 S2]. destruct e1 as [e1|].
    - injection H as <- <- <-. apply S2. discriminate.
    - eapply IH; [exact S1|exact H].
  Qed.

  (* whatever the input, the source's Reads and the caller's buffers: once the decoder has reported
     io.EOF or an error (or NewArmorDecoder has failed) its goroutine has returned *)
  Theorem stream_decode_released : forall chunks sz fuel,
    s_end (stream_decode T tinit tfeed tfin chunks sz fuel) <> None ->
    p_stuck T tfeed tfin (s_prod (stream_decode T tinit tfeed tfin chunks sz fuel)) = false.
  Proof.
    intros chunks sz fuel. unfold stream_decode, stream_decode_with, dec_new.
    destruct (pipe_read 1 (p_init T tinit chunks)) as [[b|e] p1] eqn:R.
    - assert (Hcl : forall x, p_stuck T tfeed tfin (p_close x p1) = false)
        by (intros x; apply returned_not_stuck, p_close_returned).
      destruct b as [|v b]; cbn [s_end s_prod]; [intros _; apply Hcl|].
      destruct (v =? VERSION); cbn [s_end s_prod]; [|intros _; apply Hcl].
      destruct (read_all T dec_read fuel sz 0 {| d_c := cons0; d_p := p1 |} []) as [[b' e'] d'] eqn:RA.
      cbn [s_end s_prod]. intros He. destruct e' as [e'|]; [|congruence].
      apply returned_not_stuck. eapply read_all_released; [|exact RA].
      split; cbn [d_c d_p cons0 c_rerr c_err]; [congruence|discriminate].
    - assert (Hr : returned p1) by (eapply pipe_read_closed; exact R).
      destruct e as [|e]; cbn [s_end s_prod]; intros _; apply returned_not_stuck; exact Hr.
  Qed.

End StreamProofs.
