(* PeersProofs.v — the Peers interleaving machine (Model/Peers.v): its steps as an inductive relation, the invariants of
   both code versions (who holds the lock, peers tracked and bounded, what End has done), the Once discipline and the
   termination of End for the repaired code, and the runs on which the pinned code fails. *)
From Coq Require Import List Arith Bool Lia.
From Snow Require Import Lib.ListFacts.
From Snow Require Import Model.Peers.
Import ListNotations.

Inductive reachable (v : version) (max : nat) : state -> Prop :=
| reach_init : reachable v max (init max)
| reach_step : forall s l s', reachable v max s -> step v s l = Some s' -> reachable v max s'.

Lemma run_reachable : forall v max tr s s', reachable v max s -> run v s tr = Some s' -> reachable v max s'.
Proof.
  induction tr as [|l tr IH]; simpl; intros s s' R H.
  - inversion H; subst; assumption.
  - destruct (step v s l) eqn:E; [|discriminate]. eapply IH; [|exact H]. eapply reach_step; eauto.
Qed.

Lemma run_init_reachable : forall v max tr s, run v (init max) tr = Some s -> reachable v max s.
Proof. intros v max tr s. apply run_reachable, reach_init. Qed.

Lemma run_app : forall v tr1 tr2 s s1, run v s tr1 = Some s1 -> run v s (tr1 ++ tr2) = run v s1 tr2.
Proof.
  induction tr1 as [|l tr1 IH]; intros tr2 s s1 H; cbn in *.
  - inversion H; subst. reflexivity.
  - destruct (step v s l); [|discriminate]. apply IH. exact H.
Qed.

Lemma nth_error_set_nth : forall A (l : list A) i j x,
  nth_error (set_nth i x l) j =
  if Nat.eqb j i then match nth_error l i with Some _ => Some x | None => None end else nth_error l j.
Proof.
  induction l as [|h t IH]; intros i j x.
  - simpl. destruct (Nat.eqb j i); destruct i, j; reflexivity.
  - destruct i, j; simpl; try reflexivity. apply IH.
Qed.

Lemma length_set_nth : forall A (l : list A) i x, length (set_nth i x l) = length l.
Proof. induction l; destruct i; simpl; intros; auto. Qed.

Lemma close_all_mono : forall l f p, f p = true -> close_all f l p = true.
Proof.
  induction l as [|q l IH]; simpl; intros f p H; auto.
  apply IH. unfold close_peer. destruct (Nat.eqb p q); auto.
Qed.

Lemma close_all_in : forall l f p, In p l -> close_all f l p = true.
Proof.
  induction l as [|q l IH]; simpl; intros f p H; [contradiction|].
  destruct H as [->|H].
  - apply close_all_mono. unfold close_peer. rewrite Nat.eqb_refl. reflexivity.
  - apply IH; assumption.
Qed.

Lemma close_all_notin : forall l f p, ~ In p l -> close_all f l p = f p.
Proof.
  induction l as [|q l IH]; simpl; intros f p H; auto.
  rewrite IH by tauto. unfold close_peer. destruct (Nat.eqb_spec p q); [subst; tauto|reflexivity].
Qed.

Ltac step_inv H :=
  unfold step in H;
  match type of H with (if ?b then _ else _) = _ => destruct b eqn:Hpan; [discriminate|] end;
  repeat match type of H with
    | match ?x with _ => _ end = Some _ => destruct x eqn:?; try discriminate
    | (if ?x then _ else _) = Some _ => destruct x eqn:?; try discriminate
  end;
  inversion H; subst; clear H.

(* one constructor per enabled branch of step, in the order of the branches *)
Inductive Step (v : version) (s : state) : label -> state -> Prop :=
| S_col_lock (Gcol : col s = C_Idle) (Glock : lock s = None) : Step v s Col_lock (set_col (set_lock s (Some T_Col)) C_Locked)
| S_check_melted (Gcol : col s = C_Locked) (Gmelt : melted s = true) : Step v s Col_check (set_col s (C_Unlock R_Melted))
| S_check_atcap (Gcol : col s = C_Locked) (Gmelt : melted s = false)
    (Gcap : (cap s <=? length (filter (live s) (active s))) = true) :
    Step v s Col_check (set_col (set_active s (filter (live s) (active s))) (C_Unlock R_AtCap))
| S_check_room (Gcol : col s = C_Locked) (Gmelt : melted s = false)
    (Gcap : (cap s <=? length (filter (live s) (active s))) = false) :
    Step v s Col_check (set_col (set_active s (filter (live s) (active s))) C_Catching)
| S_catch_ok (Gcol : col s = C_Catching) : Step v s Catch_ok (set_col (set_next_peer s (S (next_peer s))) (C_Caught (next_peer s)))
| S_catch_err (Gcol : col s = C_Catching) : Step v s Catch_err (set_col s (C_Unlock R_Fail))
| S_push p (Gcol : col s = C_Caught p) : Step v s Col_push (set_col (set_active s (active s ++ [p])) (C_Sending p))
| S_col_send_closed p (Gcol : col s = C_Sending p) (Gclosed : chan_closed s = true) : Step v s Col_send (set_panicked s)
| S_col_send p (Gcol : col s = C_Sending p) (Gclosed : chan_closed s = false) (Groom : (length (chan s) <? cap s) = true) :
    Step v s Col_send (set_col (set_chan s (chan s ++ [p])) (C_Unlock (R_Ok p)))
| S_abort p (Gv : v = V1) (Gcol : col s = C_Sending p) (Gmelt : melted s = true) : Step v s Col_abort (set_col s (C_Unlock R_Aborted))
| S_col_unlock r (Gcol : col s = C_Unlock r) : Step v s Col_unlock (set_col (set_lock s None) (C_Done r))
| S_col_return r (Gcol : col s = C_Done r) : Step v s Col_return (set_col s C_Idle)
| S_pop_call : Step v s Pop_call (set_pops s (pops s ++ [P_Wait]))
| S_pop_recv_closed i (Gpop : nth_error (pops s) i = Some P_Wait) (Gchan : chan s = []) (Gclosed : chan_closed s = true) :
    Step v s (Pop_recv i) (set_pop s i (P_Ret None))
| S_pop_recv i p rest (Gpop : nth_error (pops s) i = Some P_Wait) (Gchan : chan s = p :: rest) :
    Step v s (Pop_recv i) (set_pop (set_chan s rest) i (P_Got p))
| S_check_closed i p (Gpop : nth_error (pops s) i = Some (P_Got p)) (Gflag : closedf s p = true) :
    Step v s (Pop_check i) (set_pop s i P_Wait)
| S_check_open i p (Gpop : nth_error (pops s) i = Some (P_Got p)) (Gflag : closedf s p = false) :
    Step v s (Pop_check i) (set_pop s i (P_Ret (Some p)))
| S_peer_closes p (Gnew : (p <? next_peer s) = true) : Step v s (Peer_closes p) (set_closedf s (close_peer (closedf s) p))
| S_end_call : Step v s End_call (set_ends s (ends s ++ [match v with V0 => E_Run | V1 => E_Start end]))
| S_once_free i (Gend : nth_error (ends s) i = Some E_Start) (Gonce : once s = O_Free) :
    Step v s (End_once i) (set_end (set_once s O_Running) i E_Run)
| S_once_running i (Gend : nth_error (ends s) i = Some E_Start) (Gonce : once s = O_Running) :
    Step v s (End_once i) (set_end s i E_Wait)
| S_once_done i (Gend : nth_error (ends s) i = Some E_Start) (Gonce : once s = O_Done) :
    Step v s (End_once i) (set_end s i E_Done)
| S_wait i (Gend : nth_error (ends s) i = Some E_Wait) (Gonce : once s = O_Done) : Step v s (End_wait i) (set_end s i E_Done)
| S_melt_twice i (Gend : nth_error (ends s) i = Some E_Run) (Gmelt : melted s = true) : Step v s (End_melt i) (set_panicked s)
| S_melt i (Gend : nth_error (ends s) i = Some E_Run) (Gmelt : melted s = false) :
    Step v s (End_melt i) (set_end (set_melted s true) i E_Melted)
| S_end_lock i (Gend : nth_error (ends s) i = Some E_Melted) (Glock : lock s = None) :
    Step v s (End_lock i) (set_end (set_lock s (Some (T_End i))) i E_Locked)
| S_closechan_twice i (Gend : nth_error (ends s) i = Some E_Locked) (Gclosed : chan_closed s = true) :
    Step v s (End_closechan i) (set_panicked s)
| S_closechan i (Gend : nth_error (ends s) i = Some E_Locked) (Gclosed : chan_closed s = false) :
    Step v s (End_closechan i) (set_end (set_chan_closed s true) i E_ChanClosed)
| S_closepeers i (Gend : nth_error (ends s) i = Some E_ChanClosed) :
    Step v s (End_closepeers i) (set_end (set_active (set_closedf s (close_all (closedf s) (active s))) []) i E_Unlock)
| S_end_unlock i (Gend : nth_error (ends s) i = Some E_Unlock) :
    Step v s (End_unlock i) (set_end (set_lock s None) i (match v with V0 => E_Done | V1 => E_Finish end))
| S_finish i (Gend : nth_error (ends s) i = Some E_Finish) : Step v s (End_finish i) (set_end (set_once s O_Done) i E_Done).

Lemma step_Step : forall v s l s', step v s l = Some s' -> panicked s = false /\ Step v s l s'.
Proof. intros v s l s' H. destruct l; step_inv H; (split; [reflexivity|]); econstructor; eassumption || reflexivity. Qed.

(* the case analysis of a step: one goal per enabled branch, the branch's guards on the shared fields rewritten
   everywhere (the guards on a thread's own program counter, Gpop and Gend, stay as hypotheses) *)
Ltac step_cases H :=
  let Hpan := fresh "Hpan" in let St := fresh "St" in
  destruct (step_Step _ _ _ _ H) as [Hpan St]; clear H; destruct St; cbn in *;
  try match goal with E : col _ = _ |- _ => rewrite E in * end;
  try match goal with E : lock _ = _ |- _ => rewrite E in * end;
  try match goal with E : melted _ = _ |- _ => rewrite E in * end;
  try match goal with E : chan_closed _ = _ |- _ => rewrite E in * end;
  try match goal with E : once _ = _ |- _ => rewrite E in * end;
  try match goal with E : chan _ = _ |- _ => rewrite E in * end;
  cbn in *.

(* the fields of a state written as updates of another, computed *)
Ltac fields :=
  cbn [cap chan chan_closed active closedf melted lock col pops ends once next_peer panicked
       set_chan set_chan_closed set_active set_closedf set_melted set_lock set_col set_pops set_ends set_once
       set_next_peer set_panicked set_pop set_end].

Definition col_crit (c : col_pc) : bool :=
  match c with C_Locked | C_Catching | C_Caught _ | C_Sending _ | C_Unlock _ => true | _ => false end.
Definition end_crit (e : end_pc) : bool :=
  match e with E_Locked | E_ChanClosed | E_Unlock => true | _ => false end.
Definition col_hasconn (c : col_pc) : bool :=
  match c with C_Catching | C_Caught _ | C_Sending _ => true | _ => false end.

Lemma nth_error_set_nth_neq : forall A (l : list A) i j x, j <> i -> nth_error (set_nth i x l) j = nth_error l j.
Proof. intros. rewrite nth_error_set_nth. destruct (Nat.eqb_spec j i); [contradiction|reflexivity]. Qed.
Lemma nth_error_set_nth_eq : forall A (l : list A) i x y, nth_error l i = Some y -> nth_error (set_nth i x l) i = Some x.
Proof. intros. rewrite nth_error_set_nth. rewrite Nat.eqb_refl. rewrite H. reflexivity. Qed.

(* a property of all entries after entry i has moved: the new entry has it, the others had it *)
Lemma set_nth_forall : forall A (P : nat -> A -> Prop) l i x,
  P i x -> (forall j e, j <> i -> nth_error l j = Some e -> P j e) ->
  forall j e, nth_error (set_nth i x l) j = Some e -> P j e.
Proof.
  intros A P l i x Hi Ho j e H. rewrite nth_error_set_nth in H. destruct (Nat.eqb_spec j i) as [->|Hne]; [|eauto].
  destruct (nth_error l i); [injection H as <-; exact Hi | discriminate].
Qed.

Lemma nth_error_set_nth_inv : forall A (l : list A) i x j e,
  nth_error (set_nth i x l) j = Some e -> (j = i /\ e = x) \/ nth_error l j = Some e.
Proof. intros A l i x. apply set_nth_forall; auto. Qed.

Lemma snoc_forall : forall A (P : nat -> A -> Prop) l x,
  P (length l) x -> (forall j e, nth_error l j = Some e -> P j e) ->
  forall j e, nth_error (l ++ [x]) j = Some e -> P j e.
Proof. intros A P l x Hx Ho j e H. apply nth_error_snoc in H as [H|[-> ->]]; eauto. Qed.

(* an entry found before the move is still there, moved or not *)
Lemma set_nth_exists : forall A (P : A -> Prop) l i x j e, nth_error l j = Some e ->
  (j = i -> P x) -> (j <> i -> P e) -> exists e', nth_error (set_nth i x l) j = Some e' /\ P e'.
Proof.
  intros A P l i x j e H Hi Ho. destruct (Nat.eq_dec j i) as [->|Hne].
  - exists x. split; [eapply nth_error_set_nth_eq; eauto | auto].
  - exists e. rewrite nth_error_set_nth_neq by exact Hne. auto.
Qed.

(* a flag of the program counter of End caller j (false if there is no such caller) *)
Definition pc_at (f : end_pc -> bool) (l : list end_pc) (j : nat) : bool :=
  match nth_error l j with Some e => f e | None => false end.

Lemma pc_at_nth : forall f l i e, nth_error l i = Some e -> pc_at f l i = f e.
Proof. intros f l i e H. unfold pc_at. rewrite H. reflexivity. Qed.
Lemma pc_at_true : forall f l i, pc_at f l i = true -> exists e, nth_error l i = Some e /\ f e = true.
Proof. intros f l i H. unfold pc_at in H. destruct (nth_error l i) as [e|]; [eauto|discriminate]. Qed.
Lemma pc_at_set_eq : forall f l i x e, nth_error l i = Some e -> pc_at f (set_nth i x l) i = f x.
Proof. intros f l i x e H. apply pc_at_nth. eapply nth_error_set_nth_eq; eauto. Qed.
Lemma pc_at_set_neq : forall f l i x j, j <> i -> pc_at f (set_nth i x l) j = pc_at f l j.
Proof. intros. unfold pc_at. rewrite nth_error_set_nth_neq by assumption. reflexivity. Qed.
(* a move between two program counters with the same flag, and a new caller without it, change nothing *)
Lemma pc_at_set_same : forall f l i x e, nth_error l i = Some e -> f x = f e ->
  forall j, pc_at f (set_nth i x l) j = pc_at f l j.
Proof.
  intros f l i x e H Hx j. destruct (Nat.eq_dec j i) as [->|Hne]; [|apply pc_at_set_neq, Hne].
  rewrite (pc_at_set_eq _ _ _ _ _ H), Hx. symmetry. apply pc_at_nth, H.
Qed.
Lemma pc_at_snoc : forall f l x, f x = false -> forall j, pc_at f (l ++ [x]) j = pc_at f l j.
Proof.
  intros f l x Hx j. unfold pc_at. destruct (nth_error (l ++ [x]) j) as [e|] eqn:E.
  - apply nth_error_snoc in E as [E|[-> ->]]; [rewrite E; reflexivity|].
    rewrite (proj2 (nth_error_None l (length l)) (le_n _)). exact Hx.
  - apply nth_error_None in E. rewrite app_length in E. rewrite (proj2 (nth_error_None l j)); [reflexivity|lia].
Qed.

Definition inv_lock (s : state) : Prop :=
  (col_crit (col s) = true <-> lock s = Some T_Col) /\
  (forall i, pc_at end_crit (ends s) i = true <-> lock s = Some (T_End i)).

Lemma lock_col : forall s, inv_lock s -> col_crit (col s) = true -> lock s = Some T_Col.
Proof. intros s [Hc _]. apply Hc. Qed.
Lemma lock_end : forall s i e, inv_lock s -> nth_error (ends s) i = Some e -> end_crit e = true -> lock s = Some (T_End i).
Proof. intros s i e [_ He] Hi Hcr. apply He. rewrite (pc_at_nth _ _ _ _ Hi). exact Hcr. Qed.
Lemma lock_end_inv : forall s j, inv_lock s -> lock s = Some (T_End j) ->
  exists e, nth_error (ends s) j = Some e /\ end_crit e = true.
Proof.
  intros s j [_ He] Hl. apply pc_at_true, He, Hl.
Qed.

(* what the invariant reads: who holds the lock, and which program counters are inside a critical section *)
Lemma inv_lock_frame : forall s s', lock s' = lock s -> col_crit (col s') = col_crit (col s) ->
  (forall j, pc_at end_crit (ends s') j = pc_at end_crit (ends s) j) -> inv_lock s -> inv_lock s'.
Proof.
  intros s s' E1 E2 E3 [Hc He]. split; [rewrite E1, E2; exact Hc | intros i; rewrite E1, E3; apply He].
Qed.

Lemma inv_lock_step : forall v s l s', inv_lock s -> step v s l = Some s' -> inv_lock s'.
Proof.
  intros v s l s' I H. destruct (step_Step _ _ _ _ H) as [_ St].
  (* only taking and releasing the lock moves a thread into or out of its critical section *)
  destruct St;
    try (apply (inv_lock_frame s);
         [ reflexivity
         | fields; rewrite ?Gcol; reflexivity
         | first [ reflexivity | apply pc_at_snoc; destruct v; reflexivity
                 | apply (pc_at_set_same _ _ _ _ _ Gend); reflexivity ]
         | exact I ]);
    destruct I as [Hc He]; unfold inv_lock; fields.
  - (* Collect takes the free lock *)
    split; [split; reflexivity|]. intros i. rewrite He, Glock. split; discriminate.
  - (* Collect releases *)
    assert (L : lock s = Some T_Col) by (apply Hc; rewrite Gcol; reflexivity).
    split; [split; discriminate|]. intros i. rewrite He, L. split; discriminate.
  - (* End takes the free lock *)
    split; [rewrite Hc, Glock; split; discriminate|]. intros j. destruct (Nat.eq_dec j i) as [->|Hne].
    + rewrite (pc_at_set_eq _ _ _ _ _ Gend). split; reflexivity.
    + rewrite pc_at_set_neq, He, Glock by exact Hne. split; [discriminate | intros [=]; congruence].
  - (* End releases *)
    assert (L : lock s = Some (T_End i)) by (apply He; rewrite (pc_at_nth _ _ _ _ Gend); reflexivity).
    split; [rewrite Hc, L; split; discriminate|]. intros j. destruct (Nat.eq_dec j i) as [->|Hne].
    + rewrite (pc_at_set_eq _ _ _ _ _ Gend). destruct v; split; discriminate.
    + rewrite pc_at_set_neq, He, L by exact Hne. split; [intros [=]; congruence | discriminate].
Qed.

Definition col_peer (c : col_pc) : option peer :=
  match c with C_Caught p | C_Sending p => Some p | _ => None end.
Definition col_reserves (c : col_pc) : bool :=
  match c with C_Catching | C_Caught _ => true | _ => false end.

Definition inv_fresh (s : state) : Prop :=
  (forall p, closedf s p = true -> p < next_peer s) /\
  (forall p, In p (active s) -> p < next_peer s) /\
  (forall p, col_peer (col s) = Some p -> p < next_peer s).

Definition inv_track (s : state) : Prop :=
  forall p, p < next_peer s -> closedf s p = false -> In p (active s) \/ col s = C_Caught p.

Definition inv_bound (s : state) : Prop :=
  length (active s) + (if col_reserves (col s) then 1 else 0) <= cap s.

(* what the invariant reads; peer numbers are only ever issued, and the collector may let go of the peer in its hand *)
Lemma inv_fresh_frame : forall s s', next_peer s <= next_peer s' -> closedf s' = closedf s -> incl (active s') (active s) ->
  (forall p, col_peer (col s') = Some p -> col_peer (col s) = Some p) -> inv_fresh s -> inv_fresh s'.
Proof.
  intros s s' E1 E2 E3 E4 (Hf & Ha & Hp). unfold inv_fresh. rewrite E2. split; [|split].
  - intros p Hq. specialize (Hf p Hq). lia.
  - intros p Hq. specialize (Ha p (E3 p Hq)). lia.
  - intros p Hq. specialize (Hp p (E4 p Hq)). lia.
Qed.

Lemma inv_fresh_step : forall v s l s', inv_fresh s -> step v s l = Some s' -> inv_fresh s'.
Proof.
  intros v s l s' I H. destruct (step_Step _ _ _ _ H) as [_ St].
  destruct St;
    try (apply (inv_fresh_frame s);
         [ apply le_n
         | reflexivity
         | first [ apply incl_refl | apply incl_filter ]
         | fields; rewrite ?Gcol; first [ exact (fun q E => E) | intros q E; discriminate E ]
         | exact I ]);
    destruct I as (Hf & Ha & Hp); unfold inv_fresh; fields; cbn [col_peer].
  - (* Catch_ok: the peer caught takes the next number *)
    split; [|split].
    + intros q Hq. specialize (Hf q Hq). lia.
    + intros q Hq. specialize (Ha q Hq). lia.
    + intros q E. injection E as <-. apply Nat.lt_succ_diag_r.
  - (* Col_push: the peer in the collector's hand joins the list *)
    assert (Hlt : p < next_peer s) by (apply Hp; rewrite Gcol; reflexivity).
    split; [exact Hf|]. split; [|intros q E; injection E as <-; exact Hlt].
    intros q Hq. apply in_app_or in Hq as [Hq|[<-|[]]]; [exact (Ha q Hq) | exact Hlt].
  - (* Peer_closes: only a peer that exists *)
    split; [|split; [exact Ha | exact Hp]].
    intros q Hq. unfold close_peer in Hq. destruct (Nat.eqb_spec q p) as [E|_]; [rewrite E; apply Nat.ltb_lt, Gnew | exact (Hf q Hq)].
  - (* End_closepeers: the peers closed are those of the list *)
    split; [|split; [intros q [] | exact Hp]].
    intros q Hq. destruct (in_dec Nat.eq_dec q (active s)) as [Hi|Hi]; [exact (Ha q Hi)|].
    rewrite close_all_notin in Hq by exact Hi. exact (Hf q Hq).
Qed.

(* what the invariant reads; the list may grow *)
Lemma inv_track_frame : forall s s', next_peer s' = next_peer s -> closedf s' = closedf s -> incl (active s) (active s') ->
  (forall p, col s = C_Caught p -> col s' = C_Caught p) -> inv_track s -> inv_track s'.
Proof.
  intros s s' E1 E2 E3 E4 Ht q Hq Hl. rewrite E1 in Hq. rewrite E2 in Hl.
  destruct (Ht q Hq Hl) as [Hi|Hc]; [left; exact (E3 q Hi) | right; exact (E4 q Hc)].
Qed.

Lemma inv_track_step : forall v s l s', inv_track s -> step v s l = Some s' -> inv_track s'.
Proof.
  intros v s l s' Ht H. destruct (step_Step _ _ _ _ H) as [_ St].
  destruct St;
    try (apply (inv_track_frame s);
         [ reflexivity
         | reflexivity
         | apply incl_refl
         | fields; first [ exact (fun q E => E) | intros q E; rewrite Gcol in E; discriminate E ]
         | exact Ht ]);
    unfold inv_track in *; fields; intros q Hq Hl.
  - (* Col_check at capacity: the purge keeps the open peers *)
    destruct (Ht q Hq Hl) as [Hi|Hc]; [|congruence].
    left. apply filter_In. split; [exact Hi|]. unfold live. rewrite Hl. reflexivity.
  - (* Col_check with room: the same *)
    destruct (Ht q Hq Hl) as [Hi|Hc]; [|congruence].
    left. apply filter_In. split; [exact Hi|]. unfold live. rewrite Hl. reflexivity.
  - (* Catch_ok: the new peer is in the collector's hand *)
    destruct (Nat.eq_dec q (next_peer s)) as [->|Hne]; [right; reflexivity|].
    destruct (Ht q ltac:(lia) Hl) as [Hi|Hc]; [left; exact Hi | congruence].
  - (* Col_push: from the hand into the list *)
    left. apply in_or_app. destruct (Ht q Hq Hl) as [Hi|Hc]; [left; exact Hi|].
    right. left. congruence.
  - (* Peer_closes *)
    unfold close_peer in Hl. destruct (Nat.eqb q p); [discriminate|]. exact (Ht q Hq Hl).
  - (* End_closepeers: the list is emptied, and every peer of it closed *)
    destruct (in_dec Nat.eq_dec q (active s)) as [Hi|Hi].
    + rewrite close_all_in in Hl by exact Hi. discriminate.
    + rewrite close_all_notin in Hl by exact Hi. destruct (Ht q Hq Hl) as [Hi'|Hc]; [contradiction | right; exact Hc].
Qed.

Lemma inv_bound_step : forall v s l s', inv_bound s -> step v s l = Some s' -> inv_bound s'.
Proof.
  intros v s l s' Hb H. unfold inv_bound in *.
  step_cases H; try assumption; try lia.
  - (* Col_check at capacity: the purge only shortens the list *) pose proof (filter_length_le (live s) (active s)). lia.
  - (* Col_check with room: the reservation fits *) apply Nat.leb_gt in Gcap. lia.
  - (* Col_push: the reservation is used *) rewrite app_length. simpl. lia.
Qed.

Lemma reachable_inv : forall (P : state -> Prop) v max,
  P (init max) -> (forall s l s', reachable v max s -> P s -> step v s l = Some s' -> P s') ->
  forall s, reachable v max s -> P s.
Proof. intros P v max H0 Hs s R. induction R; eauto. Qed.

Lemma reach_lock : forall v max s, reachable v max s -> inv_lock s.
Proof.
  intros v max. apply reachable_inv.
  - split; [split; discriminate|]. intros [|i]; split; discriminate.
  - intros. eapply inv_lock_step; eauto.
Qed.

Lemma reach_fresh : forall v max s, reachable v max s -> inv_fresh s.
Proof.
  intros v max. apply reachable_inv.
  - repeat split; cbn; intros; try discriminate; contradiction.
  - intros. eapply inv_fresh_step; eauto.
Qed.

Lemma reach_track : forall v max s, reachable v max s -> inv_track s.
Proof.
  intros v max. apply reachable_inv.
  - unfold inv_track; cbn; intros; lia.
  - intros. eapply inv_track_step; eauto.
Qed.

Lemma reach_cap : forall v max s, reachable v max s -> cap s = max.
Proof.
  intros v max. apply reachable_inv; [reflexivity|].
  intros s l s' _ IH H. step_cases H; first [assumption | congruence].
Qed.

Lemma reach_bound : forall v max s, reachable v max s -> inv_bound s.
Proof.
  intros v max. apply reachable_inv.
  - unfold inv_bound; cbn; lia.
  - intros. eapply inv_bound_step; eauto.
Qed.

(* every peer that is not closed is in the list or in the collector's hand (inv_track), and the list together with
   the collector's reservation fits the capacity (inv_bound) *)
Lemma live_peers_bound : forall v max s, reachable v max s -> length (live_peers s) <= max.
Proof.
  intros v max s R.
  pose proof (reach_track _ _ _ R) as Ht. pose proof (reach_bound _ _ _ R) as Hb.
  rewrite <- (reach_cap _ _ _ R). unfold inv_bound in Hb.
  assert (Hnd : NoDup (live_peers s)) by (apply NoDup_filter, seq_NoDup).
  assert (Hin : forall p, In p (live_peers s) -> In p (active s) \/ col s = C_Caught p).
  { intros p Hp. apply filter_In in Hp. destruct Hp as [Hs Hl]. apply in_seq in Hs.
    apply Ht; [lia|]. unfold live in Hl. destruct (closedf s p); [discriminate|reflexivity]. }
  destruct (col s) eqn:Ec; cbn in Hb;
    try (assert (Hle : length (live_peers s) <= length (active s))
           by (apply NoDup_incl_length; [assumption|]; intros q Hq; destruct (Hin q Hq); [assumption|discriminate]); lia).
  assert (Hle : length (live_peers s) <= length (p :: active s)).
  { apply NoDup_incl_length; [assumption|]. intros q Hq. destruct (Hin q Hq) as [|E]; [right; assumption|].
    inversion E. left. reflexivity. }
  simpl in Hle. lia.
Qed.

Lemma active_bound : forall v max s, reachable v max s -> length (active s) <= max.
Proof.
  intros v max s R. pose proof (reach_bound _ _ _ R) as Hb. rewrite <- (reach_cap _ _ _ R).
  unfold inv_bound in Hb. lia.
Qed.

Definition past_melt (e : end_pc) : bool :=
  match e with E_Melted | E_Locked | E_ChanClosed | E_Unlock | E_Finish => true | _ => false end.
Definition past_chan (e : end_pc) : bool :=
  match e with E_ChanClosed | E_Unlock | E_Finish | E_Done => true | _ => false end.
Definition past_close (e : end_pc) : bool :=
  match e with E_Unlock | E_Finish | E_Done => true | _ => false end.

Definition all_closed (s : state) : Prop := forall p, p < next_peer s -> closedf s p = true.

(* an End caller at e has left its marks on the shared state *)
Definition end_did (s : state) (e : end_pc) : Prop :=
  (past_melt e = true -> melted s = true) /\ (past_chan e = true -> chan_closed s = true) /\
  (past_close e = true -> all_closed s).

Definition inv_end (s : state) : Prop :=
  (chan_closed s = true -> melted s = true /\ col_hasconn (col s) = false) /\
  (forall i e, nth_error (ends s) i = Some e -> end_did s e) /\
  (once s = O_Done -> chan_closed s = true /\ all_closed s).

Lemma hasconn_crit : forall c, col_hasconn c = true -> col_crit c = true.
Proof. destruct c; simpl; auto. Qed.
Lemma close_peer_mono : forall f p q, f q = true -> close_peer f p q = true.
Proof. intros. unfold close_peer. destruct (Nat.eqb q p); auto. Qed.

(* the marks are never taken back: melt and the channel stay closed, closed peers stay closed *)
Lemma end_did_mono : forall s s' e, (melted s = true -> melted s' = true) -> (chan_closed s = true -> chan_closed s' = true) ->
  (all_closed s -> all_closed s') -> end_did s e -> end_did s' e.
Proof. intros s s' e H1 H2 H3 (A & B & C). repeat split; auto. Qed.

(* what the invariant reads; peers may close and the collector may drop its connection attempt *)
Lemma inv_end_frame : forall s s', chan_closed s' = chan_closed s -> melted s' = melted s -> ends s' = ends s ->
  once s' = once s -> next_peer s' = next_peer s -> (forall p, closedf s p = true -> closedf s' p = true) ->
  (col_hasconn (col s') = true -> col_hasconn (col s) = true) -> inv_end s -> inv_end s'.
Proof.
  intros s s' E1 E2 E3 E4 E5 Hcl Hcol (A & B & C).
  assert (Hall : all_closed s -> all_closed s') by (intros Ha p Hp; apply Hcl, Ha; rewrite <- E5; exact Hp).
  unfold inv_end. rewrite E1, E2, E3, E4. split; [|split].
  - intros Hc. destruct (A Hc) as [Hm Hh]. split; [exact Hm|]. destruct (col_hasconn (col s')); [rewrite Hcol in Hh by reflexivity; discriminate|reflexivity].
  - intros i e Hi. apply (end_did_mono s); [rewrite E2| rewrite E1| |apply (B i e Hi)]; auto.
  - intros Ho. destruct (C Ho). auto.
Qed.

Lemma end_did_start : forall v s, end_did s (match v with V0 => E_Run | V1 => E_Start end).
Proof. intros v s. destruct v; repeat split; discriminate. Qed.

(* caller i moves to e' and nothing else the invariant reads changes *)
Lemma inv_end_move : forall s s0 i e', inv_end s -> end_did s e' ->
  ends s0 = ends s -> chan_closed s0 = chan_closed s -> melted s0 = melted s -> col s0 = col s ->
  closedf s0 = closedf s -> next_peer s0 = next_peer s -> once s0 = once s -> inv_end (set_end s0 i e').
Proof.
  intros s s0 i e' (A & B & C) He' E1 E2 E3 E4 E5 E6 E7. unfold inv_end, end_did, all_closed. fields.
  rewrite E1, E2, E3, E4, E5, E6, E7. split; [exact A|]. split; [|exact C].
  apply set_nth_forall; [exact He' | intros j e _; apply B].
Qed.

Lemma inv_end_step : forall v s l s', inv_lock s -> inv_track s -> inv_end s -> step v s l = Some s' -> inv_end s'.
Proof.
  intros v s l s' L Ht I H. destruct (step_Step _ _ _ _ H) as [_ St].
  destruct St;
    try (apply (inv_end_frame s);
         [reflexivity .. | fields; auto using close_peer_mono
          | fields; rewrite ?Gcol; first [discriminate | intros _; reflexivity | exact (fun x => x)] | exact I]);
    pose proof I as (A & B & C).
  - (* Col_check with room: melt is open, so the channel is *)
    unfold inv_end; fields. split; [intros Hc; destruct (A Hc) as [Hm _]; congruence|]. split; [exact B | exact C].
  - (* Catch_ok: a rendezvous was in flight, so the channel is open and nobody is past it *)
    unfold inv_end; fields. assert (Hc : chan_closed s = false).
    { destruct (chan_closed s); [destruct (A eq_refl) as [_ Hh]; rewrite Gcol in Hh; discriminate | reflexivity]. }
    split; [intros; congruence|]. split.
    + intros i e Hi. destruct (B i e Hi) as (B1 & B2 & B3). repeat split; auto.
      intros Hp. destruct e; try discriminate; specialize (B2 eq_refl); congruence.
    + intros Ho. destruct (C Ho). congruence.
  - unfold inv_end; fields. split; [exact A|]. split; [|exact C]. apply snoc_forall; [apply end_did_start | exact B].
  - unfold inv_end; fields. split; [exact A|]. split; [|rewrite Gonce in C; discriminate].
    apply set_nth_forall; [repeat split; discriminate | intros j e _; apply B].
  - apply (inv_end_move s); try reflexivity; [split; auto|]. repeat split; discriminate.
  - apply (inv_end_move s); try reflexivity; [split; auto|]. destruct (C Gonce). repeat split; auto; discriminate.
  - apply (inv_end_move s); try reflexivity; [split; auto|]. destruct (C Gonce). repeat split; auto; discriminate.
  - unfold inv_end; fields. split; [intros Hc; destruct (A Hc); auto|]. split; [|exact C].
    apply set_nth_forall; [repeat split; auto; discriminate|].
    intros j e _ Hj. apply (end_did_mono s); auto. exact (B j e Hj).
  - apply (inv_end_move s); try reflexivity; [split; auto|].
    destruct (B _ _ Gend) as (B1 & _). repeat split; auto; discriminate.
  - (* End_closechan: this End holds the lock, so the collector is not inside Collect *)
    unfold inv_end; fields. destruct (B _ _ Gend) as (B1 & _). split; [|split].
    + intros _. split; [auto|]. destruct (col_hasconn (col s)) eqn:Eh; [|reflexivity].
      pose proof (lock_col _ L (hasconn_crit _ Eh)). pose proof (lock_end _ _ _ L Gend eq_refl). congruence.
    + apply set_nth_forall; [repeat split; auto; discriminate|].
      intros j e _ Hj. apply (end_did_mono s); auto. exact (B j e Hj).
    + intros Ho. destruct (C Ho). auto.
  - (* End_closepeers: every open peer is in the list, the collector (not holding the lock) has none in hand *)
    unfold inv_end; fields. assert (Hall : forall p, p < next_peer s -> close_all (closedf s) (active s) p = true).
    { intros q Hq. destruct (closedf s q) eqn:Ecl; [apply close_all_mono; assumption|].
      destruct (Ht q Hq Ecl) as [Hi|Hcol]; [apply close_all_in; assumption|].
      assert (L1 : lock s = Some T_Col) by (apply (lock_col _ L); rewrite Hcol; reflexivity).
      pose proof (lock_end _ _ _ L Gend eq_refl). congruence. }
    destruct (B _ _ Gend) as (B1 & B2 & _). split; [exact A|]. split; [|intros Ho; destruct (C Ho); auto].
    apply set_nth_forall; [repeat split; auto|].
    intros j e _ Hj. apply (end_did_mono s); auto. exact (B j e Hj).
  - apply (inv_end_move s); try reflexivity; [split; auto|].
    destruct (B _ _ Gend) as (B1 & B2 & B3). destruct v; repeat split; auto.
  - unfold inv_end; fields. destruct (B _ _ Gend) as (B1 & B2 & B3). split; [exact A|]. split; [|auto].
    apply set_nth_forall; [repeat split; auto; discriminate | intros j e _; apply B].
Qed.

Lemma reach_end : forall v max s, reachable v max s -> inv_end s.
Proof.
  intros v max s R. induction R.
  - split; [discriminate|]. split; [intros [|i] e [=] | discriminate].
  - eapply inv_end_step; eauto using reach_lock, reach_track.
Qed.

Definition runner_pc (e : end_pc) : bool :=
  match e with E_Run | E_Melted | E_Locked | E_ChanClosed | E_Unlock | E_Finish => true | _ => false end.
Definition chan_witness (e : end_pc) : bool :=
  match e with E_ChanClosed | E_Unlock | E_Finish => true | _ => false end.

(* what the program counter of one End caller says about the Once and about melt *)
Definition once_at (s : state) (e : end_pc) : Prop :=
  (runner_pc e = true -> once s = O_Running) /\ (e = E_Run -> melted s = false) /\
  (e = E_Done -> once s = O_Done) /\ (e = E_Wait -> once s <> O_Free).

(* the Once runs in at most one caller, in one exactly while it is marked running; whoever closed the channel is that
   caller, until the Once is done *)
Definition once_flags (s : state) : Prop :=
  (forall i j, pc_at runner_pc (ends s) i = true -> pc_at runner_pc (ends s) j = true -> i = j) /\
  (once s = O_Running -> exists i, pc_at runner_pc (ends s) i = true) /\
  (chan_closed s = true -> once s = O_Done \/ exists i, pc_at chan_witness (ends s) i = true).

Definition inv_once (s : state) : Prop :=
  once_flags s /\ (forall i e, nth_error (ends s) i = Some e -> once_at s e) /\ (once s = O_Free -> melted s = false).

Lemma inv_once_frame : forall s s',
  ends s' = ends s -> once s' = once s -> melted s' = melted s -> chan_closed s' = chan_closed s ->
  inv_once s -> inv_once s'.
Proof. intros s s' H1 H2 H3 H4 H. unfold inv_once, once_flags, once_at in *. rewrite H1, H2, H3, H4. exact H. Qed.

(* a caller moves between two program counters with the same flags (or a caller without flags arrives) *)
Lemma once_flags_same : forall s s', once s' = once s -> chan_closed s' = chan_closed s ->
  (forall f, f = runner_pc \/ f = chan_witness -> forall j, pc_at f (ends s') j = pc_at f (ends s) j) ->
  once_flags s -> once_flags s'.
Proof.
  intros s s' E1 E2 Hf. unfold once_flags. rewrite E1, E2.
  assert (Hr := Hf runner_pc (or_introl eq_refl)). assert (Hw := Hf chan_witness (or_intror eq_refl)).
  intros (U & R & W). split; [|split].
  - intros i j. rewrite !Hr. apply U.
  - intros Ho. destruct (R Ho) as [i Hi]. exists i. rewrite Hr. exact Hi.
  - intros Hc. destruct (W Hc) as [|[i Hi]]; [auto|]. right. exists i. rewrite Hw. exact Hi.
Qed.

Lemma once_flags_move : forall s s0 i e e', nth_error (ends s) i = Some e ->
  runner_pc e' = runner_pc e -> chan_witness e' = chan_witness e ->
  ends s0 = ends s -> once s0 = once s -> chan_closed s0 = chan_closed s -> once_flags s -> once_flags (set_end s0 i e').
Proof.
  intros s s0 i e e' Hi Hr Hw E1 E2 E3. apply once_flags_same; [exact E2 | exact E3|].
  intros f [->| ->] j; fields; rewrite E1; apply (pc_at_set_same _ _ _ _ _ Hi); assumption.
Qed.

Lemma witness_runner : forall e, chan_witness e = true -> runner_pc e = true.
Proof. destruct e; auto. Qed.

Lemma runner_unique : forall s i j ei ej, inv_once s -> nth_error (ends s) i = Some ei -> nth_error (ends s) j = Some ej ->
  runner_pc ei = true -> runner_pc ej = true -> i = j.
Proof. intros s i j ei ej ((U & _) & _) Hi Hj Ri Rj. apply U; [rewrite (pc_at_nth _ _ _ _ Hi) | rewrite (pc_at_nth _ _ _ _ Hj)]; assumption. Qed.

(* the channel is closed and the Once still runs in caller i: it is i that closed it *)
Lemma closed_by_runner : forall s i e, inv_once s -> chan_closed s = true -> nth_error (ends s) i = Some e ->
  runner_pc e = true -> chan_witness e = true.
Proof.
  intros s i e I Hc Hi Hr. pose proof I as ((_ & _ & W) & E & _).
  destruct (W Hc) as [Hd|[j Hj]].
  - rewrite (proj1 (E i e Hi) Hr) in Hd. discriminate.
  - destruct (pc_at_true _ _ _ Hj) as (ej & Hej & Hw).
    pose proof (runner_unique s i j e ej I Hi Hej Hr (witness_runner _ Hw)) as <-. rewrite Hej in Hi. injection Hi as <-. exact Hw.
Qed.

(* caller i moves between two program counters with the same flags, the shared fields stay *)
Lemma inv_once_move : forall s s0 i e e', inv_once s -> nth_error (ends s) i = Some e ->
  runner_pc e' = runner_pc e -> chan_witness e' = chan_witness e -> once_at s e' ->
  ends s0 = ends s -> once s0 = once s -> melted s0 = melted s -> chan_closed s0 = chan_closed s ->
  inv_once (set_end s0 i e').
Proof.
  intros s s0 i e e' (Fl & E & F) Hi Hr Hw He' E1 E2 E3 E4. split; [|split].
  - apply (once_flags_move s _ _ _ _ Hi); auto.
  - unfold once_at. fields. rewrite E1, E2, E3. apply set_nth_forall; [exact He' | intros j x _; apply E].
  - fields. rewrite E2, E3. exact F.
Qed.

Lemma inv_once_step : forall s l s', inv_once s -> step V1 s l = Some s' -> inv_once s'.
Proof.
  intros s l s' I H. destruct (step_Step _ _ _ _ H) as [_ St].
  destruct St; try (apply (inv_once_frame s); [reflexivity..|exact I]);
    pose proof I as (Fl & E & F); pose proof Fl as (U & R & W).
  - unfold inv_once; fields. split; [|split; [|exact F]].
    + apply (once_flags_same s); [reflexivity | reflexivity | | exact Fl]. intros f [->| ->]; apply pc_at_snoc; reflexivity.
    + apply snoc_forall; [|exact E]. repeat split; discriminate.
  - (* End_once, Once free: nobody is running; this caller becomes the runner *)
    assert (N : forall j, pc_at runner_pc (ends s) j = false).
    { intros j. destruct (pc_at runner_pc (ends s) j) eqn:Ej; [|reflexivity].
      destruct (pc_at_true _ _ _ Ej) as (e & He & Hr). rewrite (proj1 (E j e He) Hr) in Gonce. discriminate. }
    assert (N' : forall j, j <> i -> pc_at runner_pc (set_nth i E_Run (ends s)) j = false) by (intros; rewrite pc_at_set_neq; auto).
    unfold inv_once, once_flags; fields. split; [split; [|split]|split].
    + intros a b Ha Hb. destruct (Nat.eq_dec a i), (Nat.eq_dec b i); try congruence;
        [rewrite N' in Hb | rewrite N' in Ha | rewrite N' in Ha]; auto; discriminate.
    + intros _. exists i. apply (pc_at_set_eq runner_pc _ _ E_Run _ Gend).
    + intros Hc. destruct (W Hc) as [Hd|[j Hj]]; [congruence|].
      destruct (pc_at_true _ _ _ Hj) as (e & He & Hw). pose proof (pc_at_nth runner_pc _ _ _ He) as Hr. rewrite N in Hr.
      destruct e; discriminate.
    + apply set_nth_forall; [repeat split; auto; discriminate|]. intros j e _ Hj. destruct (E j e Hj) as (E1 & E2 & E3 & E4).
      repeat split; auto; intros Hx; [apply E3 in Hx; congruence | discriminate].
    + discriminate.
  - apply (inv_once_move s s _ _ _ I Gend); try reflexivity. repeat split; intros; congruence.
  - apply (inv_once_move s s _ _ _ I Gend); try reflexivity. repeat split; auto; discriminate.
  - apply (inv_once_move s s _ _ _ I Gend); try reflexivity. repeat split; auto; discriminate.
  - (* End_melt: the only caller at E_Run is this one *)
    pose proof (proj1 (E _ _ Gend) eq_refl) as Ho. unfold inv_once; fields. split; [|split; [|congruence]].
    + apply (once_flags_move s _ _ _ _ Gend); auto.
    + apply set_nth_forall; [repeat split; auto; discriminate|]. intros j e Hne Hj. destruct (E j e Hj) as (E1 & E2 & E3 & E4).
      repeat split; auto. intros ->. contradiction Hne. exact (runner_unique s j i _ _ I Hj Gend eq_refl eq_refl).
  - pose proof (proj1 (E _ _ Gend) eq_refl) as Ho.
    apply (inv_once_move s _ _ _ _ I Gend); try reflexivity. repeat split; auto; discriminate.
  - (* End_closechan: this caller is the witness *)
    pose proof (proj1 (E _ _ Gend) eq_refl) as Ho. unfold inv_once, once_flags; fields. split; [split; [|split]|split; [|exact F]].
    + intros a b. rewrite !(pc_at_set_same runner_pc _ _ E_ChanClosed _ Gend eq_refl). apply U.
    + intros _. exists i. apply (pc_at_set_eq runner_pc _ _ E_ChanClosed _ Gend).
    + intros _. right. exists i. apply (pc_at_set_eq chan_witness _ _ E_ChanClosed _ Gend).
    + apply set_nth_forall; [repeat split; auto; discriminate | intros j e _; apply E].
  - pose proof (proj1 (E _ _ Gend) eq_refl) as Ho.
    apply (inv_once_move s _ _ _ _ I Gend); try reflexivity. repeat split; auto; discriminate.
  - pose proof (proj1 (E _ _ Gend) eq_refl) as Ho.
    apply (inv_once_move s _ _ _ _ I Gend); try reflexivity. repeat split; auto; discriminate.
  - (* End_finish: the runner is done, and there was no other *)
    assert (N : forall j, j <> i -> pc_at runner_pc (ends s) j = false).
    { intros j Hne. destruct (pc_at runner_pc (ends s) j) eqn:Ej; [|reflexivity]. contradiction Hne.
      apply U; [exact Ej | rewrite (pc_at_nth _ _ _ _ Gend); reflexivity]. }
    unfold inv_once, once_flags; fields. split; [split; [|split]|split; [|discriminate]].
    + intros a b Ha Hb. destruct (Nat.eq_dec a i) as [->|Ha']; [rewrite (pc_at_set_eq _ _ _ _ _ Gend) in Ha; discriminate|].
      rewrite pc_at_set_neq, N in Ha by exact Ha'. discriminate.
    + discriminate.
    + auto.
    + apply set_nth_forall; [repeat split; auto; discriminate|]. intros j e Hne Hj. destruct (E j e Hj) as (E1 & E2 & E3 & E4).
      repeat split; auto; try discriminate. intros Hr. rewrite <- (pc_at_nth runner_pc _ _ _ Hj), (N j Hne) in Hr. discriminate Hr.
Qed.

Lemma reach_once : forall max s, reachable V1 max s -> inv_once s.
Proof.
  intros max s R. induction R; [|eapply inv_once_step; eauto].
  split; [split; [|split]; try discriminate; intros [|i] j [=] | split; [intros [|i] e [=] | reflexivity]].
Qed.

Lemma v1_no_panic : forall max s, reachable V1 max s -> panicked s = false.
Proof.
  intros max s R. induction R; [reflexivity|].
  pose proof (reach_end _ _ _ R) as (A & _). pose proof (reach_once _ _ R) as I. pose proof I as (_ & E & _).
  destruct (step_Step _ _ _ _ H) as [_ St]. destruct St; try assumption; exfalso.
  - (* send on closed channel *) destruct (A Gclosed) as [_ Hh]. rewrite Gcol in Hh. discriminate.
  - (* close(melt) twice *) rewrite (proj1 (proj2 (E _ _ Gend)) eq_refl) in Gmelt. discriminate.
  - (* close(snowflakeChan) twice *) discriminate (closed_by_runner s i _ I Gclosed Gend eq_refl).
Qed.

Lemma all_closed_no_live : forall s, all_closed s -> live_peers s = [].
Proof.
  intros s H. unfold live_peers.
  assert (forall l, (forall p, In p l -> p < next_peer s) -> filter (live s) l = []) as G.
  { induction l as [|a l IH]; intros Hl; simpl; [reflexivity|].
    unfold live at 1. rewrite (H a) by (apply Hl; left; reflexivity). simpl.
    apply IH. intros q Hq. apply Hl. right. assumption. }
  apply G. intros p Hp. apply in_seq in Hp. lia.
Qed.

Lemma end_done_facts : forall v max s i, reachable v max s -> nth_error (ends s) i = Some E_Done ->
  all_closed s /\ live_peers s = [] /\ melted s = true /\ chan_closed s = true /\ col_hasconn (col s) = false.
Proof.
  intros v max s i R Hd. pose proof (reach_end _ _ _ R) as (A & B & _).
  destruct (B _ _ Hd) as (_ & Hc & Ha). specialize (Hc eq_refl). specialize (Ha eq_refl). destruct (A Hc).
  auto using all_closed_no_live.
Qed.

Definition pop_fresh (n : nat) (pc : pop_pc) : Prop := match pc with P_Got p => p < n | _ => True end.
Definition inv_chanfresh (s : state) : Prop :=
  (forall p, In p (chan s) -> p < next_peer s) /\
  (forall i pc, nth_error (pops s) i = Some pc -> pop_fresh (next_peer s) pc).

Lemma inv_chanfresh_frame : forall s s', chan s' = chan s -> pops s' = pops s -> next_peer s <= next_peer s' ->
  inv_chanfresh s -> inv_chanfresh s'.
Proof.
  intros s s' E1 E2 E3 [Hc Hg]. unfold inv_chanfresh. rewrite E1, E2.
  split; [intros p Hp; specialize (Hc p Hp) | intros i [|p|] Hp; specialize (Hg i _ Hp); cbn in *]; auto; lia.
Qed.

Lemma inv_chanfresh_step : forall v s l s', inv_fresh s -> inv_chanfresh s -> step v s l = Some s' -> inv_chanfresh s'.
Proof.
  intros v s l s' (_ & _ & Fp) I H. destruct (step_Step _ _ _ _ H) as [_ St].
  destruct St; try (apply (inv_chanfresh_frame s); [reflexivity | reflexivity | fields; lia | exact I]);
    destruct I as [Hc Hg]; unfold inv_chanfresh; fields; (split; [try exact Hc | try exact Hg]).
  - (* Col_send: the peer in the collector's hand *)
    intros q Hq. apply in_app_or in Hq as [Hq|[<-|[]]]; [auto | apply Fp; rewrite Gcol; reflexivity].
  - apply snoc_forall; [exact Logic.I | exact Hg].
  - apply set_nth_forall; [exact Logic.I | intros j e _; apply Hg].
  - rewrite Gchan in Hc. intros q Hq. apply Hc. right. exact Hq.
  - apply set_nth_forall; [apply Hc; rewrite Gchan; left; reflexivity | intros j e _; apply Hg].
  - apply set_nth_forall; [exact Logic.I | intros j e _; apply Hg].
  - apply set_nth_forall; [exact Logic.I | intros j e _; apply Hg].
Qed.

Lemma reach_chanfresh : forall v max s, reachable v max s -> inv_chanfresh s.
Proof.
  intros v max s R. induction R.
  - split; [intros p [] | intros [|i] pc [=]].
  - eapply inv_chanfresh_step; eauto using reach_fresh.
Qed.

Lemma pop_returns_checked : forall v s i s' p, step v s (Pop_check i) = Some s' ->
  nth_error (pops s') i = Some (P_Ret (Some p)) ->
  nth_error (pops s) i = Some (P_Got p) /\ closedf s p = false.
Proof.
  intros v s i s' p H Hr. destruct (step_Step _ _ _ _ H) as [_ St].
  inversion St; subst; cbn in Hr; rewrite (nth_error_set_nth_eq _ _ _ _ _ Gpop) in Hr; [discriminate|].
  injection Hr as <-. auto.
Qed.

Lemma pop_ret_only_by_check : forall v s l s' i p, step v s l = Some s' ->
  nth_error (pops s') i = Some (P_Ret (Some p)) -> nth_error (pops s) i <> Some (P_Ret (Some p)) ->
  l = Pop_check i.
Proof.
  intros v s l s' i p H Hr Hn. destruct (step_Step _ _ _ _ H) as [_ St].
  destruct St; cbn in Hr; try contradiction;
    try (apply nth_error_set_nth_inv in Hr as [[-> E]|Hr]; [first [discriminate E | reflexivity] | contradiction]).
  apply nth_error_snoc in Hr as [Hr|[_ [=]]]. contradiction.
Qed.

Lemma Step_step : forall v s l s', panicked s = false -> Step v s l s' -> step v s l = Some s'.
Proof.
  intros v s l s' Hp St. destruct St; unfold step; rewrite Hp;
    repeat match goal with E : _ = _ |- _ => rewrite E; clear E end; reflexivity.
Qed.

Lemma end_pc_eq_dec : forall a b : end_pc, {a = b} + {a <> b}.
Proof. decide equality. Qed.

Definition erank (e : end_pc) : nat :=
  match e with E_Run => 6 | E_Melted => 5 | E_Locked => 4 | E_ChanClosed => 3 | E_Unlock => 2 | E_Finish => 1 | _ => 0 end.
Fixpoint esum (l : list end_pc) : nat := match l with [] => 0 | e :: t => erank e + esum t end.
Definition col_rank (c : col_pc) : nat :=
  match c with C_Locked => 5 | C_Catching => 4 | C_Caught _ => 3 | C_Sending _ => 2 | C_Unlock _ => 1 | _ => 0 end.
Definition own_rank (e : option end_pc) : nat :=
  match e with Some E_Start => 2 | Some E_Wait => 1 | _ => 0 end.
Definition once_rank (o : once_st) : nat := match o with O_Free => 8 | _ => 0 end.

(* steps of End callers and of the collector that is inside Collect; no new call of any kind *)
Definition helpful (l : label) : bool :=
  match l with
  | End_once _ | End_wait _ | End_melt _ | End_lock _ | End_closechan _ | End_closepeers _ | End_unlock _ | End_finish _
  | Col_check | Catch_ok | Catch_err | Col_push | Col_send | Col_abort | Col_unlock => true
  | _ => false
  end.

Definition end_rank (s : state) (i : nat) : nat :=
  own_rank (nth_error (ends s) i) + esum (ends s) + col_rank (col s) + once_rank (once s).

Lemma esum_set_nth : forall l i eo en, nth_error l i = Some eo ->
  esum (set_nth i en l) + erank eo = esum l + erank en.
Proof.
  induction l as [|h t IH]; intros i eo en H; destruct i; simpl in *; try discriminate.
  - inversion H; subst. lia.
  - specialize (IH _ _ en H). lia.
Qed.

Lemma esum_zero : forall l, (forall j, pc_at runner_pc l j = false) -> esum l = 0.
Proof.
  induction l as [|h t IH]; intros H; simpl; [reflexivity|].
  rewrite IH by (intros j; apply (H (S j))). specialize (H 0). destruct h; try discriminate; reflexivity.
Qed.

Definition oracle_ok (ok : bool) (l : label) : Prop :=
  match l with Catch_ok => ok = true | Catch_err => ok = false | _ => True end.

(* what observer j sees of a helpful step *)
Definition advances (ok : bool) (s : state) (j : nat) : Prop :=
  exists l s', step V1 s l = Some s' /\ helpful l = true /\ oracle_ok ok l /\
    end_rank s' j < end_rank s j /\ exists e', nth_error (ends s') j = Some e'.

(* End caller i moves from e to e' *)
Lemma end_moves : forall (ok : bool) s s0 i e e' l j x, panicked s = false -> Step V1 s l (set_end s0 i e') ->
  nth_error (ends s) i = Some e -> nth_error (ends s) j = Some x ->
  ends s0 = ends s -> col s0 = col s -> helpful l = true -> oracle_ok ok l ->
  erank e' + (if j =? i then own_rank (Some e') else 0) + once_rank (once s0)
    < erank e + (if j =? i then own_rank (Some e) else 0) + once_rank (once s) -> advances ok s j.
Proof.
  intros ok s s0 i e e' l j x Hp St Hi Hj E1 E2 Hh Ho Hlt. exists l, (set_end s0 i e').
  split; [exact (Step_step _ _ _ _ Hp St)|]. split; [exact Hh|]. split; [exact Ho|].
  unfold end_rank. fields. rewrite E1, E2. split.
  - pose proof (esum_set_nth _ _ _ e' Hi). rewrite nth_error_set_nth. destruct (j =? i) eqn:Ej.
    + apply Nat.eqb_eq in Ej. subst j. rewrite Hi in *. lia.
    + lia.
  - destruct (set_nth_exists _ (fun _ => True) (ends s) i e' j x Hj) as (x' & Hx & _); eauto.
Qed.

(* the collector moves on inside Collect *)
Lemma col_moves : forall (ok : bool) s s' l j x, panicked s = false -> Step V1 s l s' -> nth_error (ends s) j = Some x ->
  ends s' = ends s -> once s' = once s -> helpful l = true -> oracle_ok ok l ->
  col_rank (col s') < col_rank (col s) -> advances ok s j.
Proof.
  intros ok s s' l j x Hp St Hj E1 E2 Hh Ho Hlt. exists l, s'.
  split; [exact (Step_step _ _ _ _ Hp St)|]. unfold end_rank. rewrite E1, E2, Hj. repeat split; eauto. lia.
Qed.

(* the runner of the Once (or the collector holding the lock it needs) can always take a step *)
Lemma runner_progress : forall max s r er j x (ok : bool), reachable V1 max s ->
  nth_error (ends s) r = Some er -> runner_pc er = true -> nth_error (ends s) j = Some x -> advances ok s j.
Proof.
  intros max s r er j x ok R Hr Hrun Hj.
  pose proof (v1_no_panic _ _ R) as Hp. pose proof (reach_lock _ _ _ R) as L.
  pose proof (reach_end _ _ _ R) as (_ & B & _). pose proof (reach_once _ _ R) as I. pose proof I as (_ & E & _).
  destruct er; try discriminate.
  - pose proof (proj1 (proj2 (E _ _ Hr)) eq_refl) as Hm.
    apply (end_moves ok s _ r _ _ _ j x Hp (S_melt V1 s r Hr Hm) Hr Hj); try reflexivity; try exact Logic.I. cbn. destruct (j =? r); lia.
  - (* E_Melted: needs the lock *)
    destruct (lock s) as [[|k]|] eqn:El.
    + (* held by the collector, which can move: melt is closed *)
      assert (Hm : melted s = true) by (apply (B _ _ Hr); reflexivity).
      pose proof (proj2 (proj1 L) El) as Hc.
      destruct (col s) as [| | |p|p|c|c] eqn:Ec; try discriminate.
      * apply (col_moves ok s _ Col_check j x Hp (S_check_melted V1 s Ec Hm) Hj); try reflexivity; try exact Logic.I. fields. rewrite Ec. cbn. lia.
      * destruct ok.
        -- apply (col_moves true s _ Catch_ok j x Hp (S_catch_ok V1 s Ec) Hj); try reflexivity; try exact Logic.I. fields. rewrite Ec. cbn. lia.
        -- apply (col_moves false s _ Catch_err j x Hp (S_catch_err V1 s Ec) Hj); try reflexivity; try exact Logic.I. fields. rewrite Ec. cbn. lia.
      * apply (col_moves ok s _ Col_push j x Hp (S_push V1 s p Ec) Hj); try reflexivity; try exact Logic.I. fields. rewrite Ec. cbn. lia.
      * apply (col_moves ok s _ Col_abort j x Hp (S_abort V1 s p eq_refl Ec Hm) Hj); try reflexivity; try exact Logic.I. fields. rewrite Ec. cbn. lia.
      * apply (col_moves ok s _ Col_unlock j x Hp (S_col_unlock V1 s c Ec) Hj); try reflexivity; try exact Logic.I. fields. rewrite Ec. cbn. lia.
    + (* another End inside its critical section would be a second runner *)
      destruct (lock_end_inv _ _ L El) as (e & Hk & Hcr).
      assert (k = r) by (apply (runner_unique s k r e E_Melted I Hk Hr); [destruct e; discriminate || reflexivity | reflexivity]).
      subst k. rewrite Hr in Hk. injection Hk as <-. discriminate.
    + apply (end_moves ok s _ r _ _ _ j x Hp (S_end_lock V1 s r Hr El) Hr Hj); try reflexivity; try exact Logic.I. cbn. destruct (j =? r); lia.
  - (* E_Locked: the channel is still open, or this caller would be past closing it *)
    destruct (chan_closed s) eqn:Hc; [discriminate (closed_by_runner s r _ I Hc Hr eq_refl)|].
    apply (end_moves ok s _ r _ _ _ j x Hp (S_closechan V1 s r Hr Hc) Hr Hj); try reflexivity; try exact Logic.I. cbn. destruct (j =? r); lia.
  - apply (end_moves ok s _ r _ _ _ j x Hp (S_closepeers V1 s r Hr) Hr Hj); try reflexivity; try exact Logic.I. cbn. destruct (j =? r); lia.
  - apply (end_moves ok s _ r _ _ _ j x Hp (S_end_unlock V1 s r Hr) Hr Hj); try reflexivity; try exact Logic.I. cbn. destruct (j =? r); lia.
  - apply (end_moves ok s _ r _ _ _ j x Hp (S_finish V1 s r Hr) Hr Hj); try reflexivity; try exact Logic.I. cbn. destruct (j =? r); lia.
Qed.

Lemma end_progress : forall max s i e (ok : bool), reachable V1 max s ->
  nth_error (ends s) i = Some e -> e <> E_Done ->
  exists l s', step V1 s l = Some s' /\ helpful l = true /\ oracle_ok ok l /\
    end_rank s' i < end_rank s i /\ exists e', nth_error (ends s') i = Some e'.
Proof.
  intros max s i e ok R Hi Hnd. change (advances ok s i).
  pose proof (v1_no_panic _ _ R) as Hp. pose proof (reach_once _ _ R) as ((_ & Rn & _) & E & _).
  destruct (runner_pc e) eqn:Hrun; [exact (runner_progress _ _ _ _ _ _ ok R Hi Hrun Hi)|].
  destruct e; try discriminate; try congruence; destruct (once s) eqn:Eo.
  - apply (end_moves ok s _ i _ _ _ i _ Hp (S_once_free V1 s i Hi Eo) Hi Hi); try reflexivity; try exact Logic.I. fields. rewrite Nat.eqb_refl, ?Eo. cbn. lia.
  - apply (end_moves ok s _ i _ _ _ i _ Hp (S_once_running V1 s i Hi Eo) Hi Hi); try reflexivity; try exact Logic.I. fields. rewrite Nat.eqb_refl, ?Eo. cbn. lia.
  - apply (end_moves ok s _ i _ _ _ i _ Hp (S_once_done V1 s i Hi Eo) Hi Hi); try reflexivity; try exact Logic.I. fields. rewrite Nat.eqb_refl, ?Eo. cbn. lia.
  - destruct (proj2 (proj2 (proj2 (E _ _ Hi))) eq_refl Eo).
  - destruct (Rn eq_refl) as [r Hr]. destruct (pc_at_true _ _ _ Hr) as (er & Her & Hrr).
    exact (runner_progress _ _ _ _ _ _ ok R Her Hrr Hi).
  - apply (end_moves ok s _ i _ _ _ i _ Hp (S_wait V1 s i Hi Eo) Hi Hi); try reflexivity; try exact Logic.I. fields. rewrite Nat.eqb_refl, ?Eo. cbn. lia.
Qed.

(* From every reachable state of the repaired code, a pending End call completes within
   end_rank helpful steps (its own, the Once runner's, and those of the collector inside
   Collect, whose in-flight Catch may return either way). *)
Lemma end_terminates : forall n max s i e (oracle : bool), reachable V1 max s ->
  nth_error (ends s) i = Some e -> end_rank s i <= n ->
  exists tr s', length tr <= end_rank s i /\ forallb helpful tr = true /\ Forall (oracle_ok oracle) tr /\
    run V1 s tr = Some s' /\ nth_error (ends s') i = Some E_Done.
Proof.
  induction n as [|n IH]; intros max s i e oracle R Hi Hle;
    (destruct (end_pc_eq_dec e E_Done) as [->|Hne]; [exists [], s; repeat split; simpl; auto; lia|]);
    destruct (end_progress _ _ _ _ oracle R Hi Hne) as (l & s1 & Hs & Hh & Ho & Hdec & e1 & Hi1); [lia|].
  destruct (IH max s1 i e1 oracle (reach_step _ _ _ _ _ R Hs) Hi1 ltac:(lia)) as (tr & s2 & Hlen & Hhelp & Hor & Hrun & Hd).
  exists (l :: tr), s2. simpl. rewrite Hh, Hs. repeat split; auto. lia.
Qed.

(* at most one caller has a rank, and none has while the Once is not running *)
Lemma esum_unique_bound : forall l,
  (forall i j, pc_at runner_pc l i = true -> pc_at runner_pc l j = true -> i = j) -> esum l <= 6.
Proof.
  induction l as [|h t IH]; intros U; simpl; [lia|].
  destruct (runner_pc h) eqn:Hh.
  - rewrite esum_zero; [destruct h; simpl; lia|]. intros j. destruct (pc_at runner_pc t j) eqn:Ej; [|reflexivity].
    discriminate (U 0 (S j) Hh Ej).
  - assert (erank h = 0) by (destruct h; try discriminate; reflexivity).
    pose proof (IH (fun i j Hi Hj => eq_add_S _ _ (U (S i) (S j) Hi Hj))). lia.
Qed.

Lemma end_rank_bound : forall max s i, reachable V1 max s -> end_rank s i <= 15.
Proof.
  intros max s i R. pose proof (reach_once _ _ R) as ((U & _) & E & _).
  pose proof (esum_unique_bound _ U) as Hb. unfold end_rank.
  assert (own_rank (nth_error (ends s) i) <= 2) by (destruct (nth_error (ends s) i) as [[]|]; simpl; lia).
  assert (col_rank (col s) <= 5) by (destruct (col s); simpl; lia).
  destruct (once s) eqn:Eo; simpl; try lia.
  rewrite esum_zero; [lia|]. intros j. destruct (pc_at runner_pc (ends s) j) eqn:Ej; [|reflexivity].
  destruct (pc_at_true _ _ _ Ej) as (e & He & Hr). rewrite (proj1 (E _ _ He) Hr) in Eo. discriminate.
Qed.

Definition trace_double_end : list label :=
  [End_call; End_melt 0; End_lock 0; End_closechan 0; End_closepeers 0; End_unlock 0; End_call; End_melt 1].

(* Max = 2; the spare goes stale, is replaced, the replacement goes stale too: the channel is
   full of closed peers and the fourth Collect blocks in the send while holding collectLock.
   (Collect = lock, check, catch, push, send, unlock, return; Pop = call, recv, check.) *)
Definition collect_ok : list label := [Col_lock; Col_check; Catch_ok; Col_push; Col_send; Col_unlock; Col_return].
Definition trace_deadlock : list label :=
  collect_ok ++ [Pop_call; Pop_recv 0; Pop_check 0] ++ collect_ok ++ [Peer_closes 1] ++ collect_ok ++ [Peer_closes 2]
  ++ [Col_lock; Col_check; Catch_ok; Col_push] ++ [End_call; End_melt 0].

Definition no_pop (l : label) : bool :=
  match l with Pop_call | Pop_recv _ | Pop_check _ => false | _ => true end.

(* the collector holds the lock and waits for room in the full channel; End caller 0 waits for the lock *)
Definition stuck_shape (s : state) : Prop :=
  (exists p, col s = C_Sending p) /\ lock s = Some T_Col /\ length (chan s) = cap s /\ chan_closed s = false
  /\ nth_error (ends s) 0 = Some E_Melted /\ inv_lock s.

(* what the shape reads, apart from the lock invariant *)
Lemma stuck_shape_frame : forall s s', col s' = col s -> lock s' = lock s -> chan s' = chan s -> cap s' = cap s ->
  chan_closed s' = chan_closed s -> nth_error (ends s') 0 = nth_error (ends s) 0 -> inv_lock s' ->
  stuck_shape s -> stuck_shape s'.
Proof.
  intros s s' E1 E2 E3 E4 E5 E6 IL' (Hc & Hl & Hch & Hcc & He & _). unfold stuck_shape.
  rewrite E1, E2, E3, E4, E5, E6. exact (conj Hc (conj Hl (conj Hch (conj Hcc (conj He IL'))))).
Qed.

Lemma stuck_shape_step : forall s l s', stuck_shape s -> no_pop l = true -> step V0 s l = Some s' ->
  stuck_shape s'.
Proof.
  intros s l s' S Hn H. pose proof S as ((p & Hc) & Hl & Hch & Hcc & He & IL).
  pose proof (inv_lock_step _ _ _ _ IL H) as IL'. destruct (step_Step _ _ _ _ H) as [_ St].
  (* End caller 0 stays where it is when a caller at another program counter than E_Melted moves *)
  assert (Hset : forall i e en, nth_error (ends s) i = Some e -> e <> E_Melted ->
            nth_error (set_nth i en (ends s)) 0 = nth_error (ends s) 0).
  { intros i e en Hi Hne. apply nth_error_set_nth_neq. intros <-. congruence. }
  destruct St;
    try discriminate Hn;                          (* a Pop step *)
    try (rewrite Hc in Gcol; discriminate Gcol);  (* a step of the collector from elsewhere than C_Sending *)
    try (apply (stuck_shape_frame s);
         [ reflexivity ..
         | fields; first [ reflexivity | eapply Hset; [exact Gend | discriminate]
                         | apply nth_error_app1, nth_error_Some; congruence ]
         | exact IL' | exact S ]).
  - (* Col_send: the channel is full *) apply Nat.ltb_lt in Groom. lia.
  - (* Col_abort: not in this code version *) discriminate Gv.
  - (* End_lock: the collector holds the lock *) congruence.
  - (* End_closechan: its caller would hold the lock *) pose proof (lock_end _ _ _ IL Gend eq_refl). congruence.
  - (* End_unlock: the same *) pose proof (lock_end _ _ _ IL Gend eq_refl). congruence.
Qed.

Lemma stuck_forever : forall tr s s', stuck_shape s -> forallb no_pop tr = true -> run V0 s tr = Some s' ->
  stuck_shape s'.
Proof.
  induction tr as [|l tr IH]; intros s s' Hs Hn Hr; simpl in *.
  - inversion Hr; subst; assumption.
  - apply andb_prop in Hn. destruct Hn as [Hl Hn]. destruct (step V0 s l) eqn:Es; [|discriminate].
    apply (IH s0 s'); auto. eapply stuck_shape_step; eauto.
Qed.

(* The reachable state after trace_deadlock: End has begun (melt closed) and is waiting for the lock,
   the collector holds the lock and waits for room in the channel. Unless some Pop happens, no
   continuation whatsoever lets that End return. *)
Lemma v0_deadlock : exists s, run V0 (init 2) trace_deadlock = Some s /\ panicked s = false /\
  nth_error (ends s) 0 = Some E_Melted /\
  (forall l, helpful l = true -> step V0 s l = None) /\
  (forall tr s', forallb no_pop tr = true -> run V0 s tr = Some s' -> nth_error (ends s') 0 = Some E_Melted).
Proof.
  destruct (run V0 (init 2) trace_deadlock) as [s0|] eqn:E; [|vm_compute in E; discriminate].
  pose proof (reach_lock _ _ _ (run_init_reachable _ _ _ _ E)) as IL.
  vm_compute in E. injection E as <-.
  assert (S0 : stuck_shape _) by (refine (conj _ (conj _ (conj _ (conj _ (conj _ IL))))); cbn; eauto).
  eexists. split; [reflexivity|]. split; [reflexivity|]. split; [reflexivity|]. split.
  - intros l Hl. destruct l; try discriminate; try reflexivity;
      unfold step; cbn; repeat (destruct i as [|i]; try reflexivity).
  - intros tr s' Hn Hr. apply (stuck_forever _ _ _ S0 Hn Hr).
Qed.
