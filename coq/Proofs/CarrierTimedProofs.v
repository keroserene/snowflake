(* CarrierTimedProofs.v — Model/CarrierTimed.v, upstream side: the datagrams kcp-go's listener reads under ONE ClientID
   with ONE conversation id make exactly one accepted connection, input all of them in order; and time does not touch
   the upstream side: on the carriers' upstream view, the receive queue and what KCP reads, the timed server is the
   untimed [srun] on the schedule [untimes] (the same arrivals and closes, plus a close wherever a write loop ended
   because its queue had expired or WriteData failed), so every upstream theorem of C05 holds for it. *)
From Coq Require Import List NArith ZArith Bool Arith Lia.
From Snow Require Import Lib.Wire Lib.WireFacts Model.Encap Model.CarrierLayer
  Proofs.CarrierFragProofs Proofs.CarrierProofs Proofs.CarrierMultiProofs
  Model.GoHeap Model.ClientMap Model.CarrierTimed.
Import ListNotations.
Open Scope N_scope.

Definition dgram (x : bytes * bytes) : bytes := firstn MTU_LIMIT (fst x).
Definition long_enough (x : bytes * bytes) : bool := negb (length (dgram x) <? IKCP_OVERHEAD)%nat.
Definition of_key (key : bytes) (s : lsess) : bool := beq (l_key s) key.
Definition from_key (key : bytes) (x : bytes * bytes) : bool := (beq (snd x) key && long_enough x)%bool.

Definition one_session (key : bytes) (conv : N) (ds : list bytes) : list lsess :=
  match ds with [] => [] | _ => [{| l_key := key; l_conv := conv; l_in := ds; l_live := true |}] end.

Lemma beq_sym' a b : beq a b = beq b a.
Proof. apply beq_sym. Qed.

Lemma l_input_other key cs d : forall ss key', beq key' key = false ->
  filter (of_key key') (fst (l_input key cs d ss)) = filter (of_key key') ss.
Proof.
  induction ss as [|s r IH]; intros key' Hne; cbn [l_input]; [reflexivity|].
  destruct (l_live s && beq (l_key s) key)%bool eqn:E.
  - apply andb_prop in E. destruct E as [_ E]. apply beq_eq in E.
    assert (Hk : beq (l_key s) key' = false) by (rewrite E, beq_sym; exact Hne).
    destruct cs as [[conv sn]|]; [destruct (conv =? l_conv s); [|destruct (sn =? 0)]|];
      cbn [fst filter]; unfold of_key; cbn [l_key]; rewrite ?Hk; reflexivity.
  - specialize (IH key' Hne). destruct (l_input key cs d r) as [r' h]. cbn [fst] in *. cbn [filter].
    rewrite IH. reflexivity.
Qed.

Lemma l_step_other ss x key : beq key (snd x) = false ->
  filter (of_key key) (l_step ss x) = filter (of_key key) ss.
Proof.
  intros Hne. unfold l_step. destruct (length (firstn MTU_LIMIT (fst x)) <? IKCP_OVERHEAD)%nat; [reflexivity|].
  pose proof (l_input_other (snd x) (conv_sn (firstn MTU_LIMIT (fst x))) (firstn MTU_LIMIT (fst x)) ss key Hne) as H.
  destruct (l_input (snd x) (conv_sn (firstn MTU_LIMIT (fst x))) (firstn MTU_LIMIT (fst x)) ss) as [ss' h]. cbn [fst] in H.
  destruct h as [[|]|]; try exact H;
    (destruct (conv_sn (firstn MTU_LIMIT (fst x))) as [[conv sn]|]; [|exact H];
     rewrite filter_app, H; cbn [filter]; unfold of_key at 2; cbn [l_key]; rewrite beq_sym, Hne; apply app_nil_r).
Qed.

Lemma l_input_absent key cs d : forall ss, filter (of_key key) ss = [] -> l_input key cs d ss = (ss, None).
Proof.
  induction ss as [|s r IH]; intros H; cbn [l_input]; [reflexivity|].
  cbn [filter] in H. unfold of_key at 1 in H. destruct (beq (l_key s) key) eqn:E; [discriminate|].
  rewrite andb_false_r. rewrite (IH H). reflexivity.
Qed.

(* exactly one session of this key, live, with this conversation id *)
Lemma l_input_present key conv sn d ds : forall ss,
  filter (of_key key) ss = [{| l_key := key; l_conv := conv; l_in := ds; l_live := true |}] ->
  exists ss', l_input key (Some (conv, sn)) d ss = (ss', Some true) /\
              filter (of_key key) ss' = [{| l_key := key; l_conv := conv; l_in := ds ++ [d]; l_live := true |}].
Proof.
  induction ss as [|s r IH]; intros H; [discriminate|]. cbn [l_input]. cbn [filter] in H. unfold of_key at 1 in H.
  destruct (beq (l_key s) key) eqn:E.
  - injection H as Hs Hr. subst s. cbn [l_live l_key l_conv l_in]. cbn [andb]. rewrite N.eqb_refl.
    eexists. split; [reflexivity|]. cbn [filter]. unfold of_key at 1. cbn [l_key]. rewrite beq_refl, Hr. reflexivity.
  - rewrite andb_false_r. destruct (IH H) as [r' [Hi Hf]]. rewrite Hi. eexists. split; [reflexivity|].
    cbn [filter]. unfold of_key at 1. rewrite E. exact Hf.
Qed.

Lemma l_step_key ss x key conv ds :
  beq (snd x) key = true -> long_enough x = true ->
  (exists sn, conv_sn (dgram x) = Some (conv, sn)) ->
  filter (of_key key) ss = one_session key conv ds ->
  filter (of_key key) (l_step ss x) = one_session key conv (ds ++ [dgram x]).
Proof.
  intros Hk Hl [sn Hc] Hss. apply beq_eq in Hk. unfold l_step. fold (dgram x).
  unfold long_enough in Hl. apply negb_true_iff in Hl. rewrite Hl, Hc, Hk.
  destruct ds as [|d0 ds].
  - cbn [one_session] in Hss. rewrite (l_input_absent key _ _ ss Hss).
    rewrite filter_app, Hss. cbn [filter app]. unfold of_key. cbn [l_key]. rewrite beq_refl. reflexivity.
  - cbn [one_session] in Hss. destruct (l_input_present key conv sn (dgram x) (d0 :: ds) ss Hss) as [ss' [Hi Hf]].
    rewrite Hi. rewrite Hf. reflexivity.
Qed.

Lemma l_step_short ss x : long_enough x = false -> l_step ss x = ss.
Proof. intros H. unfold l_step. fold (dgram x). unfold long_enough in H. apply negb_false_iff in H. rewrite H. reflexivity. Qed.

(* Theorem (one accepted connection). Whatever the listener reads — datagrams of any number of other ClientIDs, short
   ones, in any interleaving — if the datagrams read under ClientID [key] that are long enough to be looked at all carry
   the conversation id [conv], then the listener has accepted for [key] exactly one connection when there is such a
   datagram (none otherwise), it is live, and its KCP was input exactly those datagrams, in the order they were read. *)
Theorem one_accepted_connection : forall key conv read,
  (forall x, In x read -> from_key key x = true -> exists sn, conv_sn (dgram x) = Some (conv, sn)) ->
  filter (of_key key) (listener_view read) = one_session key conv (map dgram (filter (from_key key) read)).
Proof.
  intros key conv read. unfold listener_view.
  assert (G : forall ss ds, filter (of_key key) ss = one_session key conv ds ->
    (forall x, In x read -> from_key key x = true -> exists sn, conv_sn (dgram x) = Some (conv, sn)) ->
    filter (of_key key) (fold_left l_step read ss) = one_session key conv (ds ++ map dgram (filter (from_key key) read))).
  { induction read as [|x read IH]; intros ss ds Hss Hc; cbn [fold_left filter map]; [rewrite app_nil_r; exact Hss|].
    assert (Hc' : forall y, In y read -> from_key key y = true -> exists sn, conv_sn (dgram y) = Some (conv, sn))
      by (intros y Hy; apply Hc; right; exact Hy).
    destruct (from_key key x) eqn:Ef.
    - cbn [map]. replace (ds ++ dgram x :: map dgram (filter (from_key key) read))
        with ((ds ++ [dgram x]) ++ map dgram (filter (from_key key) read)) by (rewrite <- app_assoc; reflexivity).
      apply IH; [|exact Hc']. unfold from_key in Ef. apply andb_prop in Ef. destruct Ef as [E1 E2].
      apply l_step_key; try assumption. apply Hc; [left; reflexivity|]. unfold from_key. rewrite E1, E2. reflexivity.
    - apply IH; [|exact Hc']. unfold from_key in Ef. apply andb_false_iff in Ef. destruct Ef as [E|E].
      + rewrite l_step_other by (rewrite beq_sym; exact E). exact Hss.
      + rewrite l_step_short by exact E. exact Hss. }
  intros Hc. apply (G [] []); [reflexivity | exact Hc].
Qed.

(* The same-conversation premise of [one_accepted_connection] cannot be dropped: a datagram under the same ClientID with
   ANOTHER conversation id and sn = 0 makes kcp-go's listener close the session it has for that ClientID and accept a
   second one (Listener.packetInput: `else if sn == 0 { s.Close(); s = nil }`, then the "new session" branch). One
   ClientID carrying two conversations is two accepted connections, the first of them closed. *)

(* exactly one session of this key, live, with ANOTHER conversation id, and the datagram starts a conversation (sn = 0):
   the session is closed, to be replaced *)
Lemma l_input_replace key conv conv2 d ds : forall ss,
  conv2 <> conv ->
  filter (of_key key) ss = [{| l_key := key; l_conv := conv; l_in := ds; l_live := true |}] ->
  exists ss', l_input key (Some (conv2, 0)) d ss = (ss', Some false) /\
              filter (of_key key) ss' = [{| l_key := key; l_conv := conv; l_in := ds; l_live := false |}].
Proof.
  intros ss Hne. induction ss as [|s r IH]; intros H; [discriminate|]. cbn [l_input]. cbn [filter] in H. unfold of_key at 1 in H.
  destruct (beq (l_key s) key) eqn:E.
  - injection H as Hs Hr. subst s. cbn [l_live l_key l_conv l_in]. cbn [andb].
    apply N.eqb_neq in Hne. rewrite Hne. cbn [N.eqb].
    eexists. split; [reflexivity|]. cbn [filter]. unfold of_key at 1. cbn [l_key]. rewrite beq_refl, Hr. reflexivity.
  - rewrite andb_false_r. destruct (IH H) as [r' [Hi Hf]]. rewrite Hi. eexists. split; [reflexivity|].
    cbn [filter]. unfold of_key at 1. rewrite E. exact Hf.
Qed.

Lemma listener_view_snoc read x : listener_view (read ++ [x]) = l_step (listener_view read) x.
Proof. unfold listener_view. rewrite fold_left_app. reflexivity. Qed.

(* Theorem (two conversations, two connections). Take ANY read history that satisfies the premise of
   [one_accepted_connection] for [key] and [conv] and contains at least one datagram of [key] that is looked at; let one
   more datagram arrive under the same ClientID with a different conversation id and sn = 0. Then the listener has
   accepted TWO connections for [key]: the first, with everything read so far, is closed; the second is live and was
   input the new datagram. *)
Theorem second_conv_second_connection : forall key conv conv2 read x2,
  (forall x, In x read -> from_key key x = true -> exists sn, conv_sn (dgram x) = Some (conv, sn)) ->
  filter (from_key key) read <> [] ->
  snd x2 = key -> long_enough x2 = true -> conv_sn (dgram x2) = Some (conv2, 0) -> conv2 <> conv ->
  filter (of_key key) (listener_view (read ++ [x2])) =
    [{| l_key := key; l_conv := conv; l_in := map dgram (filter (from_key key) read); l_live := false |};
     {| l_key := key; l_conv := conv2; l_in := [dgram x2]; l_live := true |}].
Proof.
  intros key conv conv2 read x2 Hc Hne Hk Hl Hc2 Hdiff.
  pose proof (one_accepted_connection key conv read Hc) as H1.
  rewrite listener_view_snoc. set (ss := listener_view read) in *.
  destruct (map dgram (filter (from_key key) read)) as [|d0 ds] eqn:Eds.
  { exfalso. apply Hne. destruct (filter (from_key key) read); [reflexivity|discriminate]. }
  cbn [one_session] in H1.
  destruct (l_input_replace key conv conv2 (dgram x2) (d0 :: ds) ss Hdiff H1) as [ss' [Hi Hf]].
  unfold l_step. fold (dgram x2). unfold long_enough in Hl. apply negb_true_iff in Hl. rewrite Hl, Hc2, Hk, Hi.
  rewrite filter_app, Hf. cbn [filter app]. unfold of_key. cbn [l_key]. rewrite beq_refl. reflexivity.
Qed.

Section Views.
  Variable timeout : Z.

  (* T_Recv in terms of feed; the write loop starts (and asks for its queue) when this arrival completes token + ClientID *)
  Lemma tstep_recv t i b now k : nth_error (tcar t) i = Some k ->
    let k' := fst (feed k b) in
    let started := (pre_openb k && entered k')%bool in
    let sq := send_queue (cid_key (k_cid k')) now (tcm t) in
    tstep timeout t (T_Recv i b now) =
    {| tcar := kupd i (fun _ => k') (tcar t);
       theld := if started then set_nth i (Some (snd sq)) (theld t) else theld t;
       trecvq := enqueue_all (k_cid k') (snd (feed k b)) (trecvq t);
       tdelivered := tdelivered t;
       tcm := if started then fst sq else tcm t; tacc := tacc t; tcons := tcons t |}.
  Proof.
    intros Hk. cbn zeta. cbn [tstep]. rewrite Hk. destruct (k_state k) eqn:Es;
      try (rewrite (recv_is_feed k b) by congruence; destruct (feed k b) as [k' ps]; cbn [fst snd];
           destruct (pre_openb k && entered k')%bool; [destruct (send_queue _ _ _)|]; reflexivity).
    rewrite (feed_dead k b Es). unfold pre_openb. rewrite Es. cbn [fst snd andb enqueue_all].
    rewrite (kupd_ext (fun _ => k) (fun x => x)), kupd_id by congruence. destruct t; reflexivity.
  Qed.

  Lemma tstep_writeto t cid p now :
    let sq := send_queue (cid_key cid) now (tcm t) in
    let qs := q_send QUEUE_SIZE (snd sq) p (fst sq) in
    tstep timeout t (T_WriteTo cid p now) =
    {| tcar := tcar t; theld := theld t; trecvq := trecvq t; tdelivered := tdelivered t; tcm := fst qs;
       tacc := if snd qs then tacc t ++ [(cid_key cid, snd sq, p)] else tacc t; tcons := tcons t |}.
  Proof. cbn zeta. cbn [tstep]. destruct (send_queue _ _ _) as [c1 q]. cbn [fst snd]. destruct (q_send _ _ _ _); reflexivity. Qed.

  (* T_Send: nothing happens unless carrier i is open and its write loop holds a queue; then the receive on that queue
     decides between written / write failed / still blocked / queue closed under the loop *)
  Lemma tstep_send t i now :
    tstep timeout t (T_Send i now) = t \/
    exists k q, nth_error (tcar t) i = Some k /\ nth_error (theld t) i = Some (Some q) /\ k_state k = K_Open /\
      let c1 := fst (q_recv q (tcm t)) in
      let lose tc := {| tcar := kupd i kill (tcar t); theld := theld t; trecvq := trecvq t; tdelivered := tdelivered t;
                        tcm := c1; tacc := tacc t; tcons := tc |} in
      match snd (q_recv q (tcm t)) with
      | RcvPkt p =>
          match write_data p with
          | Some w =>
              let sq := send_queue (cid_key (k_cid k)) now c1 in
              tstep timeout t (T_Send i now) =
              {| tcar := kupd i (fun k => open_carrier k p w) (tcar t); theld := set_nth i (Some (snd sq)) (theld t);
                 trecvq := trecvq t; tdelivered := tdelivered t; tcm := fst sq; tacc := tacc t;
                 tcons := tcons t ++ [(Some i, cid_key (k_cid k), q, p)] |}
          | None => tstep timeout t (T_Send i now) = lose (tcons t ++ [(None, cid_key (k_cid k), q, p)])
          end
      | RcvEmpty => tstep timeout t (T_Send i now) = t
      | RcvClosed => tstep timeout t (T_Send i now) = lose (tcons t)
      end.
  Proof.
    cbn [tstep]. destruct (nth_error (tcar t) i) as [k|] eqn:Hk; [|left; reflexivity].
    destruct (nth_error (theld t) i) as [[q|]|] eqn:Hh; try (left; reflexivity).
    destruct (k_state k) eqn:Es; try (left; reflexivity). right. exists k, q. split; [reflexivity|]. split; [reflexivity|]. split; [exact Es|]. cbn zeta.
    destruct (q_recv q (tcm t)) as [c1 r]. cbn [fst snd]. destruct r as [p| |]; try reflexivity.
    destruct (write_data p); [destruct (send_queue (cid_key (k_cid k)) now c1)|]; reflexivity.
  Qed.
End Views.

Section Sim.
  Variable timeout : Z.

  Definition alive_at (cs : list carrier) (i : nat) : bool :=
    match nth_error cs i with Some k => match k_state k with K_Dead => false | _ => true end | None => false end.

  (* the untimed operations with the same effect on the upstream side *)
  Definition untime1 (t : tstate) (o : top) : list sop :=
    match o with
    | T_New => [S_New]
    | T_Recv i b _ => [S_Recv i b]
    | T_Close i => [S_Close i]
    | T_ReadFrom => [S_ReadFrom]
    | T_WriteTo _ _ _ | T_Sweep _ => []
    | T_Send i _ => if (alive_at (tcar t) i && negb (alive_at (tcar (tstep timeout t o)) i))%bool then [S_Close i] else []
    end.

  Fixpoint untimes (t : tstate) (ops : list top) : list sop :=
    match ops with
    | [] => []
    | o :: r => untime1 t o ++ untimes (tstep timeout t o) r
    end.

  Definition usim (t : tstate) (s : sstate) : Prop :=
    map strip (tcar t) = map strip (carriers s) /\ trecvq t = recvq s /\ tdelivered t = delivered s.

  Lemma map_strip_kupd f g : (forall k, strip (f k) = g (strip k)) ->
    forall l i, map strip (kupd i f l) = kupd i g (map strip l).
  Proof.
    intros H. induction l as [|x l IH]; intros [|i]; cbn [kupd map]; try reflexivity.
    - rewrite H. reflexivity.
    - rewrite IH. reflexivity.
  Qed.

  Lemma map_strip_kupd_same f : forall l i, (forall x, nth_error l i = Some x -> strip (f x) = strip x) ->
    map strip (kupd i f l) = map strip l.
  Proof.
    induction l as [|x l IH]; intros [|i] H; cbn [kupd map]; try reflexivity.
    - rewrite (H x eq_refl). reflexivity.
    - rewrite (IH i H). reflexivity.
  Qed.

  Lemma nth_strip l1 l2 i k1 : map strip l1 = map strip l2 -> nth_error l1 i = Some k1 ->
    exists k2, nth_error l2 i = Some k2 /\ strip k1 = strip k2.
  Proof.
    intros H Hn. apply (map_nth_error strip) in Hn. rewrite H in Hn.
    destruct (nth_error l2 i) as [k2|] eqn:E2.
    - rewrite (map_nth_error strip _ _ E2) in Hn. exists k2. split; [reflexivity | congruence].
    - apply nth_error_None in E2. rewrite <- (map_length strip) in E2. apply nth_error_None in E2. congruence.
  Qed.

  Lemma nth_strip_none l1 l2 i : map strip l1 = map strip l2 -> nth_error l1 i = None -> nth_error l2 i = None.
  Proof.
    intros H Hn. apply nth_error_None. apply nth_error_None in Hn.
    rewrite <- (map_length strip l2), <- H, map_length. exact Hn.
  Qed.

  (* the same update of carrier i, as far as the upstream view goes, on two lists with the same upstream view *)
  Lemma kupd_same_strip f1 f2 g : (forall k, strip (f1 k) = g (strip k)) -> (forall k, strip (f2 k) = g (strip k)) ->
    forall l1 l2 i, map strip l1 = map strip l2 -> map strip (kupd i f1 l1) = map strip (kupd i f2 l2).
  Proof. intros H1 H2 l1 l2 i H. rewrite (map_strip_kupd f1 g H1), (map_strip_kupd f2 g H2), H. reflexivity. Qed.

  Lemma alive_strip l1 l2 i : map strip l1 = map strip l2 -> alive_at l1 i = alive_at l2 i.
  Proof.
    intros H. unfold alive_at. destruct (nth_error l1 i) as [k1|] eqn:E1.
    - destruct (nth_strip _ _ _ _ H E1) as [k2 [E2 Hs]]. rewrite E2.
      destruct (strip_fields _ _ Hs) as [-> _]. reflexivity.
    - rewrite (nth_strip_none _ _ _ H E1). reflexivity.
  Qed.

  Lemma tstep_sim t s o : usim t s -> usim (tstep timeout t o) (fold_left sstep (untime1 t o) s).
  Proof.
    intros [Hc [Hq Hd]]. destruct o; cbn [untime1 fold_left].
    - cbn [tstep sstep]. unfold usim. cbn. rewrite !map_app, Hc. repeat split; assumption.
    - destruct (nth_error (tcar t) i) as [k|] eqn:Hk.
      2:{ cbn [tstep sstep]. rewrite Hk, (nth_strip_none _ _ _ Hc Hk). repeat split; assumption. }
      destruct (nth_strip _ _ _ _ Hc Hk) as [k2 [Hk2 Hs]].
      rewrite (tstep_recv timeout t i b now k Hk), (sstep_recv_feed s i b k2 Hk2). cbn zeta.
      destruct (feed_strip_eq k k2 b Hs) as [P1 P2]. destruct (strip_fields _ _ P1) as (_ & Hcid & _).
      unfold usim. cbn [tcar trecvq tdelivered carriers recvq delivered]. rewrite Hcid, P2, Hq.
      split; [|split; [reflexivity | exact Hd]].
      apply (kupd_same_strip _ _ (fun _ => strip (fst (feed k b)))); [reflexivity | intros _; symmetry; exact P1 | exact Hc].
    - cbn [tstep sstep]. unfold usim. cbn.
      split; [apply (kupd_same_strip kill kill kill strip_kill strip_kill); exact Hc | split; assumption].
    - rewrite tstep_writeto. repeat split; assumption.
    - assert (Hsame : forall t', tcar t' = tcar t -> trecvq t' = trecvq t -> tdelivered t' = tdelivered t ->
                usim t' (fold_left sstep (if (alive_at (tcar t) i && negb (alive_at (tcar t') i))%bool then [S_Close i] else []) s)).
      { intros t' E1 E2 E3. rewrite E1, andb_negb_r. unfold usim. rewrite E1, E2, E3. repeat split; assumption. }
      destruct (tstep_send timeout t i now) as [E|(k & q & Hk & Hh & Es & E)]; [rewrite E; apply Hsame; reflexivity|].
      assert (A1 : alive_at (tcar t) i = true) by (unfold alive_at; rewrite Hk, Es; reflexivity).
      assert (Hlose : forall cm tc, let t' := {| tcar := kupd i kill (tcar t); theld := theld t; trecvq := trecvq t;
                  tdelivered := tdelivered t; tcm := cm; tacc := tacc t; tcons := tc |} in
                usim t' (fold_left sstep (if (alive_at (tcar t) i && negb (alive_at (tcar t') i))%bool then [S_Close i] else []) s)).
      { intros cm tc t'. unfold alive_at at 2. cbn [t' tcar]. rewrite A1, (knth_upd_eq _ _ _ _ Hk). cbn [kill k_state andb negb fold_left sstep].
        unfold usim. cbn [tcar trecvq tdelivered carriers recvq delivered].
        split; [apply (kupd_same_strip kill kill kill strip_kill strip_kill); exact Hc | split; assumption]. }
      cbn zeta in E. destruct (snd (q_recv q (tcm t))) as [p| |]; [destruct (write_data p) as [w|]|..]; rewrite E;
        [|apply Hlose|apply Hsame; reflexivity|apply Hlose].
      unfold alive_at at 2. cbn [tcar]. rewrite A1, (knth_upd_eq _ _ _ _ Hk). cbn [open_carrier k_state andb negb fold_left].
      unfold usim. cbn [tcar trecvq tdelivered]. split; [|split; assumption]. rewrite <- Hc. apply map_strip_kupd_same.
      intros x Hx. rewrite Hk in Hx. injection Hx as <-. unfold strip. cbn. rewrite Es. reflexivity.
    - cbn [tstep sstep]. rewrite <- Hq. destruct (trecvq t) as [|x q'] eqn:Et.
      + unfold usim. rewrite Et. repeat split; assumption.
      + unfold usim. cbn. rewrite Hd. repeat split; assumption.
    - cbn [tstep]. repeat split; assumption.
  Qed.

  Lemma tsim_run : forall ops t s, usim t s ->
    usim (fold_left (tstep timeout) ops t) (fold_left sstep (untimes t ops) s).
  Proof.
    induction ops as [|o ops IH]; intros t s H; cbn [fold_left untimes]; [exact H|].
    rewrite fold_left_app. apply IH. apply tstep_sim. exact H.
  Qed.

  Theorem trun_upstream_is_srun : forall ops,
    usim (trun timeout ops) (srun (untimes tinit ops)).
  Proof. intros ops. apply tsim_run. repeat split. Qed.
End Sim.
