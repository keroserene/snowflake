(* CloseConnProofs.v — SnowflakeConn.Close over the Peers machine (Model/CloseConn.v): once a Close call is
   past Peers.End, no rendezvous is in flight and no peer is held open ever again, whatever the other threads do
   ([close_stops_rendezvous]); the Close of the pinned code returns only through End; and from every reachable
   state a Close call that has begun returns within 20 steps of its own, of End callers and of the collector
   already inside Collect ([close_terminates]). *)
From Coq Require Import List Arith Bool Lia.
From Snow Require Import Lib.ListFacts Model.Peers Model.CloseConn Proofs.PeersProofs.
Import ListNotations.

Inductive creachable (kv : kversion) (v : version) (max : nat) : kstate -> Prop :=
| creach_init : creachable kv v max (kinit max)
| creach_step : forall c l c', creachable kv v max c -> cstep kv v c l = Some c' -> creachable kv v max c'.

Lemma crun_reachable : forall kv v max tr c c', creachable kv v max c -> crun kv v c tr = Some c' ->
  creachable kv v max c'.
Proof.
  induction tr as [|l tr IH]; simpl; intros c c' R H.
  - inversion H; subst; assumption.
  - destruct (cstep kv v c l) eqn:E; [|discriminate]. eapply IH; [|exact H]. eapply creach_step; eauto.
Qed.

Lemma crun_app : forall kv v t1 t2 c c1 c2, crun kv v c t1 = Some c1 -> crun kv v c1 t2 = Some c2 ->
  crun kv v c (t1 ++ t2) = Some c2.
Proof.
  induction t1 as [|l t1 IH]; simpl; intros t2 c c1 c2 H1 H2.
  - inversion H1; subst; assumption.
  - destruct (cstep kv v c l); [|discriminate]. eapply IH; eauto.
Qed.

Local Ltac cstep_inv H :=
  unfold cstep in H;
  repeat match type of H with
    | match ?x with _ => _ end = Some _ => destruct x eqn:?; try discriminate
    | (if ?x then _ else _) = Some _ => destruct x eqn:?; try discriminate
  end;
  inversion H; subst; clear H.

Lemma cstep_proj : forall kv v c l c', cstep kv v c l = Some c' ->
  ps c' = ps c \/ exists pl, step v (ps c) pl = Some (ps c').
Proof.
  intros kv v c l c' H. destruct l; cstep_inv H; cbn; eauto.
Qed.

Lemma creach_proj : forall kv v max c, creachable kv v max c -> reachable v max (ps c).
Proof.
  intros kv v max c R. induction R as [|c l c' R IH H].
  - apply reach_init.
  - destruct (cstep_proj _ _ _ _ _ H) as [E|(pl & E)].
    + rewrite E. assumption.
    + eapply reach_step; eauto.
Qed.

Lemma ends_length_mono : forall v s l s', step v s l = Some s' -> length (ends s) <= length (ends s').
Proof.
  intros v s l s' H. destruct l; step_inv H; cbn; unfold set_end; cbn;
    rewrite ?length_set_nth, ?app_length; simpl; lia.
Qed.

Lemma end_done_stable : forall v s l s' i, step v s l = Some s' ->
  nth_error (ends s) i = Some E_Done -> nth_error (ends s') i = Some E_Done.
Proof.
  intros v s l s' i H Hd.
  destruct l; step_inv H; cbn; unfold set_end; cbn; try assumption;
    try (rewrite nth_error_app1; [assumption|apply nth_error_Some; congruence]);
    rewrite nth_error_set_nth;
    match goal with |- (if Nat.eqb ?j ?k then _ else _) = _ => destruct (Nat.eqb_spec j k); [subst; congruence|assumption] end.
Qed.

Definition some_end_done (s : state) : Prop := exists i, nth_error (ends s) i = Some E_Done.

Lemma some_end_done_stable : forall v s l s', step v s l = Some s' -> some_end_done s -> some_end_done s'.
Proof. intros v s l s' H (i & Hd). exists i. eapply end_done_stable; eauto. Qed.

Definition closer_ok (kv : kversion) (s : state) (pc : close_pc) : Prop :=
  match pc with
  | K_InEnd i => i < length (ends s)
  | K_Pconn | K_Sess | K_Done true => some_end_done s
  | K_Done false => kv = K_early
  | _ => True
  end.

Definition inv_close (kv : kversion) (c : kstate) : Prop :=
  forall k pc, nth_error (closers c) k = Some pc -> closer_ok kv (ps c) pc.

Lemma closer_ok_step : forall kv v s l s' pc, step v s l = Some s' -> closer_ok kv s pc -> closer_ok kv s' pc.
Proof.
  intros kv v s l s' pc H Hok. destruct pc as [| |i| | |[|]]; simpl in *; auto;
    try (eapply some_end_done_stable; eauto).
  pose proof (ends_length_mono _ _ _ _ H). lia.
Qed.

Lemma inv_close_set : forall kv c k pc s' sd sc pcl,
  inv_close kv c -> (forall q, closer_ok kv (ps c) q -> closer_ok kv s' q) -> closer_ok kv s' pc ->
  inv_close kv (mkCS s' sd sc pcl (set_nth k pc (closers c))).
Proof.
  intros kv c k pc s' sd sc pcl I Hmono Hpc j q Hj. cbn in *.
  rewrite nth_error_set_nth in Hj. destruct (Nat.eqb_spec j k).
  - destruct (nth_error (closers c) k); inversion Hj; subst. assumption.
  - apply Hmono. eapply I; eauto.
Qed.

Lemma inv_close_step : forall kv v c l c', inv_close kv c -> cstep kv v c l = Some c' -> inv_close kv c'.
Proof.
  intros kv v c l c' I H. destruct l.
  - (* L_P *) cstep_inv H. intros k pc Hk. cbn in *. eapply closer_ok_step; eauto.
  - cstep_inv H. exact I.
  - (* L_Close *) cstep_inv H. intros k pc Hk. cbn in *.
    apply nth_error_snoc in Hk. destruct Hk as [Hk|[_ ->]]; [eapply I; eauto|exact Logic.I].
  - (* L_Stream *) cstep_inv H. apply inv_close_set; [assumption|auto|].
    destruct kv; [exact Logic.I|]. destruct (stream_close_fails c); simpl; auto.
  - (* L_CallEnd *) cstep_inv H. apply inv_close_set; [assumption| |].
    + intros q. eapply closer_ok_step; eauto.
    + simpl. match goal with E : step _ _ End_call = Some _ |- _ => step_inv E end.
      cbn. rewrite app_length. simpl. lia.
  - (* L_EndRet *) cstep_inv H. unfold set_closer. apply inv_close_set; [assumption|auto|].
    simpl. eexists; eauto.
  - (* L_Pconn *) cstep_inv H. apply inv_close_set; [assumption|auto|].
    match goal with E : nth_error (closers c) _ = Some K_Pconn |- _ => exact (I _ _ E) end.
  - (* L_Sess *) cstep_inv H. apply inv_close_set; [assumption|auto|].
    match goal with E : nth_error (closers c) _ = Some K_Sess |- _ => exact (I _ _ E) end.
  - cstep_inv H. exact I.
Qed.

Lemma creach_inv_close : forall kv v max c, creachable kv v max c -> inv_close kv c.
Proof.
  intros kv v max c R. induction R as [|c l c' R IH H].
  - intros k pc Hk. destruct k; discriminate.
  - eapply inv_close_step; eauto.
Qed.

Lemma close_after_end_facts : forall kv v max c k pc, creachable kv v max c ->
  nth_error (closers c) k = Some pc -> after_end pc = true ->
  all_closed (ps c) /\ live_peers (ps c) = [] /\ melted (ps c) = true /\ chan_closed (ps c) = true /\
  col_hasconn (col (ps c)) = false.
Proof.
  intros kv v max c k pc R Hk Ha.
  pose proof (creach_inv_close _ _ _ _ R _ _ Hk) as Hok.
  assert (Hd : some_end_done (ps c)) by (destruct pc as [| | | | |[|]]; simpl in *; try discriminate; assumption).
  destruct Hd as (i & Hd). eapply end_done_facts; eauto using creach_proj.
Qed.

(* the pinned Close never returns without having gone through End *)
Lemma close_returned_ended : forall v max c k pc, creachable K_pinned v max c ->
  nth_error (closers c) k = Some pc -> returned pc = true -> after_end pc = true.
Proof.
  intros v max c k pc R Hk Hr. pose proof (creach_inv_close _ _ _ _ R _ _ Hk) as Hok.
  destruct pc as [| | | | |[|]]; simpl in *; try discriminate; reflexivity.
Qed.

(* closer k stays past End when closer j moves on, provided j's move keeps it past End if it was *)
Lemma after_end_set : forall (l : list close_pc) j q q' k pc,
  nth_error l k = Some pc -> after_end pc = true -> nth_error l j = Some q ->
  (after_end q = true -> after_end q' = true) ->
  exists pc', nth_error (set_nth j q' l) k = Some pc' /\ after_end pc' = true.
Proof.
  intros l j q q' k pc Hk Ha Hj Hq. rewrite nth_error_set_nth.
  destruct (Nat.eqb_spec k j) as [->|]; [|eauto].
  rewrite Hj. rewrite Hk in Hj. injection Hj as <-. eauto.
Qed.

Lemma after_end_stable : forall kv v c l c' k pc, cstep kv v c l = Some c' ->
  nth_error (closers c) k = Some pc -> after_end pc = true ->
  exists pc', nth_error (closers c') k = Some pc' /\ after_end pc' = true.
Proof.
  intros kv v c l c' k pc H Hk Ha.
  destruct l; cstep_inv H; unfold set_closer; cbn [closers]; eauto;
    try (eapply after_end_set; eauto; discriminate || reflexivity).
  rewrite nth_error_app1; [eauto|apply nth_error_Some; congruence].
Qed.

Lemma after_end_run : forall kv v tr c c' k pc, crun kv v c tr = Some c' ->
  nth_error (closers c) k = Some pc -> after_end pc = true ->
  exists pc', nth_error (closers c') k = Some pc' /\ after_end pc' = true.
Proof.
  induction tr as [|l tr IH]; simpl; intros c c' k pc H Hk Ha.
  - inversion H; subst; eauto.
  - destruct (cstep kv v c l) as [c1|] eqn:E; [|discriminate].
    destruct (after_end_stable _ _ _ _ _ _ _ E Hk Ha) as (pc1 & Hk1 & Ha1). eapply IH; eauto.
Qed.

(* After Close is past End: whatever any thread does from then on (the connect loop calling Collect again,
   further Close calls, the session dying, ...), no rendezvous attempt is ever in flight again and no peer
   is ever held open again. *)
Lemma close_stops_rendezvous : forall kv v max c k pc tr c', creachable kv v max c ->
  nth_error (closers c) k = Some pc -> after_end pc = true -> crun kv v c tr = Some c' ->
  col (ps c') <> C_Catching /\ live_peers (ps c') = [] /\ melted (ps c') = true.
Proof.
  intros kv v max c k pc tr c' R Hk Ha Hrun.
  destruct (after_end_run _ _ _ _ _ _ _ Hrun Hk Ha) as (pc' & Hk' & Ha').
  pose proof (crun_reachable _ _ _ _ _ _ R Hrun) as R'.
  destruct (close_after_end_facts _ _ _ _ _ _ R' Hk' Ha') as (_ & Hl & Hm & _ & Hc).
  repeat split; auto. intros E. rewrite E in Hc. discriminate.
Qed.

(* steps of closer k itself, of End callers, and of the collector already inside Collect *)
Definition close_helpful (k : nat) (oracle : bool) (l : clabel) : Prop :=
  match l with
  | L_P pl => helpful pl = true /\ oracle_ok oracle pl
  | L_Stream j | L_CallEnd j | L_EndRet j | L_Pconn j | L_Sess j => j = k
  | _ => False
  end.

Lemma crun_lift : forall kv v tr c s', run v (ps c) tr = Some s' ->
  crun kv v c (map L_P tr) = Some (mkCS s' (sess_dead c) (stream_closed c) (pconn_closed c) (closers c)).
Proof.
  induction tr as [|l tr IH]; simpl; intros c s' H.
  - inversion H; subst. destruct c; reflexivity.
  - destruct (step v (ps c) l) as [s1|] eqn:E; [|discriminate].
    rewrite (IH (mkCS s1 (sess_dead c) (stream_closed c) (pconn_closed c) (closers c)) s' H). reflexivity.
Qed.

Definition finishes (c : kstate) (k : nat) (oracle : bool) (n : nat) : Prop :=
  exists tr c', length tr <= n /\ Forall (close_helpful k oracle) tr /\
    crun K_pinned V1 c tr = Some c' /\ nth_error (closers c') k = Some (K_Done true).

Lemma finishes_cons : forall c k oracle n l c1, cstep K_pinned V1 c l = Some c1 -> close_helpful k oracle l ->
  finishes c1 k oracle n -> finishes c k oracle (S n).
Proof.
  intros c k oracle n l c1 H Hh (tr & c' & Hl & Hf & Hr & Hd).
  exists (l :: tr), c'. repeat split; simpl; auto; try lia. rewrite H. assumption.
Qed.

Lemma finishes_done : forall c k oracle, nth_error (closers c) k = Some (K_Done true) -> finishes c k oracle 0.
Proof. intros c k oracle Hk. exists [], c. repeat split; simpl; auto. Qed.

Lemma term_sess : forall c k oracle, nth_error (closers c) k = Some K_Sess -> finishes c k oracle 1.
Proof.
  intros c k oracle Hk. eapply finishes_cons with (l := L_Sess k); [unfold cstep; rewrite Hk; reflexivity|reflexivity|].
  apply finishes_done. cbn. erewrite nth_error_set_nth_eq; eauto.
Qed.

Lemma term_pconn : forall c k oracle, nth_error (closers c) k = Some K_Pconn -> finishes c k oracle 2.
Proof.
  intros c k oracle Hk. eapply finishes_cons with (l := L_Pconn k); [unfold cstep; rewrite Hk; reflexivity|reflexivity|].
  apply term_sess. cbn. erewrite nth_error_set_nth_eq; eauto.
Qed.

Lemma term_inend : forall max c k i oracle, creachable K_pinned V1 max c ->
  nth_error (closers c) k = Some (K_InEnd i) -> finishes c k oracle 18.
Proof.
  intros max c k i oracle R Hk.
  pose proof (creach_inv_close _ _ _ _ R _ _ Hk) as Hi. simpl in Hi.
  destruct (nth_error (ends (ps c)) i) as [e|] eqn:He; [|apply nth_error_None in He; lia].
  pose proof (creach_proj _ _ _ _ R) as Rp.
  destruct (end_terminates (end_rank (ps c) i) max (ps c) i e oracle Rp He (le_n _)) as (tr & s' & Hlen & Hhelp & Hor & Hrun & Hd).
  pose proof (end_rank_bound _ _ i Rp) as Hb.
  pose proof (crun_lift K_pinned V1 tr c s' Hrun) as Hl.
  set (c1 := mkCS s' (sess_dead c) (stream_closed c) (pconn_closed c) (closers c)) in *.
  assert (Hk1 : nth_error (closers c1) k = Some (K_InEnd i)) by exact Hk.
  assert (H1 : cstep K_pinned V1 c1 (L_EndRet k) = Some (set_closer c1 k K_Pconn)).
  { unfold cstep. rewrite Hk1. cbn [ps c1]. rewrite Hd. reflexivity. }
  assert (F : finishes c1 k oracle 3).
  { eapply finishes_cons; [exact H1|reflexivity|]. apply term_pconn. cbn. erewrite nth_error_set_nth_eq; eauto. }
  destruct F as (tr2 & c2 & Hl2 & Hf2 & Hr2 & Hd2).
  exists (map L_P tr ++ tr2), c2. repeat split.
  - rewrite app_length, map_length. lia.
  - apply Forall_app. split; [|assumption]. apply Forall_forall. intros l Hin.
    apply in_map_iff in Hin. destruct Hin as (pl & <- & Hin). simpl. split.
    + rewrite forallb_forall in Hhelp. auto.
    + rewrite Forall_forall in Hor. auto.
  - eapply crun_app; eauto.
  - assumption.
Qed.

Lemma term_callend : forall max c k oracle, creachable K_pinned V1 max c ->
  nth_error (closers c) k = Some K_CallEnd -> finishes c k oracle 19.
Proof.
  intros max c k oracle R Hk.
  assert (H : exists c1, cstep K_pinned V1 c (L_CallEnd k) = Some c1 /\ exists i, nth_error (closers c1) k = Some (K_InEnd i)).
  { unfold cstep. rewrite Hk. unfold step.
    rewrite (v1_no_panic _ _ (creach_proj _ _ _ _ R)). eexists. split; [reflexivity|].
    cbn. eexists. erewrite nth_error_set_nth_eq; eauto. }
  destruct H as (c1 & H1 & i & Hk1).
  eapply finishes_cons; [exact H1|reflexivity|]. eapply term_inend; eauto. eapply creach_step; eauto.
Qed.

Lemma term_stream : forall max c k oracle, creachable K_pinned V1 max c ->
  nth_error (closers c) k = Some K_Stream -> finishes c k oracle 20.
Proof.
  intros max c k oracle R Hk.
  assert (H1 : cstep K_pinned V1 c (L_Stream k) =
               Some (mkCS (ps c) (sess_dead c) true (pconn_closed c) (set_nth k K_CallEnd (closers c)))).
  { unfold cstep. rewrite Hk. reflexivity. }
  eapply finishes_cons; [exact H1|reflexivity|]. eapply term_callend; [eapply creach_step; eauto|].
  cbn. erewrite nth_error_set_nth_eq; eauto.
Qed.

Lemma finishes_weaken : forall c k oracle n m, n <= m -> finishes c k oracle n -> finishes c k oracle m.
Proof. intros c k oracle n m Hle (tr & c' & Hl & H). exists tr, c'. split; [lia|assumption]. Qed.

(* From every reachable state - whether or not the session has died, the stream was closed before, other
   Close calls are under way, a rendezvous is in flight - a Close call that has not returned completes within
   20 steps, all of them its own, those of End callers, or those of the collector already inside Collect. *)
Lemma close_terminates : forall max c k pc oracle, creachable K_pinned V1 max c ->
  nth_error (closers c) k = Some pc -> finishes c k oracle 20.
Proof.
  intros max c k pc oracle R Hk. destruct pc as [| |i| | |[|]].
  - eapply term_stream; eauto.
  - eapply finishes_weaken; [|eapply term_callend; eauto]. lia.
  - eapply finishes_weaken; [|eapply term_inend; eauto]. lia.
  - eapply finishes_weaken; [|eapply term_pconn; eauto]. lia.
  - eapply finishes_weaken; [|eapply term_sess; eauto]. lia.
  - eapply finishes_weaken; [|eapply finishes_done; eauto]. lia.
  - pose proof (creach_inv_close _ _ _ _ R _ _ Hk) as Hok. simpl in Hok. discriminate.
Qed.

Definition trace_early : list clabel :=
  [L_P Col_lock; L_P Col_check;     (* connectLoop is inside Catch: a rendezvous attempt is in flight *)
   L_SessDies;                      (* the session dies *)
   L_Close; L_Stream 0].            (* non-vacuity: a state with a dead session, a rendezvous in flight and a Close that has not begun *)
Definition trace_dead_then_close : list clabel :=
  [L_P Col_lock; L_P Col_check; L_P Catch_ok; L_P Col_push; L_P Col_send; L_P Col_unlock; L_P Col_return;
   L_P Col_lock; L_P Col_check; L_SessDies; L_Close; L_Close].

