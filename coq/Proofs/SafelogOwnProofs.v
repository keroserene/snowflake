(* SafelogOwnProofs.v — LogScrubber.Write keeps no reference to the caller's slice (Model/SafelogOwn.v):
   for the copying writer the sink's content and the pending bytes are a function of the byte VALUES handed to the
   Write calls, whatever the caller does to its memory between the calls; a writer that keeps a view of the
   caller's array is refuted by a caller that refills one array (io.Copy, bufio.Writer, os/exec). *)
From Coq Require Import List NArith Arith.
From Coq Require String.
Import String.StringSyntax.
From Snow Require Import Lib.Wire Model.Scrub Model.SafelogOwn.
From Snow Require Import Proofs.RegexProofs Proofs.ScrubProofs Proofs.C07Proofs Proofs.C07CoverProofs.
Import ListNotations.
Open Scope nat_scope.
Open Scope list_scope.

Section Own.
  Variable sc : bytes -> bytes.

  Lemma run_mem_own : forall h buf,
    run_mem (write_own sc) (Own buf) h =
      (fst (run_writes (write sc) buf (passed h)), Own (snd (run_writes (write sc) buf (passed h)))).
  Proof.
    induction h as [|[mem n] h IH]; intros buf; [reflexivity|].
    change (passed ((mem, n) :: h)) with (firstn n mem :: passed h).
    cbn [run_mem run_writes]. unfold write_own. cbn [deref].
    destruct (write sc buf (firstn n mem)) as [o r].
    rewrite IH. destruct (run_writes (write sc) r (passed h)) as [os bufn]. reflexivity.
  Qed.

  (* the writer's effect is that of the value-level writer on the bytes passed: no dependence on the caller's memory
     outside the slices, nor on what becomes of it after a call *)
  Theorem write_no_retention : forall h,
    run_mem (write_own sc) (Own []) h =
      (fst (run_writes (write sc) [] (passed h)), Own (snd (run_writes (write sc) [] (passed h)))).
  Proof. intros h; apply run_mem_own. Qed.

  Theorem write_values_only : forall h1 h2,
    concat (passed h1) = concat (passed h2) ->
    run_mem (write_own sc) (Own []) h1 = run_mem (write_own sc) (Own []) h2.
  Proof.
    intros h1 h2 E. rewrite !write_no_retention.
    rewrite (write_split_independent sc (passed h1) (passed h2) E). reflexivity.
  Qed.

  Lemma passed_scratch : forall cap poison ws, passed (scratch_history cap poison ws) = ws.
  Proof.
    intros cap poison ws. unfold passed, scratch_history. rewrite map_map.
    induction ws as [|w ws IH]; [reflexivity|].
    cbn [map fst snd]. f_equal; [|exact IH].
    rewrite firstn_app, firstn_all, Nat.sub_diag. cbn [firstn]. apply app_nil_r.
  Qed.

  (* the delivery of the Go driver (one scratch array, overwritten after every call) = the value-level writer *)
  Theorem run_scratch_spec : forall ws, run_scratch sc ws = run_writes (write sc) [] ws.
  Proof.
    intros ws. unfold run_scratch. rewrite write_no_retention, passed_scratch.
    destruct (run_writes (write sc) [] ws); reflexivity.
  Qed.
End Own.

(* the retaining writer on the frozen patterns ([sc2]), a caller that refills one array of 25 bytes: "up: " then
   "2001:db8::1 is reachable\n".
   The pending view (offset 0, 4 bytes) reads "2001" at the second call: the line handed to the scrubber is
   "20012001:db8::1 is reachable\n" and the address goes out whole. *)
Lemma retaining_writer_refuted :
  exists h pre w post junk,
    passed h = [pre; w ++ post] /\ (forall m n, In (m, n) h -> length m = 25) /\
    matches addr_spec w /\ left_ok pre /\ right_ok post /\
    fst (run_writes (write sc2) [] (passed h)) = [pre ++ scrubbed ++ post] /\
    fst (run_mem (write_own sc2) (Own []) h) = [pre ++ scrubbed ++ post] /\
    fst (run_mem (write_retain sc2) (Own []) h) = [junk ++ w ++ post].
Proof.
  exists (scratch_history 25 55%N [bs "up: "; bs "2001:db8::1" ++ bs " is reachable" ++ [NL]]),
         (bs "up: "), (bs "2001:db8::1"), (bs " is reachable" ++ [NL]), (bs "2001").
  split; [apply passed_scratch|].
  split.
  { intros m n [E|[E|[]]]; inversion E; reflexivity. }
  split; [apply spec_word; vm_compute; reflexivity|].
  split; [right; exists (bs "up:"), 32%N; split; reflexivity|].
  split; [right; exists 32%N, (bs "is reachable" ++ [NL]); split; reflexivity|].
  split; [vm_compute; reflexivity|].
  split; vm_compute; reflexivity.
Qed.
