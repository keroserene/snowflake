(* ScrubCoverProofs.v — COVERAGE: the replaced span contains the whole delimited address.

   Generic in a full pattern of the shape
        (^ | L')  ( group 1:  ( group g2: V | B | ( group g3: D1 | D2 | N ) )  P )  R
   (V dotted quad, B bracketed, D1/D2 the IPv6 alternatives with a dotted tail, N those without, P the
   optional port, R the right delimiter).  All side conditions are decidable and are discharged by
   computation on the GENERATED pattern in Proofs/C07CoverProofs.v.

   Why the alternation order matters: for a bare IPv6 address with a dotted tail such as ::ffff:1.2.3.4
   the alternatives N also match the prefix "::ffff" (port ":1", delimiter "."); Go's leftmost-first
   semantics prefers D1/D2, which can only end at or after the end of the address.  That is the only
   place where priority (rather than the languages of the parts) is needed, besides "^ before L'". *)
From Coq Require Import List NArith Bool Arith Lia.
From Snow Require Import Lib.Wire Lib.ListFacts Model.Regex Model.RegexIncl Model.RegexDisj Model.Scrub.
From Snow Require Import Proofs.RegexProofs Proofs.MatcherProofs Proofs.RegexDisjProofs Proofs.ScrubProofs.
Import ListNotations.
Open Scope nat_scope.

Definition anyc (c : re) : re := Star (Cls (ranges c)).
(* a word of x, then a delimiter byte, then any symbols that occur in words of c *)
Definition after (x c : re) : re := Seq x (Seq delim_spec (anyc c)).

Definition is_digit (c : N) : bool := in_cls c [(48, 57)]%N.

(* the occurrence of w continues a dotted run: w is a dotted quad (with or without port) and the text
   before it ends with a decimal digit and '.' *)
Definition dotted_run (pre w : bytes) : Prop :=
  matches v4forms w /\ exists pre' d, pre = pre' ++ [d; 46%N] /\ is_digit d = true.

(* the exception to full coverage: the address ends with ':' and whitespace follows *)
Definition colon_ws (w post : bytes) : Prop :=
  (exists w', w = w' ++ [58%N]) /\ exists z post', post = z :: post' /\ is_ws z = true.

(* what [disj c (after x c)] excludes: a word of x that ends at a delimiter inside a word of c *)
Lemma after_excluded : forall x c v d v2, disj c (after x c) = true ->
  matches c (v ++ d :: v2) -> matches x v -> is_delim d = true -> False.
Proof.
  intros x c v d v2 K Hc Hx Hd. apply (disj_sound _ _ K _ Hc). unfold after. constructor; [exact Hx|].
  change (d :: v2) with ([d] ++ v2). constructor.
  - constructor. exact Hd.
  - apply star_any. intros e He. apply (matches_in_ranges _ _ Hc).
    apply in_or_app; right; right; exact He.
Qed.

Ltac cls_arith :=
  cbn [in_cls] in *; rewrite ?orb_false_r in *;
  repeat rewrite orb_true_iff in *; repeat rewrite andb_true_iff in *;
  repeat rewrite N.leb_le in *; lia.

Lemma delim_nodot : forall e, is_delim e = true -> e <> 46%N -> in_cls e delim_nodot_cls = true.
Proof.
  intros e H Hne. unfold is_delim, delim_cls, delim_nodot_cls in *. cls_arith.
Qed.

Lemma nondigit_cls_ok : forall e, is_digit e = false -> (e <= 255)%N -> in_cls e nondigit_cls = true.
Proof.
  intros e H Hb. unfold is_digit, nondigit_cls in *. cbn [in_cls] in H. rewrite orb_false_r in H.
  apply andb_false_iff in H. rewrite !N.leb_gt in H. cls_arith.
Qed.

Lemma in_bounded_cls : forall m e rs, forallb (fun rg : N * N => (snd rg <=? m)%N) rs = true ->
  in_cls e rs = true -> (e <= m)%N.
Proof.
  intros m e rs Hb He. destruct (in_cls_exists _ _ He) as ([lo hi] & Hin & Hr).
  rewrite forallb_forall in Hb. specialize (Hb _ Hin). unfold in_rng in Hr. simpl in *.
  apply andb_true_iff in Hr. destruct Hr as [_ Hr]. apply N.leb_le in Hr, Hb. lia.
Qed.

Lemma is_ws_cases : forall z, is_ws z = true -> In z [9; 10; 12; 13; 32]%N.
Proof.
  intros z H. unfold is_ws, ws_cls in H. simpl. cls_arith.
Qed.

Lemma right_spec_inv : forall x, matches right_spec x ->
  (exists d, x = [d] /\ is_delim d = true) \/ (exists z, x = [58%N; z] /\ is_ws z = true).
Proof.
  intros x H. unfold right_spec in H. apply matches_alt_inv in H. destruct H as [H|H].
  - left. apply matches_cls_inv in H. destruct H as (d & E & Hd). exists d; split; auto.
  - right. apply matches_seq_inv in H. destruct H as (w1 & w2 & E & H1 & H2).
    apply matches_cls_inv in H1. destruct H1 as (c & E1 & Hc).
    apply matches_cls_inv in H2. destruct H2 as (z & E2 & Hz). subst.
    assert (c = 58%N) by cls_arith. subst.
    exists z; split; auto.
Qed.

Lemma matches_alts : forall l w, matches (alts l) w <-> exists r, In r l /\ matches r w.
Proof.
  induction l as [|x [|y t] IH]; intros w.
  - split; [intros H; destruct (matches_emp _ H) | intros (r & [] & _)].
  - split; [exists x; simpl; auto | intros (r & [<-|[]] & H); exact H].
  - change (alts (x :: y :: t)) with (Alt x (alts (y :: t))). split.
    + intros H. apply matches_alt_inv in H. destruct H as [H|H]; [exists x; simpl; auto|].
      apply IH in H. destruct H as (r & Hin & H). exists r. split; [right; exact Hin | exact H].
    + intros (r & [<-|Hin] & H); [apply MAltL; exact H|]. apply MAltR, IH. exists r. auto.
Qed.

(* an alternation lies in the union of two alternations that share out its members *)
Lemma alts_split : forall l l1 l2, (forall r, In r l -> In r l1 \/ In r l2) ->
  forall w, matches (alts l) w -> matches (alts l1) w \/ matches (alts l2) w.
Proof.
  intros l l1 l2 Hl w H. apply matches_alts in H. destruct H as (r & Hin & H).
  destruct (Hl r Hin); [left|right]; apply matches_alts; exists r; auto.
Qed.

Lemma addr_spec_inv : forall w, matches addr_spec w ->
  matches v4forms w \/ matches ip6_spec w \/ matches bracketed w.
Proof.
  intros w H. apply matches_alts in H. destruct H as (r & [<-|[<-|[<-|[<-|[<-|[]]]]]] & H).
  - left. apply MAltL, H.
  - left. apply MAltR, H.
  - right. left. exact H.
  - right. right. apply MAltL, H.
  - right. right. apply MAltR, H.
Qed.

Lemma ip6_spec_inv : forall w, matches ip6_spec w -> matches ip6_nodot w \/ matches bare_v4tail w.
Proof. apply alts_split. intros r. rewrite !in_app_iff. cbn [In]. tauto. Qed.

(* addr_spec = rest_spec + bare_v4tail = v4forms + nonv4_spec: the same alternatives, regrouped *)
Lemma addr_spec_split1 : forall w, matches addr_spec w -> matches rest_spec w \/ matches bare_v4tail w.
Proof.
  intros w H. unfold rest_spec. cbn [alts].
  destruct (addr_spec_inv w H) as [H1|[H1|H1]]; [left; apply MAltL, H1| |left; apply MAltR, MAltR, H1].
  destruct (ip6_spec_inv w H1) as [H2|H2]; [left; apply MAltR, MAltL, H2 | right; exact H2].
Qed.

Lemma addr_spec_split2 : forall w, matches addr_spec w -> matches v4forms w \/ matches nonv4_spec w.
Proof.
  intros w H. destruct (addr_spec_inv w H) as [H1|[H1|H1]]; [left; exact H1 | right; apply MAltL, H1 | right; apply MAltR, H1].
Qed.

Lemma addr_spec_ws_free : forallb (fun z => sym_free z addr_spec) [9; 10; 12; 13; 32]%N = true.
Proof. vm_compute. reflexivity. Qed.

Lemma no_ws_in_addr : forall w z, matches addr_spec w -> is_ws z = true -> ~ In z w.
Proof.
  intros w z Hw Hz. apply is_ws_cases in Hz.
  exact (matches_sym_free z _ _ Hw (proj1 (forallb_forall _ _) addr_spec_ws_free z Hz)).
Qed.

Lemma bt_seq : forall a b s p c k, bt (Seq a b) s p c k = bt a s p c (fun s' p' c' => bt b s' p' c' k).
Proof. reflexivity. Qed.
Lemma bt_grp : forall g a s p c k,
  bt (Grp g a) s p c k = bt a s p c (fun s' p' c' => k s' p' ((g, (p, p')) :: c')).
Proof. reflexivity. Qed.
Lemma bt_alt_inv : forall a b s p c k res, bt (Alt a b) s p c k = Some res ->
  bt a s p c k = Some res \/ (bt a s p c k = None /\ bt b s p c k = Some res).
Proof. intros a b s p c k res H. cbn [bt] in H. destruct (bt a s p c k); auto. Qed.
Lemma bt_bol_0 : forall b s c k,
  bt (Alt Bol b) s 0 c k = match k s 0 c with Some x => Some x | None => bt b s 0 c k end.
Proof. reflexivity. Qed.

Section Shape.
  Variables L' V B D1 D2 Nn P R : re.
  Variables g2 g3 : nat.
  Definition cL : re := Alt Bol L'.
  Definition cA : re := Seq (Grp g2 (Alt V (Alt B (Grp g3 (Alt D1 (Alt D2 Nn)))))) P.
  Definition cAdot : re := Seq (Alt V (Alt B (Alt D1 D2))) P.
  Definition cfull : re := Seq cL (Seq (Grp 1 cA) R).
End Shape.

Section Cover.
  Variables L' V B D1 D2 Nn P R : re.
  Variables g2 g3 : nat.
  Local Notation cL := (cL L').
  Local Notation cA := (cA V B D1 D2 Nn P g2 g3).
  Local Notation cAdot := (cAdot V B D1 D2 P).
  Local Notation cfull := (cfull L' V B D1 D2 Nn P R g2 g3).
  Local Notation kA := (kA R).
  Local Notation POK := (POK R).

  Hypothesis Hok : loop_ok cL cA R.
  Hypothesis HinclA : forall w, matches addr_spec w -> matches cA w.
  Hypothesis HbyteA : forallb (fun rg : N * N => (snd rg <=? 255)%N) (ranges cA) = true.
  Hypothesis HnullP : nullable P = true.
  Hypothesis HafRs : anchor_free (strip_top_eol R) = true.
  Hypothesis HinclR : RegexIncl.incl (strip_top_eol R) right_spec = true.
  Hypothesis K2 : disj rest_spec (after cA rest_spec) = true.
  Hypothesis K3 : RegexIncl.incl bare_v4tail (Alt D1 D2) = true.
  Hypothesis K4 : disj bare_v4tail (after cAdot bare_v4tail) = true.
  Hypothesis K5 : disj addr_spec (after (nonnull (tail_after delim_nodot_cls cA)) addr_spec) = true.
  Hypothesis K6 : disj nonv4_spec (after (nonnull (tail_after dot_cls cA)) nonv4_spec) = true.
  (* no word of A begins with '.', nor does what may follow a non-digit inside one *)
  Hypothesis K7a : deriv 46%N cA = Emp.
  Hypothesis K7b : deriv 46%N (tail_after nondigit_cls cA) = Emp.

  (* the continuations along the path to the alternatives *)
  Definition kP (pa : nat) : cont := fun s' p' c' => bt P s' p' c' (kA pa).
  Definition kG (pa : nat) : cont := fun s' p' c' => kP pa s' p' ((g2, (pa, p')) :: c').
  Definition kS (pa : nat) : cont := fun s' p' c' => kG pa s' p' ((g3, (pa, p')) :: c').

  Lemma sf_parts : star_free P = true /\ star_free V = true /\ star_free B = true /\
                   star_free D1 = true /\ star_free D2 = true /\ star_free Nn = true.
  Proof. pose proof (ok_sfA Hok) as H. simpl in H. rewrite !andb_true_iff in H. tauto. Qed.

  Lemma af_parts : anchor_free P = true /\ anchor_free V = true /\ anchor_free B = true /\
                   anchor_free D1 = true /\ anchor_free D2 = true /\ anchor_free Nn = true.
  Proof. pose proof (ok_afA Hok) as H. simpl in H. rewrite !andb_true_iff in H. tauto. Qed.

  Lemma kP_complete : forall pa s2 p2 c2, POK s2 -> kP pa s2 p2 c2 <> None.
  Proof.
    intros pa s2 p2 c2 Hp. unfold kP.
    assert (Hm : matches P []) by (apply nullable_correct; exact HnullP).
    destruct (matches_ms P [] Hm s2 p2 c2) as [c1 M]. simpl in M.
    exact (bt_complete _ _ _ _ _ _ _ M (proj1 sf_parts) _ (kA_complete cL cA R Hok _ _ _ _ Hp)).
  Qed.

  Lemma bt_A_complete : forall w post p c, matches cA w -> POK post -> bt cA (w ++ post) p c (kA p) <> None.
  Proof.
    intros w post p c Hw Hp.
    destruct (matches_ms cA w Hw post p c) as [c1 M].
    exact (bt_complete _ _ _ _ _ _ _ M (ok_sfA Hok) _ (kA_complete cL cA R Hok _ _ _ _ Hp)).
  Qed.

  (* what follows a successful alternative: the optional port, then the right delimiter *)
  Lemma kP_sound : forall pa s2 p2 c2 en cs,
    kP pa s2 p2 c2 = Some (en, cs) ->
    exists wP sb cx s3 c3,
      s2 = wP ++ sb /\ matches P wP /\
      ms R sb (p2 + length wP) cx s3 en c3 /\
      cap_lookup 1 cs = Some (pa, p2 + length wP).
  Proof.
    intros pa s2 p2 c2 en cs H.
    destruct (bt_sound_matches _ _ _ _ _ _ (proj1 af_parts) H) as (wP & sb & cp & -> & MP & Hk).
    destruct (kA_sound cL cA R Hok _ _ _ _ _ _ Hk) as (Hcap & s3 & c3 & MR).
    exists wP, sb, ((1, (pa, p2 + length wP)) :: cp), s3, c3. auto.
  Qed.

  (* the address part wA of a match from pa on, and the rest sb on which the right delimiter has matched; either wA
     avoids the alternatives without a dotted tail, or those with one have failed at pa, with this continuation *)
  Definition addr_part (pa en : nat) (cs : caps) (wA sb : bytes) : Prop :=
    wA <> [] /\ matches cA wA /\ cap_lookup 1 cs = Some (pa, pa + length wA) /\
    (exists cx s3 c3, ms R sb (pa + length wA) cx s3 en c3) /\
    (matches cAdot wA \/
     forall wD rest, matches (Alt D1 D2) wD -> wA ++ sb = wD ++ rest -> POK rest -> False).

  Lemma cover_alts : forall sa pa ca en cs, bt cA sa pa ca (kA pa) = Some (en, cs) ->
    exists wA sb, sa = wA ++ sb /\ addr_part pa en cs wA sb.
  Proof.
    intros sa pa ca en cs HA. unfold cA in HA. rewrite bt_seq, bt_grp in HA.
    change (bt (Alt V (Alt B (Grp g3 (Alt D1 (Alt D2 Nn))))) sa pa ca (kG pa) = Some (en, cs)) in HA.
    destruct af_parts as (HafP & HafV & HafB & HafD1 & HafD2 & HafN).
    (* an alternative X has matched wX and the rest of the pattern has succeeded *)
    assert (Hfin : forall X wX s2 c2,
              sa = wX ++ s2 -> matches X wX ->
              kP pa s2 (pa + length wX) c2 = Some (en, cs) ->
              (forall w, matches X w -> matches (Alt V (Alt B (Grp g3 (Alt D1 (Alt D2 Nn))))) w) ->
              (matches (Alt V (Alt B (Alt D1 D2))) wX \/
               forall wD rest, matches (Alt D1 D2) wD -> sa = wD ++ rest -> POK rest -> False) ->
              exists wA sb, sa = wA ++ sb /\ addr_part pa en cs wA sb).
    { intros X wX s2 c2 -> MX HkP Hin Hprio.
      destruct (kP_sound _ _ _ _ _ _ HkP) as (wP & sb & cx & s3 & c3 & -> & MP & MR & Hcap).
      assert (MA : matches cA (wX ++ wP)) by (constructor; [constructor; apply Hin, MX | exact MP]).
      exists (wX ++ wP), sb. unfold addr_part. rewrite app_length, Nat.add_assoc, <- app_assoc.
      split; [reflexivity|]. split.
      { intros Hnil. rewrite Hnil in MA. apply nullable_correct in MA.
        rewrite (ok_nullA Hok) in MA. discriminate. }
      split; [exact MA|]. split; [exact Hcap|]. split; [eauto|].
      destruct Hprio as [Hd|Hn]; [left; constructor; auto | right; exact Hn]. }
    apply bt_alt_inv in HA. destruct HA as [HV|[_ HA]].
    { destruct (bt_sound_matches _ _ _ _ _ _ HafV HV) as (wX & s2 & c2 & E & MX & Hk).
      apply (Hfin V wX s2 _ E MX Hk); [intros w Hw|left]; apply MAltL; auto. }
    apply bt_alt_inv in HA. destruct HA as [HB|[_ HA]].
    { destruct (bt_sound_matches _ _ _ _ _ _ HafB HB) as (wX & s2 & c2 & E & MX & Hk).
      apply (Hfin B wX s2 _ E MX Hk); [intros w Hw|left]; apply MAltR, MAltL; auto. }
    rewrite bt_grp in HA.
    change (bt (Alt D1 (Alt D2 Nn)) sa pa ca (kS pa) = Some (en, cs)) in HA.
    apply bt_alt_inv in HA. destruct HA as [HD1|[HnoD1 HA]].
    { destruct (bt_sound_matches _ _ _ _ _ _ HafD1 HD1) as (wX & s2 & c2 & E & MX & Hk).
      apply (Hfin D1 wX s2 _ E MX Hk).
      - intros w Hw. apply MAltR, MAltR. constructor. apply MAltL; auto.
      - left. apply MAltR, MAltR, MAltL; auto. }
    apply bt_alt_inv in HA. destruct HA as [HD2|[HnoD2 HA]].
    { destruct (bt_sound_matches _ _ _ _ _ _ HafD2 HD2) as (wX & s2 & c2 & E & MX & Hk).
      apply (Hfin D2 wX s2 _ E MX Hk).
      - intros w Hw. apply MAltR, MAltR. constructor. apply MAltR, MAltL; auto.
      - left. apply MAltR, MAltR, MAltR; auto. }
    (* the alternatives without a dotted tail: D1 and D2 have failed with this continuation *)
    destruct (bt_sound_matches _ _ _ _ _ _ HafN HA) as (wX & s2 & c2 & E & MX & Hk).
    apply (Hfin Nn wX s2 _ E MX Hk).
    - intros w Hw. apply MAltR, MAltR. constructor. apply MAltR, MAltR; auto.
    - right. intros wD rest HD Esa Hp.
      destruct sf_parts as (_ & _ & _ & HsfD1 & HsfD2 & _).
      assert (Hfail : forall D, star_free D = true -> matches D wD -> bt D sa pa ca (kS pa) = None -> False).
      { intros D HsfD HmD Hnone.
        destruct (matches_ms D wD HmD rest pa ca) as [c1 M1]. rewrite <- Esa in M1.
        exact (bt_complete _ _ _ _ _ _ _ M1 HsfD (kS pa) (kP_complete _ _ _ _ Hp) Hnone). }
      apply matches_alt_inv in HD.
      destruct HD as [HD|HD]; [exact (Hfail D1 HsfD1 HD HnoD1) | exact (Hfail D2 HsfD2 HD HnoD2)].
  Qed.

  (* the shape of a successful attempt at position k: a left delimiter wL, which is empty at position 0
     whenever the address part can be matched there (^ is tried first), then the address part *)
  Lemma cover_shape : forall s0 k en cs,
    match_here cfull s0 k = Some (en, cs) ->
    exists wL wA sb,
      s0 = wL ++ wA ++ sb /\ length wL <= 1 /\ addr_part (k + length wL) en cs wA sb /\
      (k = 0 -> bt cA s0 0 [] (kA 0) <> None -> wL = []).
  Proof.
    intros s0 k en cs H.
    assert (HL : exists wL sa ca, s0 = wL ++ sa /\ length wL <= 1 /\
                   bt cA sa (k + length wL) ca (kA (k + length wL)) = Some (en, cs) /\
                   (k = 0 -> bt cA s0 0 [] (kA 0) <> None -> wL = [])).
    { destruct (match_here_left cL cA R Hok _ _ _ H) as (wL & sa & ca & E & HwL & HA).
      destruct k as [|k']; [|exists wL, sa, ca; repeat split; auto; discriminate].
      unfold match_here, cfull, cL in H. rewrite bt_seq, bt_bol_0 in H. cbv beta in H.
      change (bt (Seq (Grp 1 cA) R) s0 0 [] kdone) with (bt cA s0 0 [] (kA 0)) in H.
      destruct (bt cA s0 0 [] (kA 0)) as [x|] eqn:E0.
      - injection H as ->. exists [], s0, []. repeat split; auto.
      - exists wL, sa, ca. repeat split; auto. intros _ Hne. destruct (Hne eq_refl). }
    destruct HL as (wL & sa & ca & -> & HwL & HA & Hprio).
    destruct (cover_alts _ _ _ _ _ HA) as (wA & sb & -> & Hpart). exists wL, wA, sb. auto.
  Qed.

  (* the right delimiter on a non-empty rest: one delimiter byte, or ':' and whitespace *)
  Lemma r_head : forall sb pb cx s3 en c3,
    ms R sb pb cx s3 en c3 -> sb <> [] ->
    exists x, sb = x ++ s3 /\ matches right_spec x.
  Proof.
    intros sb pb cx s3 en c3 M Hne.
    apply ms_strip_eol in M; auto.
    destruct (ms_word _ _ _ _ _ _ _ M) as (x & E & _ & Mx).
    exists x; split; [exact E|]. exact (incl_sound _ _ HinclR _ (Mx HafRs)).
  Qed.

  (* no match covers only a part of a delimited address (up to the colon exception) *)
  Lemma no_partial : forall X u v v' post wA sb pa en cs,
    (* the text is  X ++ u ++ (v ++ v') ++ post ; the address part of the match is wA = u ++ v *)
    matches addr_spec (v ++ v') -> v <> [] -> v' <> [] ->
    left_ok (X ++ u) -> right_ok post -> ~ dotted_run (X ++ u) (v ++ v') ->
    wA = u ++ v -> sb = v' ++ post -> addr_part pa en cs wA sb ->
    v' = [58%N] /\ exists z post', post = z :: post' /\ is_ws z = true.
  Proof.
    intros X u v v' post wA sb pa en cs Hw Hv Hv' Hl Hr Hnd EwA Esb (_ & MA & _ & (cx & s3 & c3 & MR) & Hprio).
    assert (Hsbne : sb <> []) by (subst sb; destruct v'; [contradiction|discriminate]).
    destruct (r_head _ _ _ _ _ _ MR Hsbne) as (x & Ex & Mx).
    destruct (right_spec_inv _ Mx) as [(d & Exd & Hd)|(z & Exz & Hz)]; subst x.
    - (* a delimiter byte inside the address: impossible *)
      exfalso. destruct v' as [|d' v2]; [contradiction|].
      subst sb. simpl in Ex. inversion Ex; subst d'. clear Ex.
      destruct u as [|e0 u0] using rev_ind.
      + (* the match starts where the address starts *)
        simpl in EwA. subst wA.
        destruct (addr_spec_split1 _ Hw) as [Hc|Hc].
        * exact (after_excluded _ _ _ _ _ K2 Hc MA Hd).
        * destruct Hprio as [Hdot|Hno].
          -- exact (after_excluded _ _ _ _ _ K4 Hc Hdot Hd).
          -- apply (Hno (v ++ d :: v2) post).
             ++ exact (incl_sound _ _ K3 _ Hc).
             ++ rewrite <- app_assoc. reflexivity.
             ++ exact (right_ok_POK cL cA R Hok post Hr).
      + (* the match starts before the address and runs across the delimiter e0 *)
        clear IHu0.
        assert (He0 : is_delim e0 = true).
        { destruct Hl as [Hn|(pre' & d0 & Ep & Hd0)].
          - destruct X; destruct u0; discriminate.
          - rewrite app_assoc in Ep. apply app_inj_tail in Ep. destruct Ep as [_ Ee]. subst; auto. }
        assert (MA' : matches cA (u0 ++ e0 :: v)).
        { subst wA. rewrite <- app_assoc in MA. exact MA. }
        destruct (N.eq_dec e0 46%N) as [Edot|Edot].
        * subst e0.
          destruct (addr_spec_split2 _ Hw) as [Hc|Hc].
          -- (* dotted quad after "." *)
             destruct u0 as [|e1 u1] using rev_ind.
             ++ simpl in MA'. apply deriv_correct in MA'. rewrite K7a in MA'. exact (matches_emp _ MA').
             ++ clear IHu1. destruct (is_digit e1) eqn:Edig.
                ** apply Hnd. split; auto. exists (X ++ u1), e1. split; auto.
                   rewrite <- !app_assoc. reflexivity.
                ** rewrite <- app_assoc in MA'. simpl in MA'.
                   assert (Hb1 : (e1 <= 255)%N).
                   { eapply in_bounded_cls; [exact HbyteA|]. eapply matches_in_ranges; [exact MA'|].
                     apply in_or_app; right; left; auto. }
                   pose proof (tail_after_sound nondigit_cls _ _ MA' u1 e1 (46%N :: v) eq_refl
                                 (nondigit_cls_ok _ Edig Hb1)) as Ht.
                   apply deriv_correct in Ht. rewrite K7b in Ht. exact (matches_emp _ Ht).
          -- pose proof (tail_after_sound dot_cls _ _ MA' u0 46%N v eq_refl eq_refl) as Ht.
             exact (after_excluded _ _ _ _ _ K6 Hc (nonnull_sound _ _ Ht Hv) Hd).
        * pose proof (tail_after_sound delim_nodot_cls _ _ MA' u0 e0 v eq_refl (delim_nodot _ He0 Edot)) as Ht.
          exact (after_excluded _ _ _ _ _ K5 Hw (nonnull_sound _ _ Ht Hv) Hd).
    - (* ':' and whitespace: the whitespace is not inside the address, so ':' is its last byte *)
      destruct v' as [|c1 v2]; [contradiction|]. subst sb. simpl in Ex. inversion Ex; subst c1.
      destruct v2 as [|c2 v3].
      + simpl in H1. split; auto. destruct post as [|z' post']; [discriminate|].
        inversion H1; subst. eauto.
      + exfalso. simpl in H1. inversion H1; subst c2.
        apply (no_ws_in_addr _ z Hw Hz). apply in_or_app; right; right; left; auto.
  Qed.

  Lemma dotted_run_skipn : forall n pre w, dotted_run (skipn n pre) w -> dotted_run pre w.
  Proof.
    intros n pre w (Hv & pre' & d & E & Hd). split; auto.
    exists (firstn n pre ++ pre'), d. split; auto.
    rewrite <- app_assoc, <- E. symmetry; apply firstn_skipn.
  Qed.

  Lemma loop_covers : forall fuel pre w post off,
    length (pre ++ w ++ post) < fuel ->
    matches addr_spec w -> left_ok pre -> right_ok post -> ~ dotted_run pre w ->
    exists a b, In (a, b) (spans fuel cfull (pre ++ w ++ post) off) /\
                a <= off + length pre /\
                (off + length pre + length w <= b \/
                 (b + 1 = off + length pre + length w /\ colon_ws w post)).
  Proof.
    induction fuel as [|f IH]; intros pre w post off Hfuel Hw Hl Hr Hnd; [lia|].
    pose proof (HinclA _ Hw) as HwA. pose proof (addr_spec_minlen _ Hw) as Hlen.
    destruct (first_match cL cA R Hok pre w post HwA Hl Hr) as (k & en & cs & Hs & Hk & Hm).
    destruct (cover_shape _ _ _ _ Hm) as (wL & wA & sb & Es0 & HwL & Hpart & HprioL).
    pose proof Hpart as (HwAne & _ & Hcap & _).
    assert (HwAlen : 1 <= length wA) by (destruct wA; [contradiction|simpl; lia]).
    (* the address part of the match does not start after the occurrence *)
    assert (Hgs : k + length wL <= length pre).
    { destruct pre as [|p0 pre0]; [|simpl in *; lia].
      assert (k = 0) by (simpl in Hk; lia). subst k.
      rewrite (HprioL eq_refl); [simpl; lia|].
      exact (bt_A_complete w post 0 [] HwA (right_ok_POK cL cA R Hok post Hr)). }
    set (gs := k + length wL) in *. set (ge := gs + length wA) in *.
    unfold cfull. rewrite spans_S, (scrub_step_intro _ _ _ _ _ _ _ Hs Hcap) by (unfold ge; lia).
    destruct (Nat.le_gt_cases ge (length pre)) as [Hbefore|Hover].
    - (* the replaced span ends before the occurrence: go on in the rest of the slice *)
      rewrite skipn_app_le by exact Hbefore.
      destruct (IH (skipn ge pre) w post (off + ge)) as (a & b & Hin & Ha & Hb); auto using left_ok_skipn.
      + rewrite !app_length in *. rewrite skipn_length. lia.
      + intros Hd. exact (Hnd (dotted_run_skipn _ _ _ Hd)).
      + exists a, b. split; [right; exact Hin|]. rewrite skipn_length in *.
        split; [lia|]. destruct Hb as [Hb|[Hb Hc]]; [left; lia|right; split; [lia|exact Hc]].
    - (* the replaced span reaches into the occurrence: it contains all of it *)
      exists (off + gs), (off + ge). split; [left; reflexivity|]. split; [lia|].
      destruct (Nat.le_gt_cases (length pre + length w) ge) as [Hall|Hpart']; [left; lia|].
      right.
      (* pre = X ++ u, wA = u ++ v, w = v ++ v', sb = v' ++ post *)
      assert (Hkle : k <= length (pre ++ w ++ post)) by (rewrite app_length; lia).
      assert (E1 : (firstn k (pre ++ w ++ post) ++ wL) ++ wA ++ sb = pre ++ w ++ post).
      { rewrite <- app_assoc, <- Es0. apply firstn_skipn. }
      assert (HX : length (firstn k (pre ++ w ++ post) ++ wL) = gs).
      { rewrite app_length, firstn_length_le by exact Hkle. reflexivity. }
      remember (firstn k (pre ++ w ++ post) ++ wL) as X eqn:EX. clear EX.
      destruct (app_eq_app_le _ _ _ _ E1) as (u & Epre & E2); [lia|].
      symmetry in E2.
      assert (Hu : length u + gs = length pre) by (rewrite Epre, app_length; lia).
      destruct (app_eq_app_le _ _ _ _ E2) as (v & EwA & E3); [unfold ge in Hover; lia|].
      assert (Hv : length wA = length u + length v) by (rewrite EwA, app_length; lia).
      symmetry in E3.
      destruct (app_eq_app_le _ _ _ _ E3) as (v' & Ew & E4); [unfold ge in Hpart'; lia|].
      assert (Hvne : v <> []) by (intros E; subst v; simpl in Hv; unfold ge in Hover; lia).
      assert (Hv'ne : v' <> []).
      { intros E; subst v'. rewrite app_nil_r in Ew. subst w. unfold ge in Hpart'. lia. }
      rewrite Epre in Hl, Hnd. rewrite Ew in Hw, Hnd.
      destruct (no_partial _ u v v' post wA sb _ _ _ Hw Hvne Hv'ne Hl Hr Hnd EwA E4 Hpart)
        as (Ev' & z & post' & Epost & Hz).
      subst v'. split.
      + rewrite Ew, app_length. simpl. unfold ge. lia.
      + split; [exists v; exact Ew|exists z, post'; auto].
  Qed.

  Theorem scrub1_covers : forall pre w post,
    matches addr_spec w -> left_ok pre -> right_ok post -> ~ dotted_run pre w ->
    exists a b, In (a, b) (spans (S (length (pre ++ w ++ post))) cfull (pre ++ w ++ post) 0) /\
                a <= length pre /\
                (length pre + length w <= b \/ (b + 1 = length pre + length w /\ colon_ws w post)).
  Proof.
    intros pre w post Hw Hl Hr Hnd. apply (loop_covers (S (length (pre ++ w ++ post))) pre w post 0); auto.
  Qed.
End Cover.

Lemma wf_spans_app_lb : forall sp1 off n a b sp2,
  wf_spans off n (sp1 ++ (a, b) :: sp2) -> off <= a /\ a < b.
Proof.
  induction sp1 as [|[a1 b1] sp1 IH]; intros off n a b sp2 H; simpl in H; inversion H; subst; auto.
  match goal with Hw : wf_spans b1 n _ |- _ => apply IH in Hw; lia end.
Qed.

(* the text before the span and the text after it are rendered independently *)
Lemma render_split : forall sp1 s off a b sp2,
  wf_spans off (off + length s) (sp1 ++ (a, b) :: sp2) ->
  render s off (sp1 ++ (a, b) :: sp2) =
    render (firstn (a - off) s) off sp1 ++ scrubbed ++ render (skipn (b - off) s) b sp2.
Proof.
  induction sp1 as [|[a1 b1] sp1 IH]; intros s off a b sp2 H; simpl.
  - reflexivity.
  - inversion H; subst.
    match goal with Hw : wf_spans b1 _ _ |- _ => rename Hw into Hrest end.
    destruct (wf_spans_app_lb _ _ _ _ _ _ Hrest) as [Hb1a Hab].
    rewrite (IH (skipn (b1 - off) s) b1 a b sp2).
    + rewrite firstn_firstn. replace (Nat.min (a1 - off) (a - off)) with (a1 - off) by lia.
      rewrite skipn_firstn_comm. replace (a - off - (b1 - off)) with (a - b1) by lia.
      rewrite skipn_add. replace (b1 - off + (b - b1)) with (b - off) by lia.
      rewrite <- !app_assoc. reflexivity.
    + rewrite skipn_length. replace (b1 + (length s - (b1 - off))) with (off + length s) by lia. exact Hrest.
Qed.
