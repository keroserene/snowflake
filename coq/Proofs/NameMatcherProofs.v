(* NameMatcherProofs.v — C06, the single decision.  Model/NameMatcher.v: suffix/prefix tests as "s = p ++ x", membership
   of the two kinds of matcher, IsSupersetOf is exactly inclusion of the accepted sets, what new_matcher makes of "^x$"
   and "x$".  Model/RelayCheck.v: the broker's verdict on a poll and the proxy's verdict on a relay URL as iffs. *)
From Coq Require Import List NArith Bool Arith Lia.
From Snow Require Import Lib.Wire Lib.WireFacts Model.NameMatcher Model.RelayCheck.
Import ListNotations.
Open Scope N_scope.

Lemma has_suffix_spec : forall s x : bytes, has_suffix s x = true <-> exists p, s = p ++ x.
Proof.
  intros s x. unfold has_suffix. split.
  - intro H. apply andb_true_iff in H. destruct H as [_ H]. apply beq_eq in H.
    exists (firstn (length s - length x) s).
    rewrite <- H at 2. symmetry. apply firstn_skipn.
  - intros [p ->]. apply andb_true_iff. split.
    + apply Nat.leb_le. rewrite app_length. lia.
    + apply beq_eq. rewrite app_length.
      replace (length p + length x - length x)%nat with (length p) by lia.
      rewrite skipn_app, skipn_all, Nat.sub_diag. reflexivity.
Qed.

Lemma has_prefix_spec : forall s p : bytes, has_prefix s p = true <-> exists r, s = p ++ r.
Proof.
  intros s p. unfold has_prefix. split.
  - intro H. apply andb_true_iff in H. destruct H as [_ H]. apply beq_eq in H.
    exists (skipn (length p) s). rewrite <- H at 1. symmetry. apply firstn_skipn.
  - intros [r ->]. apply andb_true_iff. split.
    + apply Nat.leb_le. rewrite app_length. lia.
    + apply beq_eq. rewrite firstn_app, firstn_all, Nat.sub_diag. cbn [firstn]. apply app_nil_r.
Qed.

Lemma has_suffix_nil : forall s, has_suffix s [] = true.
Proof. intro s. apply has_suffix_spec. exists s. symmetry. apply app_nil_r. Qed.

Lemma has_suffix_refl : forall s, has_suffix s s = true.
Proof. intro s. apply has_suffix_spec. exists []. reflexivity. Qed.

Lemma has_suffix_trans : forall s x y, has_suffix s x = true -> has_suffix x y = true -> has_suffix s y = true.
Proof.
  intros s x y H1 H2. apply has_suffix_spec in H1. apply has_suffix_spec in H2.
  destruct H1 as [p ->]. destruct H2 as [q ->]. apply has_suffix_spec.
  exists (p ++ q). apply app_assoc.
Qed.

Lemma trim_suffix_app : forall s x, trim_suffix (s ++ x) x = s.
Proof.
  intros s x. unfold trim_suffix.
  replace (has_suffix (s ++ x) x) with true
    by (symmetry; apply has_suffix_spec; exists s; reflexivity).
  rewrite app_length. replace (length s + length x - length x)%nat with (length s) by lia.
  rewrite firstn_app, firstn_all, Nat.sub_diag. cbn [firstn]. apply app_nil_r.
Qed.

Lemma trim_prefix_app : forall p r, trim_prefix (p ++ r) p = r.
Proof.
  intros p r. unfold trim_prefix.
  replace (has_prefix (p ++ r) p) with true
    by (symmetry; apply has_prefix_spec; exists r; reflexivity).
  rewrite skipn_app, skipn_all, Nat.sub_diag. reflexivity.
Qed.

Lemma trim_prefix_none : forall s p, has_prefix s p = false -> trim_prefix s p = s.
Proof. intros s p H. unfold trim_prefix. rewrite H. reflexivity. Qed.

Lemma trim_suffix_none : forall s x, has_suffix s x = false -> trim_suffix s x = s.
Proof. intros s x H. unfold trim_suffix. rewrite H. reflexivity. Qed.

Lemma is_member_exact : forall x s, is_member (mk_matcher true x) s = true <-> s = x.
Proof. intros x s. unfold is_member. cbn [m_exact m_suffix]. apply beq_eq. Qed.

Lemma is_member_suffix : forall x s, is_member (mk_matcher false x) s = true <-> exists p, s = p ++ x.
Proof. intros x s. unfold is_member. cbn [m_exact m_suffix]. apply has_suffix_spec. Qed.

Lemma is_member_own_suffix : forall m, is_member m (m_suffix m) = true.
Proof.
  intros [e x]. unfold is_member. cbn [m_exact m_suffix]. destruct e.
  - apply beq_refl.
  - apply has_suffix_refl.
Qed.

(* soundness, as in the property statement, for ALL matchers and ALL byte strings *)
Lemma superset_sound : forall a b s,
  is_superset_of a b = true -> is_member b s = true -> is_member a s = true.
Proof.
  intros [ea xa] [eb xb] s. unfold is_superset_of, is_member. cbn [m_exact m_suffix].
  destruct ea.
  - intros H Hb. apply andb_true_iff in H. destruct H as [Heb Hx]. subst eb.
    apply beq_eq in Hx. subst xb. exact Hb.
  - intros H Hb. destruct eb.
    + apply beq_eq in Hb. subst s. exact H.
    + eapply has_suffix_trans; eassumption.
Qed.

(* completeness: the judgement is exactly set inclusion *)
Lemma superset_complete : forall a b,
  (forall s, is_member b s = true -> is_member a s = true) -> is_superset_of a b = true.
Proof.
  intros [ea xa] [eb xb] H. unfold is_superset_of. cbn [m_exact m_suffix].
  pose proof (H xb (is_member_own_suffix (mk_matcher eb xb))) as H0.
  destruct ea.
  - apply is_member_exact in H0. subst xb. destruct eb.
    + cbn [andb]. apply beq_refl.
    + (* a suffix matcher accepts 0 :: xa as well, an exact matcher does not *)
      exfalso.
      assert (Hm : is_member (mk_matcher false xa) (0 :: xa) = true).
      { apply is_member_suffix. exists [0]. reflexivity. }
      apply H in Hm. apply is_member_exact in Hm.
      apply (f_equal (@length N)) in Hm. cbn [length] in Hm. lia.
  - unfold is_member in H0. cbn [m_exact m_suffix] in H0. exact H0.
Qed.

Lemma superset_iff_inclusion : forall a b,
  is_superset_of a b = true <-> (forall s, is_member b s = true -> is_member a s = true).
Proof.
  intros a b. split.
  - intros H s. apply superset_sound. exact H.
  - apply superset_complete.
Qed.

Lemma superset_refl : forall a, is_superset_of a a = true.
Proof. intro a. apply superset_complete. auto. Qed.

Lemma superset_trans : forall a b c,
  is_superset_of a b = true -> is_superset_of b c = true -> is_superset_of a c = true.
Proof.
  intros a b c H1 H2. apply superset_complete. intros s Hs.
  eapply superset_sound; [exact H1|]. eapply superset_sound; [exact H2|]. exact Hs.
Qed.

Lemma has_prefix_caret_cons : forall c r x, has_prefix (c :: r) [x] = (c =? x).
Proof.
  intros c r x. unfold has_prefix. cbn [length firstn beq Nat.leb].
  rewrite andb_true_r. reflexivity.
Qed.

(* "^x$"  ->  exact x  (for every x, also x = "", x containing ^ or $) *)
Lemma new_matcher_anchored : forall x, new_matcher (CARET :: x ++ [DOLLAR]) = mk_matcher true x.
Proof.
  intro x. unfold new_matcher.
  change (CARET :: x ++ [DOLLAR]) with ((CARET :: x) ++ [DOLLAR]).
  rewrite trim_suffix_app. cbn zeta.
  rewrite has_prefix_caret_cons, N.eqb_refl.
  change (CARET :: x) with ([CARET] ++ x). rewrite trim_prefix_app. reflexivity.
Qed.

Definition starts_with_caret (x : bytes) : bool :=
  match x with c :: _ => c =? CARET | [] => false end.

Lemma has_prefix_caret : forall x, has_prefix x [CARET] = starts_with_caret x.
Proof.
  intros [|c r].
  - reflexivity.
  - apply has_prefix_caret_cons.
Qed.

Lemma new_matcher_suffix : forall x, starts_with_caret x = false ->
  new_matcher (x ++ [DOLLAR]) = mk_matcher false x.
Proof.
  intros x Hx. unfold new_matcher. rewrite trim_suffix_app. cbn zeta.
  rewrite has_prefix_caret, Hx. rewrite trim_prefix_none by (rewrite has_prefix_caret; exact Hx).
  reflexivity.
Qed.

Definition rule_accepts (rule s : bytes) : bool := is_member (new_matcher rule) s.

Lemma is_valid_rule_spec : forall r, is_valid_rule r = true <-> exists x, r = x ++ [DOLLAR].
Proof. intro r. unfold is_valid_rule. apply has_suffix_spec. Qed.

Lemma broker_accepts_unfold : forall cfg pat,
  broker_accepts_poll cfg pat =
  is_superset_of (new_matcher (effective_pattern cfg pat)) (new_matcher (allowed_pattern cfg)).
Proof. intros cfg [p|]; reflexivity. Qed.

Lemma broker_accepts_iff_inclusion : forall cfg pat,
  broker_accepts_poll cfg pat = true <->
  (forall host, rule_accepts (allowed_pattern cfg) host = true ->
                rule_accepts (effective_pattern cfg pat) host = true).
Proof. intros cfg pat. rewrite broker_accepts_unfold. apply superset_iff_inclusion. Qed.

Lemma broker_rejects : forall cfg pat,
  is_superset_of (new_matcher (effective_pattern cfg pat)) (new_matcher (allowed_pattern cfg)) = false ->
  broker_accepts_poll cfg pat = false.
Proof. intros cfg pat H. rewrite broker_accepts_unfold. exact H. Qed.

Lemma check_ignores_pattern_when_unsupported : forall cfg p q,
  check_proxy_relay_pattern cfg p true = check_proxy_relay_pattern cfg q true.
Proof. intros. reflexivity. Qed.

(* an empty URL is never refused; a non-empty one is dialled exactly when host and scheme pass *)
Lemma proxy_relay_decision_eq : forall cfg raw scheme host,
  proxy_relay_decision cfg raw (Parsed scheme host) =
  if beq raw [] then DialConfigured
  else if is_member (new_matcher (relay_pattern cfg)) host && (allow_non_tls cfg || beq scheme WSS)
       then DialBrokerURL else Refuse.
Proof.
  intros cfg raw scheme host. unfold proxy_relay_decision.
  destruct (beq raw []), (is_member _ host), (allow_non_tls cfg), (beq scheme WSS); reflexivity.
Qed.

Lemma proxy_dial_broker_iff : forall cfg raw pu,
  proxy_relay_decision cfg raw pu = DialBrokerURL <->
  raw <> [] /\ exists scheme host, pu = Parsed scheme host
     /\ is_member (new_matcher (relay_pattern cfg)) host = true
     /\ (allow_non_tls cfg = true \/ scheme = WSS).
Proof.
  intros cfg raw [|scheme host].
  - split; [discriminate | intros (_ & s & h & E & _); discriminate].
  - rewrite proxy_relay_decision_eq, <- beq_neq. set (ok := _ && _).
    assert (Q : (exists s h, Parsed scheme host = Parsed s h /\ is_member (new_matcher (relay_pattern cfg)) h = true
                             /\ (allow_non_tls cfg = true \/ s = WSS)) <-> ok = true).
    { unfold ok. rewrite andb_true_iff, orb_true_iff, beq_eq. split; [intros (s & h & [= <- <-] & H); exact H | eauto]. }
    rewrite Q. destruct (beq raw []), ok; intuition discriminate.
Qed.

Lemma proxy_dial_configured_iff : forall cfg raw pu,
  proxy_relay_decision cfg raw pu = DialConfigured <-> raw = [] /\ pu <> ParseError.
Proof.
  intros cfg raw [|scheme host].
  - split; [discriminate | intros [_ H]; contradiction].
  - rewrite proxy_relay_decision_eq, <- beq_eq. destruct (beq raw []); [|destruct (_ && _)]; intuition discriminate.
Qed.
