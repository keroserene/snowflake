(* BrokerJournalProofs.v — the broker with the journal writer behind it (Model/BrokerJournal.v). Metrics and writer
   run independently of each other; every accepted poll is in exactly one emitted chunk or in the open sketch
   (every_poll_recorded, poll_in_current_chunk); the count over a window is the number of distinct masked addresses
   of the polls in the chunks inside it (window_counts_polls); failed_writes_broker says what is left of this when
   writes to the journal's sink fail. *)
From Coq Require Import List ZArith NArith Lia Bool Arith.
From Snow Require Import Lib.Wire Model.Metrics Model.Journal Model.BrokerJournal Proofs.JournalProofs.
Import ListNotations.
Open Scope Z_scope.

Section BrokerJournalProofs.
  Variable hash : Type.
  Variable mask : bytes -> hash.
  Variable heqb : hash -> hash -> bool.
  Hypothesis heqb_spec : forall a b, heqb a b = true <-> a = b.

  Notation brun := (brun hash mask heqb).
  Notation jrun := (jrun bytes hash mask heqb).
  Notation chunk_ok := (chunk_ok bytes hash mask heqb).
  Notation masks := (masks bytes hash mask).
  Notation sk_of := (sk_of hash heqb).

  Lemma in_sk_of : forall hs x, In x (sk_of hs) <-> In x hs.
  Proof. intros hs x. destruct (sk_of_spec hash heqb heqb_spec hs) as [_ M]. apply M. Qed.

  (* a state of two components, each moved by its own projection of the operations, runs componentwise *)
  Lemma fold_left_split {S A B O P Q} (pa : S -> A) (pb : S -> B) (ap : S -> O -> S)
      (fa : A -> P -> A) (fb : B -> Q -> B) (ma : O -> list P) (mb : O -> list Q) :
    (forall s o, pa (ap s o) = fold_left fa (ma o) (pa s)) -> (forall s o, pb (ap s o) = fold_left fb (mb o) (pb s)) ->
    forall ops s, pa (fold_left ap ops s) = fold_left fa (flat_map ma ops) (pa s) /\
                  pb (fold_left ap ops s) = fold_left fb (flat_map mb ops) (pb s).
  Proof.
    intros Ha Hb. induction ops as [|o ops IH]; intro s; cbn [fold_left flat_map]; [split; reflexivity|].
    rewrite !fold_left_app, <- Ha, <- Hb. apply IH.
  Qed.

  (* the two components evolve independently: the metrics state is [exec] of the metrics ops, the writer state is
     [jrun] of the Adds of the accepted polls (and the explicit flushes) — the writer never looks at the metrics *)
  Lemma brun_split_gen : forall ops s,
    b_m (brun ops s) = exec (flat_map mop_of ops) (b_m s) /\
    b_w (brun ops s) = jrun (flat_map jop_of ops) (b_w s).
  Proof.
    apply fold_left_split; intros s [now o|now]; cbn; try reflexivity. destruct (recorded o); reflexivity.
  Qed.

  Lemma brun_split : forall g t0 k ops,
    b_m (brun ops (binit hash g t0 k)) = exec (flat_map mop_of ops) (minit g) /\
    b_w (brun ops (binit hash g t0 k)) = jrun (flat_map jop_of ops) (new_writer t0 k).
  Proof. intros. apply (brun_split_gen ops (binit hash g t0 k)). Qed.

  (* clock readings of the whole history do not go backwards *)
  Fixpoint bmono (t : Z) (ops : list bop) : Prop :=
    match ops with [] => True | o :: r => t <= bop_time o /\ bmono (bop_time o) r end.

  Lemma mono_weaken : forall {A} ops t t', t <= t' -> mono A t' ops -> mono A t ops.
  Proof. intros A. destruct ops as [|o r]; intros t t' H M; cbn [mono] in *; [exact I | destruct M; split; [lia | assumption]]. Qed.

  Lemma bmono_mono : forall ops t, bmono t ops -> mono bytes t (flat_map jop_of ops).
  Proof.
    induction ops as [|o ops IH]; intros t H; cbn [flat_map bmono] in *; [exact I|].
    destruct H as [H1 H2]. specialize (IH _ H2).
    destruct o as [now o|now]; cbn [jop_of bop_time app] in *.
    - destruct (recorded o); cbn [app mono op_time].
      + split; [exact H1 | exact IH].
      + eapply mono_weaken; eauto.
    - cbn [mono op_time]. split; [exact H1 | exact IH].
  Qed.

  Lemma events_accepted : forall ops, flat_map (op_events bytes) (flat_map jop_of ops) = flat_map accepted ops.
  Proof.
    induction ops as [|o ops IH]; cbn [flat_map]; [reflexivity|]. rewrite flat_map_app, IH. f_equal.
    destruct o as [now o|now]; cbn [jop_of accepted]; [destruct (recorded o)|]; reflexivity.
  Qed.

  (* every accepted poll, in order, is in exactly one emitted chunk or in the open sketch; chunk i holds exactly the
     masked addresses of the polls of segment i, all of which happened inside the chunk's interval *)
  Lemma every_poll_recorded : forall g t0 k ops,
    bmono t0 ops ->
    let s := brun ops (binit hash g t0 k) in
    b_m s = exec (flat_map mop_of ops) (minit g) /\
    exists (segs : list (list (Z * bytes))) (open : list (Z * bytes)),
      concat segs ++ open = flat_map accepted ops /\
      Forall2 chunk_ok (w_out (b_w s)) segs /\
      w_cur (b_w s) = sk_of (masks open) /\
      Forall (fun e => w_last (b_w s) <= fst e) open /\
      tiled hash t0 (w_out (b_w s)) (w_last (b_w s)).
  Proof.
    intros g t0 k ops HM s. destruct (brun_split g t0 k ops) as [H1 H2]. split; [exact H1|].
    subst s. rewrite H2. rewrite <- events_accepted. apply partition. apply bmono_mono. exact HM.
  Qed.

  Lemma Forall2_in_r : forall (A B : Type) (R : A -> B -> Prop) l1 l2 y, Forall2 R l1 l2 -> In y l2 -> exists x, In x l1 /\ R x y.
  Proof.
    induction 1 as [|a b l1 l2 HR HF IH]; intro HI; [destruct HI|]. destruct HI as [->|HI].
    - exists a. split; [left; reflexivity | exact HR].
    - destruct (IH HI) as [x [Hx HRx]]. exists x. split; [right; exact Hx | exact HRx].
  Qed.

  (* pointwise: the address of an accepted poll at instant [now] is in a chunk whose interval contains [now], or in
     the still-open sketch started no later than [now] — whatever the metrics state was (no hypothesis on it) *)
  Lemma poll_in_current_chunk : forall g t0 k ops now o ad,
    bmono t0 ops -> In (At now o) ops -> recorded o = Some ad ->
    let w := b_w (brun ops (binit hash g t0 k)) in
    (exists c, In c (w_out w) /\ c_start c <= now <= c_end c /\ In (mask ad) (c_sk c)) \/
    (w_last w <= now /\ In (mask ad) (w_cur w)).
  Proof.
    intros g t0 k ops now o ad HM HI HR w.
    destruct (every_poll_recorded g t0 k ops HM) as [_ [segs [open [E [F2 [HC [HO _]]]]]]]. fold w in F2, HC, HO.
    assert (HA : In (now, ad) (flat_map accepted ops)).
    { apply in_flat_map. exists (At now o). split; [exact HI|]. cbn [accepted]. rewrite HR. left; reflexivity. }
    rewrite <- E in HA. apply in_app_or in HA. destruct HA as [HA|HA].
    - left. apply in_concat in HA. destruct HA as [seg [Hseg Hin]].
      destruct (Forall2_in_r _ _ _ _ _ _ F2 Hseg) as [c [Hc [Hsk [_ Hall]]]]. exists c. split; [exact Hc|].
      rewrite Forall_forall in Hall. specialize (Hall _ Hin). cbn [fst] in Hall. split; [exact Hall|].
      rewrite Hsk. rewrite in_sk_of. unfold JournalProofs.masks.
      apply in_map_iff. exists (now, ad). split; [reflexivity | exact Hin].
    - right. rewrite Forall_forall in HO. specialize (HO _ HA). cbn [fst] in HO. split; [exact HO|].
      rewrite HC. rewrite in_sk_of. unfold JournalProofs.masks.
      apply in_map_iff. exists (now, ad). split; [reflexivity | exact HA].
  Qed.

  Lemma Forall2_in_l : forall (A B : Type) (R : A -> B -> Prop) l1 l2 x, Forall2 R l1 l2 -> In x l1 -> exists y, In (x, y) (combine l1 l2) /\ R x y.
  Proof.
    induction 1 as [|a b l1 l2 HR HF IH]; intro HI; [destruct HI|]. cbn [combine]. destruct HI as [->|HI].
    - exists b. split; [left; reflexivity | exact HR].
    - destruct (IH HI) as [y [Hy HRy]]. exists y. split; [right; exact Hy | exact HRy].
  Qed.

  Lemma Forall2_combine : forall (A B : Type) (R : A -> B -> Prop) l1 l2 x y, Forall2 R l1 l2 -> In (x, y) (combine l1 l2) -> R x y.
  Proof.
    induction 1 as [|a b l1 l2 HR HF IH]; cbn [combine]; intro HI; [destruct HI|]. destruct HI as [HI|HI].
    - inversion HI; subst. exact HR.
    - exact (IH HI).
  Qed.

  (* the window count of the journal a broker history produced: the number of distinct masked addresses of the
     accepted polls of the segments whose chunk lies inside the window *)
  Lemma window_counts_polls : forall g t0 k ops from to,
    bmono t0 ops ->
    let w := b_w (brun ops (binit hash g t0 k)) in
    exists (segs : list (list (Z * bytes))) (open : list (Z * bytes)) (l : list hash),
      concat segs ++ open = flat_map accepted ops /\
      Forall2 chunk_ok (w_out w) segs /\
      NoDup l /\
      fst (count hash heqb from to (w_out w)) = N.of_nat (length l) /\
      (forall x, In x l <-> exists c seg e, In (c, seg) (combine (w_out w) segs) /\
                                             from <= c_start c /\ c_end c <= to /\ In e seg /\ x = mask (snd e)).
  Proof.
    intros g t0 k ops from to HM w.
    destruct (every_poll_recorded g t0 k ops HM) as [_ [segs [open [E [F2 _]]]]]. fold w in F2.
    destruct (window hash heqb heqb_spec from to (w_out w)) as [l [ND [HL [HN _]]]].
    exists segs, open, l. split; [exact E|]. split; [exact F2|]. split; [exact ND|]. split; [exact HN|].
    intro x. rewrite HL. split.
    - intros [c [Hc [Ha [Hb Hx]]]]. destruct (Forall2_in_l _ _ _ _ _ _ F2 Hc) as [seg [Hcs [Hsk _]]].
      rewrite Hsk in Hx. rewrite in_sk_of in Hx. unfold JournalProofs.masks in Hx.
      apply in_map_iff in Hx. destruct Hx as [e [He1 He2]]. exists c, seg, e. repeat split; auto.
    - intros [c [seg [e [Hcs [Ha [Hb [He Hx]]]]]]]. exists c. split; [eapply in_combine_l; exact Hcs|].
      split; [exact Ha|]. split; [exact Hb|]. destruct (Forall2_combine _ _ _ _ _ _ _ F2 Hcs) as [Hsk _].
      rewrite Hsk. rewrite in_sk_of. unfold JournalProofs.masks. apply in_map_iff.
      exists e. split; [symmetry; exact Hx | exact He].
  Qed.

  (* the broker with a journal sink that may fail *)
  Notation bfrun := (bfrun hash mask heqb).
  Notation fjrun := (fjrun bytes hash mask heqb).

  Lemma bfrun_split_gen : forall ops s,
    bf_m (bfrun ops s) = exec (flat_map mop_of ops) (bf_m s) /\
    bf_w (bfrun ops s) = fjrun (flat_map jop_of ops) (bf_w s).
  Proof.
    apply fold_left_split; intros s [now o|now]; cbn; try reflexivity. destruct (recorded o); reflexivity.
  Qed.

  (* whatever writes fail: the metrics are untouched by the journal, every chunk that can be read back holds only
     addresses of accepted polls whose instants lie inside the chunk's recording span, the open sketch holds polls
     no older than the last write taken for successful, and nothing is lost while no line of the file was damaged *)
  Lemma failed_writes_broker : forall g t0 k plan ops,
    bmono t0 ops ->
    let s := bfrun ops (bfinit hash g t0 k plan) in
    let polls := flat_map accepted ops in
    bf_m s = exec (flat_map mop_of ops) (minit g) /\
    (forall c, In (Some c) (file_of (bf_w s)) ->
       exists seg, c_sk c = sk_of (masks seg) /\ c_start c <= c_end c /\
                   Forall (fun e => c_start c <= fst e <= c_end c) seg /\ incl seg polls) /\
    (exists open, f_cur (bf_w s) = sk_of (masks open) /\ Forall (fun e => f_last (bf_w s) <= fst e) open /\ incl open polls /\
       (readable (f_lines (bf_w s)) = true ->
        forall e, In e polls -> In e open \/
          exists c seg, In (Some c) (f_lines (bf_w s)) /\ c_sk c = sk_of (masks seg) /\ In e seg /\
                        c_start c <= fst e <= c_end c)).
  Proof.
    intros g t0 k plan ops HM s polls.
    destruct (bfrun_split_gen ops (bfinit hash g t0 k plan)) as [H1 H2]. fold s in H1, H2. cbn [bfinit bf_m bf_w] in H1, H2.
    split; [exact H1|]. rewrite H2. unfold polls. rewrite <- events_accepted.
    apply (failed_writes bytes hash mask heqb t0 k plan (flat_map jop_of ops)). apply bmono_mono. exact HM.
  Qed.
End BrokerJournalProofs.
