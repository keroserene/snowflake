(* C07Proofs.v — instantiation of the generic results on the GENERATED safelog patterns
   (Gen/SafelogPatterns.v, rewritten from the Go source by every run of the check); the pinned
   algorithm on the frozen pinned patterns (Model/SafelogPinned.v), for the witnesses of Properties/C07.v. *)
From Coq Require Import List.
From Snow Require Import Lib.Wire Model.Regex Model.RegexIncl Model.Scrub Model.SafelogPinned Gen.SafelogPatterns.
From Snow Require Import Proofs.RegexProofs Proofs.MatcherProofs Proofs.ScrubProofs.
Import ListNotations.
Open Scope nat_scope.

Definition the_full : re := match full_patterns with [f] => f | _ => Emp end.
Definition pat_L : re := match the_full with Seq l (Seq (Grp 1 _) _) => l | _ => Emp end.
Definition pat_A : re := match the_full with Seq _ (Seq (Grp 1 a) _) => a | _ => Emp end.
Definition pat_R : re := match the_full with Seq _ (Seq (Grp 1 _) r) => r | _ => Emp end.

(* the safelog package compiles exactly one full pattern, of the shape  L (group 1: A) R *)
Lemma full_shape : full_patterns = [Seq pat_L (Seq (Grp 1 pat_A) pat_R)].
Proof. vm_compute. reflexivity. Qed.

Lemma delim_matches : forall r, RegexIncl.incl delim_spec r = true ->
  forall d, is_delim d = true -> matches r [d].
Proof.
  intros r Hi d Hd. apply (incl_sound _ _ Hi). constructor. exact Hd.
Qed.

(* the three inclusions, by reflection through the derivative-based checker (the exploration alone is evaluated) *)
Lemma c_inclL : RegexIncl.incl delim_spec pat_L = true. Proof. apply incl_by_exploration. vm_compute. reflexivity. Qed.
Lemma c_inclR : RegexIncl.incl delim_spec pat_R = true. Proof. apply incl_by_exploration. vm_compute. reflexivity. Qed.
Lemma c_inclA : RegexIncl.incl addr_spec pat_A = true. Proof. apply incl_by_exploration. vm_compute. reflexivity. Qed.

Lemma pat_ok : loop_ok pat_L pat_A pat_R.
Proof.
  split; try (vm_compute; reflexivity).
  - exact (delim_matches _ c_inclL).
  - exact (delim_matches _ c_inclR).
Qed.

Lemma c_nlA : sym_free NL pat_A = true. Proof. vm_compute. reflexivity. Qed.

Lemma spec_included : forall w, matches addr_spec w -> matches pat_A w.
Proof. apply incl_sound. exact c_inclA. Qed.

(* the stand-alone address pattern is the address part of the full pattern with other group numbers *)
Lemma address_pattern_strip : strip_grp address_pattern = strip_grp pat_A.
Proof. vm_compute. reflexivity. Qed.

Lemma spec_included_address_pattern : forall w, matches addr_spec w -> matches address_pattern w.
Proof.
  intros w Hw. apply (proj2 (strip_grp_matches _ _)). rewrite address_pattern_strip.
  apply (proj1 (strip_grp_matches _ _)), spec_included, Hw.
Qed.

Lemma scrub_is_scrub1 : forall t, scrub full_patterns t = scrub1 the_full t.
Proof. intros t. unfold scrub, the_full. rewrite full_shape. reflexivity. Qed.

Lemma the_full_eq : the_full = Seq pat_L (Seq (Grp 1 pat_A) pat_R).
Proof. unfold the_full. rewrite full_shape. reflexivity. Qed.

(* the spans of the text that Scrub replaces by the placeholder *)
Definition replaced_spans (t : bytes) : list (nat * nat) := spans (S (length t)) the_full t 0.

Lemma scrub_render : forall t, scrub full_patterns t = render t 0 (replaced_spans t).
Proof.
  intros t. rewrite scrub_is_scrub1. unfold replaced_spans. rewrite the_full_eq. apply scrub1_render.
Qed.

Lemma hides_all : forall pre w post,
  matches addr_spec w -> left_ok pre -> right_ok post ->
  exists a b, In (a, b) (replaced_spans (pre ++ w ++ post)) /\
              a < length pre + length w /\ length pre < b.
Proof.
  intros pre w post Hw Hl Hr. unfold replaced_spans. rewrite the_full_eq.
  apply (scrub1_hides pat_L pat_A pat_R pat_ok); auto using spec_included, addr_spec_minlen.
Qed.

Lemma matchb_sound : forall r w, anchor_free r = true -> matchb r w = true -> matches r w.
Proof.
  intros r w Haf H. unfold matchb in H.
  destruct (bt r w 0 [] _) as [res|] eqn:E; [|discriminate].
  destruct (bt_sound_matches _ _ _ _ _ _ Haf E) as (w' & s1 & c1 & -> & Mw & Hk).
  destruct s1; [|discriminate]. rewrite app_nil_r. exact Mw.
Qed.

Definition derivs (w : bytes) (r : re) : re := fold_left (fun r c => deriv c r) w r.

Lemma derivs_correct : forall w r, matches r w <-> nullable (derivs w r) = true.
Proof.
  induction w as [|c w IH]; intros r; simpl.
  - symmetry; apply nullable_correct.
  - rewrite <- IH. symmetry; apply deriv_correct.
Qed.

Lemma replaced_spans_wf : forall t, wf_spans 0 (length t) (replaced_spans t).
Proof.
  intros t. unfold replaced_spans. rewrite the_full_eq.
  apply (spans_wf pat_L pat_A pat_R pat_ok (S (length t)) t 0).
Qed.

(* writer and scrubber together: whatever the splitting into writes, the sink receives, for every
   complete line of the stream and in order, that line with its replaced spans substituted ... *)
Lemma written_lines : forall ws outs pend,
  run_writes (write (scrub full_patterns)) [] ws = (outs, pend) ->
  exists lines,
    outs = map (fun l => render l 0 (replaced_spans l)) lines /\
    Forall is_line lines /\ concat lines ++ pend = concat ws /\ no_nl pend.
Proof.
  intros ws outs pend H.
  destruct (write_complete_lines (scrub full_patterns) ws outs pend H) as (lines & Ho & Hl).
  exists lines. split; [|exact Hl]. rewrite Ho. apply map_ext. intros l; apply scrub_render.
Qed.

Definition sc0 : bytes -> bytes := scrub_v0 pinned_address_pattern pinned_full_patterns.
Definition sc : bytes -> bytes := scrub full_patterns.

Lemma addr_spec_anchor_free : anchor_free addr_spec = true. Proof. vm_compute. reflexivity. Qed.

Lemma spec_word : forall w, matchb addr_spec w = true -> matches addr_spec w.
Proof. intros; apply matchb_sound; auto; exact addr_spec_anchor_free. Qed.

