(* BrokerHist.v — what Properties/C02.v says over histories (label sequences) of the matching machine rests on three facts
   carried along a history from the empty broker: a poll once popped never returns to the pool; every answer recorded for
   a poll was carried by an answer request of the history whose lookup resolved to that poll ([justified]); the client of
   a poll was put there by a request of the history and a match was returned by a forward step of the history, each with
   the bridge list current at that step ([traced]). *)
From Coq Require Import List NArith Bool Arith.
From Snow Require Import Model.Broker Proofs.BrokerLocal Proofs.BrokerProofs Proofs.BrokerSteps Proofs.BrokerThms Proofs.BrokerKeys.
Import ListNotations.
Open Scope N_scope.

Lemma run_left_pool v : forall ls s s' p e, run v s ls = Some s' -> nth_error (entries s) p = Some e -> e_inheap e = false ->
  exists e', nth_error (entries s') p = Some e' /\ e_inheap e' = false.
Proof. exact (run_keeps v (fun e => e_inheap e = false) (left_pool_forever v)). Qed.

Lemma client_match_pops v s n ofp o p s' : step v s (L_Client n ofp o (Some p)) = Some s' ->
  (exists e, nth_error (entries s) p = Some e /\ e_inheap e = true) /\
  (exists e', nth_error (entries s') p = Some e' /\ e_inheap e' = false).
Proof.
  intros H. destruct (client_step_inv v s n ofp o p s' H) as (e & u & Hp & _ & Hel & _ & Hp').
  destruct (eligible_inheap n e Hel) as [Hh _].
  split; [exists e; split; [exact Hp | exact Hh]|]. eexists. split; [exact Hp' | reflexivity].
Qed.

(* label l occurs in ls, and the labels before it lead to s1 *)
Definition occurs (v : version) (s0 : state) (ls : list label) (l : label) (s1 : state) : Prop :=
  exists pre post, ls = pre ++ l :: post /\ run v s0 pre = Some s1.

Lemma occurs_snoc v s0 ls l s1 x : occurs v s0 ls l s1 -> occurs v s0 (ls ++ [x]) l s1.
Proof. intros (pre & post & -> & H). exists pre, (post ++ [x]). rewrite <- app_assoc. split; [reflexivity | exact H]. Qed.

Lemma occurs_last v s0 ls l s : run v s0 ls = Some s -> occurs v s0 (ls ++ [l]) l s.
Proof. intros H. exists ls, []. split; [reflexivity | exact H]. Qed.

Lemma history_ind v br (Q : list label -> state -> Prop) :
  Q [] (init br) ->
  (forall ls s l s', run v (init br) ls = Some s -> Inv v s -> Q ls s -> step v s l = Some s' -> Q (ls ++ [l]) s') ->
  forall ls s, run v (init br) ls = Some s -> Q ls s.
Proof.
  intros Q0 QS ls s H. apply (run_ind_snoc v (init br) (fun ls s => Inv v s /\ Q ls s)); [| |exact H].
  - split; [apply inv_init | exact Q0].
  - intros ls0 s0 l s1 Hr [I HQ] Hs. split; [eapply step_preserves_inv; eassumption | eapply QS; eassumption].
Qed.

(* every recorded answer of an entry was carried by an answer request of the history that resolved to that entry *)
Definition justified (v : version) (s0 : state) (ls : list label) (s : state) : Prop :=
  forall p e a, nth_error (entries s) p = Some e -> In a (e_posted e) ->
  exists s1, occurs v s0 ls (L_Answer (e_sid e) a) s1 /\ lookup (e_sid e) (idmap s1) = Some p.

Lemma justified_run v br : forall ls s, run v (init br) ls = Some s -> justified v (init br) ls s.
Proof.
  apply history_ind.
  - intros p e a Hp. destruct p; discriminate.
  - intros ls s l s' Hr I J Hs p e' a Hp Ha.
    destruct (posted_step v s l s' p e' a I Hs Hp Ha) as [e [He [Hsid [Hold|[Hl Hlk]]]]]; rewrite <- Hsid.
    + destruct (J p e a He Hold) as [s1 [O L]]. exists s1. split; [apply occurs_snoc; exact O | exact L].
    + exists s. split; [rewrite Hl; apply occurs_last; exact Hr | exact Hlk].
Qed.

(* the answer a client is given was posted by an answer request of the history made under the session id of the
   poll that holds this client, and the lookup of that request resolved to this very poll (entry p) *)
Theorem answer_resolved_to_this_poll v br ls s p e c a :
  run v (init br) ls = Some s -> nth_error (entries s) p = Some e -> e_cl e = Some c -> client_answered c a ->
  exists pre post s1, ls = pre ++ L_Answer (e_sid e) a :: post /\ run v (init br) pre = Some s1 /\
                      lookup (e_sid e) (idmap s1) = Some p.
Proof.
  intros H Hp Hc Ha.
  destruct (justified_run v br ls s H p e a Hp (answered_posted v br s p e c a (ex_intro _ ls H) Hp Hc Ha))
    as [s1 [(pre & post & E & R) L]].
  exists pre, post, s1. auto.
Qed.

Lemma estep_match v s l e e' m : estep v s l e e' -> e_w e' = W_Done (PMatch m) ->
  e_w e = W_Done (PMatch m) \/ exists p f, l = L_RvForward p /\ e_w e = W_Forward f /\ forward_result s f = PMatch m.
Proof.
  destruct 1; cbn; intros E; try (left; exact E); try discriminate.
  - destruct v; discriminate.
  - right. injection E as E. eauto.
  - left. destruct (buf_free e); exact E.
Qed.

(* the client of a poll was put there by a request of the history, checked against the list current at that request *)
Definition client_from_request (v : version) (s0 : state) (ls : list label) (q : nat) (c : clrec) : Prop :=
  exists n ofp o sreq, occurs v s0 ls (L_Client n ofp o (Some q)) sreq /\
    c_fp c = fp_of ofp /\ c_offer c = o /\ c_nat c = n /\ lookup (fp_of ofp) (bridges sreq) = Some (c_url c).

(* a match was returned by a forward step of the history, with the URL of the list current at that step, and the
   client whose offer it carries was in the poll by then *)
Definition match_from_forward (v : version) (s0 : state) (ls : list label) (q : nat) (m : match_info) : Prop :=
  exists sfwd e1 c, occurs v s0 ls (L_RvForward q) sfwd /\
    nth_error (entries sfwd) q = Some e1 /\ e_cl e1 = Some c /\
    m_offer m = c_offer c /\ m_nat m = c_nat c /\ lookup (c_fp c) (bridges sfwd) = Some (m_url m).

Definition traced (v : version) (s0 : state) (ls : list label) (s : state) : Prop :=
  forall q e, nth_error (entries s) q = Some e ->
    (forall c, e_cl e = Some c -> client_from_request v s0 ls q c) /\
    (forall m, e_w e = W_Done (PMatch m) -> match_from_forward v s0 ls q m).

Lemma traced_run v br : forall ls s, run v (init br) ls = Some s -> traced v (init br) ls s.
Proof.
  apply history_ind.
  - intros q e Hq. destruct q; discriminate.
  - intros ls s l s' Hr I T Hs q e' Hq.
    assert (Lift : forall e, nth_error (entries s) q = Some e ->
              (forall c, e_cl e = Some c -> client_from_request v (init br) (ls ++ [l]) q c) /\
              (forall m, e_w e = W_Done (PMatch m) -> match_from_forward v (init br) (ls ++ [l]) q m)).
    { intros e He. destruct (T q e He) as [TA TB]. split.
      - intros c Hc. destruct (TA c Hc) as (n & ofp & o & sreq & O & R). exists n, ofp, o, sreq. split; [apply occurs_snoc; exact O | exact R].
      - intros m Hm. destruct (TB m Hm) as (sfwd & e1 & c & O & R). exists sfwd, e1, c. split; [apply occurs_snoc; exact O | exact R]. }
    destruct (step_entry_bwd v s l s' q e' Hs Hq) as [[_ (sd & n & pt & cl & _ & ->)] | [e [He [[_ ->]|[Ht Hes]]]]].
    + split; [intros c Hc; discriminate | intros m Hm; discriminate].
    + apply Lift. exact He.
    + destruct (inv_entries v s I q e He) as [Sh [[Hfw _] _]]. destruct (Lift e He) as [LA LB]. split.
      * intros c' Hc'. destruct (estep_cl v s l e e' c' Hes Sh Hc') as [[c [Hc E]]|[_ (n & ofp & o & u & p & -> & Hu & ->)]].
        -- destruct (LA c Hc) as (n & ofp & o & sreq & O & R). exists n, ofp, o, sreq. split; [exact O|].
           unfold cstatic in E. injection E as _ -> -> -> -> _. exact R.
        -- cbn [touched] in Ht. injection Ht as ->. exists n, ofp, o, s. split; [apply occurs_last; exact Hr|]. repeat split. exact Hu.
      * intros m Hm. destruct (estep_match v s l e e' m Hes Hm) as [Hold|(p & f & -> & Hf & Hres)]; [apply LB; exact Hold|].
        cbn [touched] in Ht. injection Ht as ->. destruct (Hfw f Hf) as [c [Hc [Ho [Hn Hfp]]]].
        unfold forward_result in Hres. destruct (lookup (f_fp f) (bridges s)) as [u|] eqn:Hl; [|discriminate]. injection Hres as <-.
        exists s, e, c. split; [apply occurs_last; exact Hr|]. split; [exact He|]. split; [exact Hc|].
        cbn. split; [exact Ho|]. split; [exact Hn|]. rewrite <- Hfp. exact Hl.
Qed.
