(* C07CoverProofs.v — coverage on the GENERATED safelog pattern: every side condition of
   Proofs/ScrubCoverProofs.v is decided by computation on Gen/SafelogPatterns.v (rewritten from the Go
   source by every run of the check).  [sc2] is Scrub on the frozen copy Model/SafelogRound2.v of the
   current patterns, on which Properties/C07.v shows that what the coverage theorem excludes is really
   not covered. *)
From Coq Require Import List NArith Arith Lia.
From Snow Require Import Lib.Wire Model.Regex Model.RegexIncl Model.RegexDisj Model.Scrub Model.SafelogRound2 Gen.SafelogPatterns.
From Snow Require Import Proofs.RegexProofs Proofs.MatcherProofs Proofs.RegexDisjProofs Proofs.ScrubProofs.
From Snow Require Import Proofs.ScrubCoverProofs Proofs.C07Proofs.
Import ListNotations.
Open Scope nat_scope.

Definition pat_L' : re := match pat_L with Alt Bol l => l | _ => Emp end.
Definition pat_g2 : nat := match pat_A with Seq (Grp g _) _ => g | _ => 0 end.
Definition pat_g3 : nat := match pat_A with Seq (Grp _ (Alt _ (Alt _ (Grp g _)))) _ => g | _ => 0 end.
Definition pat_V : re := match pat_A with Seq (Grp _ (Alt v _)) _ => v | _ => Emp end.
Definition pat_B : re := match pat_A with Seq (Grp _ (Alt _ (Alt b _))) _ => b | _ => Emp end.
Definition pat_D1 : re := match pat_A with Seq (Grp _ (Alt _ (Alt _ (Grp _ (Alt d _))))) _ => d | _ => Emp end.
Definition pat_D2 : re := match pat_A with Seq (Grp _ (Alt _ (Alt _ (Grp _ (Alt _ (Alt d _)))))) _ => d | _ => Emp end.
Definition pat_N : re := match pat_A with Seq (Grp _ (Alt _ (Alt _ (Grp _ (Alt _ (Alt _ n)))))) _ => n | _ => Emp end.
Definition pat_P : re := match pat_A with Seq _ p => p | _ => Emp end.

Definition gA : re := cA pat_V pat_B pat_D1 pat_D2 pat_N pat_P pat_g2 pat_g3.
Definition gAdot : re := cAdot pat_V pat_B pat_D1 pat_D2 pat_P.
Definition gL : re := cL pat_L'.

(* the address part is  ( dotted quad | [IPv6] | ( IPv6 with dotted tail x2 | IPv6 without ) ) port?  and
   the left delimiter is  ^ | class *)
Lemma cover_shape_A : pat_A = gA.
Proof. vm_compute. reflexivity. Qed.
Lemma cover_shape_L : pat_L = gL.
Proof. vm_compute. reflexivity. Qed.

Lemma the_full_cover :
  the_full = cfull pat_L' pat_V pat_B pat_D1 pat_D2 pat_N pat_P pat_R pat_g2 pat_g3.
Proof. rewrite the_full_eq. unfold cfull. fold gL gA. rewrite <- cover_shape_A, <- cover_shape_L. reflexivity. Qed.

Lemma g_ok : loop_ok gL gA pat_R.
Proof. rewrite <- cover_shape_L, <- cover_shape_A. exact pat_ok. Qed.

Lemma g_byteA : forallb (fun rg : N * N => (snd rg <=? 255)%N) (ranges gA) = true. Proof. vm_compute. reflexivity. Qed.
Lemma g_nullP : nullable pat_P = true. Proof. vm_compute. reflexivity. Qed.
Lemma g_afRs : anchor_free (strip_top_eol pat_R) = true. Proof. vm_compute. reflexivity. Qed.
Lemma g_inclR : RegexIncl.incl (strip_top_eol pat_R) right_spec = true. Proof. apply incl_by_exploration. vm_compute. reflexivity. Qed.
(* no word of the address pattern followed by a delimiter is a proper prefix of an address ... *)
Lemma g_K2 : disj rest_spec (after gA rest_spec) = true. Proof. apply disj_by_exploration. vm_compute. reflexivity. Qed.
(* ... for a bare IPv6 address with a dotted tail this holds for the alternatives that are tried first,
   and these match every such address *)
Lemma g_K3 : RegexIncl.incl bare_v4tail (Alt pat_D1 pat_D2) = true. Proof. apply incl_by_exploration. vm_compute. reflexivity. Qed.
Lemma g_K4 : disj bare_v4tail (after gAdot bare_v4tail) = true. Proof. apply disj_by_exploration. vm_compute. reflexivity. Qed.
(* no word of the address pattern runs across the delimiter before an address and ends inside it *)
Lemma g_K5 : disj addr_spec (after (nonnull (tail_after delim_nodot_cls gA)) addr_spec) = true. Proof. apply disj_by_exploration. vm_compute. reflexivity. Qed.
Lemma g_K6 : disj nonv4_spec (after (nonnull (tail_after dot_cls gA)) nonv4_spec) = true. Proof. apply disj_by_exploration. vm_compute. reflexivity. Qed.
Lemma g_K7a : deriv 46%N gA = Emp. Proof. vm_compute. reflexivity. Qed.
Lemma g_K7b : deriv 46%N (tail_after nondigit_cls gA) = Emp. Proof. vm_compute. reflexivity. Qed.

Lemma g_inclA : forall w, matches addr_spec w -> matches gA w.
Proof. rewrite <- cover_shape_A. exact spec_included. Qed.

Lemma covers_all : forall pre w post,
  matches addr_spec w -> left_ok pre -> right_ok post -> ~ dotted_run pre w ->
  exists a b, In (a, b) (replaced_spans (pre ++ w ++ post)) /\
              a <= length pre /\
              (length pre + length w <= b \/ (b + 1 = length pre + length w /\ colon_ws w post)).
Proof.
  intros pre w post Hw Hl Hr Hnd. unfold replaced_spans. rewrite the_full_cover.
  apply (scrub1_covers pat_L' pat_V pat_B pat_D1 pat_D2 pat_N pat_P pat_R pat_g2 pat_g3
           g_ok g_inclA g_byteA g_nullP g_afRs g_inclR g_K2 g_K3 g_K4 g_K5 g_K6 g_K7a g_K7b); auto.
Qed.

(* the output is the rendering of a prefix of [pre], the placeholder, and the rendering of a suffix of
   [post] (or of ':' ++ post in the colon case): no byte of the address takes part in it *)
Lemma address_absent : forall pre w post,
  matches addr_spec w -> left_ok pre -> right_ok post -> ~ dotted_run pre w ->
  exists a b sp1 sp2 rest,
    replaced_spans (pre ++ w ++ post) = sp1 ++ (a, b) :: sp2 /\ a <= length pre /\
    scrub full_patterns (pre ++ w ++ post) = render (firstn a pre) 0 sp1 ++ scrubbed ++ render rest b sp2 /\
    ((length pre + length w <= b /\ rest = skipn (b - (length pre + length w)) post) \/
     (b + 1 = length pre + length w /\ rest = 58%N :: post /\ colon_ws w post)).
Proof.
  intros pre w post Hw Hl Hr Hnd.
  destruct (covers_all pre w post Hw Hl Hr Hnd) as (a & b & Hin & Ha & Hb).
  destruct (in_split _ _ Hin) as (sp1 & sp2 & Esp).
  pose proof (replaced_spans_wf (pre ++ w ++ post)) as Hwf. rewrite Esp in Hwf.
  exists a, b, sp1, sp2, (skipn b (pre ++ w ++ post)).
  split; [exact Esp|]. split; [exact Ha|]. split.
  - rewrite scrub_render, Esp. rewrite (render_split sp1 (pre ++ w ++ post) 0 a b sp2 Hwf).
    rewrite !Nat.sub_0_r. rewrite firstn_app. replace (a - length pre) with 0 by lia.
    simpl firstn at 2. rewrite app_nil_r. reflexivity.
  - destruct Hb as [Hb|[Hb Hc]].
    + left. split; auto.
      rewrite skipn_app, (skipn_all2 pre) by lia. simpl.
      rewrite skipn_app, (skipn_all2 w) by lia. simpl.
      f_equal. lia.
    + right. split; auto. split; auto.
      destruct Hc as ((w' & Ew) & _). subst w. rewrite app_length in Hb. simpl in Hb.
      rewrite skipn_app, (skipn_all2 pre) by lia. simpl.
      rewrite <- app_assoc. rewrite skipn_app, (skipn_all2 w') by lia. simpl.
      replace (b - length pre - length w') with 0 by lia. reflexivity.
Qed.

Definition sc2 : bytes -> bytes := scrub round2_full_patterns.

