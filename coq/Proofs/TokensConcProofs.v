(* TokensConcProofs.v — tokens_t under arbitrary interleavings of its callers (Model/TokensConc.v): counter and channel
   are exact at every point of every schedule (cinv), hence the count once all callers have finished; and the start
   states for the counter written as a load followed by a store.  Whether a channel receive can block depends on what
   the callers do and is not treated here: the session machine shows that its releases never do
   (C16_release_never_blocks). *)
From Coq Require Import List ZArith Arith Bool Lia.
From Snow Require Import Model.Tokens Model.TokensConc.
Import ListNotations.
Local Open Scope Z_scope.

Lemma sumz_cons : forall f m l, sumz f (m :: l) = f m + sumz f l.
Proof. reflexivity. Qed.
Lemma total_cons : forall f l ll, total f (l :: ll) = sumz f l + total f ll.
Proof. reflexivity. Qed.
Lemma prog_net_cons : forall o p, prog_net (o :: p) = op_net o + prog_net p.
Proof. reflexivity. Qed.
Lemma progs_net_cons : forall p ps, progs_net (p :: ps) = prog_net p + progs_net ps.
Proof. reflexivity. Qed.

Lemma total_set_nth : forall f ll i m rest,
  nth_error ll i = Some (m :: rest) -> total f (set_nth ll i rest) = total f ll - f m.
Proof.
  intros f ll. induction ll as [|l ll IH]; intros i m rest H.
  - destruct i; discriminate.
  - destruct i as [|j]; cbn [nth_error] in H.
    + inversion H; subst. cbn [set_nth]. rewrite !total_cons, sumz_cons. lia.
    + cbn [set_nth]. rewrite !total_cons, (IH j m rest H). lia.
Qed.

Lemma set_nth_length : forall A (l : list A) i x, length (set_nth l i x) = length l.
Proof. intros A l. induction l as [|y l IH]; intros i x; destruct i; cbn [set_nth length]; auto. Qed.

Lemma sumz_app : forall f a b, sumz f (a ++ b) = sumz f a + sumz f b.
Proof. intros f a b. induction a as [|m a IH]; [reflexivity|]. cbn [app]. rewrite !sumz_cons, IH. lia. Qed.

(* a compiled program adds to the counter, and to the channel, what its calls add *)
Lemma sumz_compile : forall f, (forall o, sumz f (micros_of o) = op_net o) -> forall p, sumz f (compile p) = prog_net p.
Proof.
  intros f Hf. induction p as [|o p IH]; [reflexivity|].
  change (compile (o :: p)) with (micros_of o ++ compile p). rewrite sumz_app, IH, prog_net_cons, Hf. reflexivity.
Qed.
Lemma total_compile : forall f, (forall o, sumz f (micros_of o) = op_net o) -> forall ps, total f (map compile ps) = progs_net ps.
Proof.
  intros f Hf. induction ps as [|p ps IH]; [reflexivity|].
  cbn [map]. rewrite total_cons, progs_net_cons, IH, (sumz_compile f Hf). reflexivity.
Qed.
Lemma micros_net_c : forall o, sumz net_c (micros_of o) = op_net o.
Proof. destruct o; reflexivity. Qed.
Lemma micros_net_h : forall o, sumz net_h (micros_of o) = op_net o.
Proof. destruct o; reflexivity. Qed.

Lemma quiescent_total : forall f ll, forallb finished ll = true -> total f ll = 0.
Proof.
  intros f ll. induction ll as [|l ll IH]; [reflexivity|]. cbn [forallb]. intro H.
  apply andb_true_iff in H. destruct H as [Hl Hr]. destruct l; [|discriminate].
  rewrite total_cons, (IH Hr). reflexivity.
Qed.

Lemma clients_apply : forall t m, clients (micro_apply t m) = clients t + net_c m.
Proof. intros t m. destruct m; cbn [micro_apply net_c]; unfold tok_inc, tok_dec, tok_send, tok_recv; try destruct (cap t =? 0)%nat; cbn [clients]; lia. Qed.

Lemma cap_apply : forall t m, cap (micro_apply t m) = cap t.
Proof. intros t m. destruct m; cbn [micro_apply]; unfold tok_inc, tok_dec, tok_send, tok_recv; try destruct (cap t =? 0)%nat; reflexivity. Qed.

Lemma chlen_apply : forall t m, cap t <> O -> micro_ready t m = true ->
  Z.of_nat (chlen (micro_apply t m)) = Z.of_nat (chlen t) + net_h m /\ (chlen t <= cap t -> chlen (micro_apply t m) <= cap t)%nat.
Proof.
  intros t m Hc Hr. destruct m; cbn [micro_apply net_h micro_ready] in *; unfold tok_inc, tok_dec, tok_send, tok_recv, send_ready, recv_ready in *.
  - cbn [chlen]. split; [lia|auto].
  - destruct (Nat.eqb_spec (cap t) 0) as [E|E]; [contradiction|]. cbn [orb] in Hr. apply Nat.ltb_lt in Hr. cbn [chlen]. split; lia.
  - cbn [chlen]. split; [lia|auto].
  - destruct (Nat.eqb_spec (cap t) 0) as [E|E]; [contradiction|]. cbn [orb] in Hr. apply Nat.ltb_lt in Hr. cbn [chlen]. split; lia.
Qed.

Lemma chlen_apply_nocap : forall t m, cap t = O -> chlen (micro_apply t m) = chlen t.
Proof. intros t m Hc. destruct m; cbn [micro_apply]; unfold tok_inc, tok_dec, tok_send, tok_recv; rewrite ?Hc; reflexivity. Qed.

Definition cinv (K H : Z) (s : cstate) : Prop :=
  clients (ctok s) + total net_c (todo s) = K /\
  (cap (ctok s) <> O -> Z.of_nat (chlen (ctok s)) + total net_h (todo s) = H /\ (chlen (ctok s) <= cap (ctok s))%nat) /\
  (cap (ctok s) = O -> chlen (ctok s) = O).

Lemma cstep_inv : forall K H s i s', cinv K H s -> cstep s i = Some s' ->
  cinv K H s' /\ cap (ctok s') = cap (ctok s) /\ length (todo s') = length (todo s).
Proof.
  intros K H s i s' (Ic & Ih & I0) Hs. unfold cstep in Hs.
  destruct (nth_error (todo s) i) as [[|m rest]|] eqn:En; try discriminate.
  destruct (micro_ready (ctok s) m) eqn:Er; [|discriminate]. inversion Hs; subst s'; clear Hs. cbn [ctok todo].
  rewrite cap_apply, set_nth_length. split; [|split; reflexivity].
  unfold cinv. cbn [ctok todo]. rewrite cap_apply, clients_apply, !(total_set_nth _ _ _ _ _ En). split; [lia|]. split.
  - intro Hc. destruct (Ih Hc) as [Ha Hb]. destruct (chlen_apply _ _ Hc Er) as [Hx Hy]. split; [lia|auto].
  - intro Hc. rewrite chlen_apply_nocap by exact Hc. auto.
Qed.

Lemma crun_inv : forall sched K H s s', cinv K H s -> crun s sched = Some s' ->
  cinv K H s' /\ cap (ctok s') = cap (ctok s) /\ length (todo s') = length (todo s).
Proof.
  induction sched as [|i r IH]; intros K H s s' I Hr; cbn [crun] in Hr.
  - inversion Hr; subst. auto.
  - destruct (cstep s i) as [s1|] eqn:E; [|discriminate].
    destruct (cstep_inv _ _ _ _ _ I E) as (I1 & Hc1 & Hl1).
    destruct (IH _ _ _ _ I1 Hr) as (I2 & Hc2 & Hl2). split; [exact I2|]. split; congruence.
Qed.

(* a tokens value as the sequential machine leaves it: the channel holds one element per counted client *)
Definition balanced (t : tokens) : Prop :=
  (cap t <> O -> Z.of_nat (chlen t) = clients t /\ (chlen t <= cap t)%nat) /\ (cap t = O -> chlen t = O).

Lemma cinit_cinv : forall t ps, balanced t ->
  cinv (clients t + progs_net ps) (clients t + progs_net ps) (cinit t ps).
Proof.
  intros t ps [Hb H0]. unfold cinv, cinit. cbn [ctok todo]. rewrite (total_compile _ micros_net_c), (total_compile _ micros_net_h).
  split; [reflexivity|]. split; [|exact H0]. intro Hc. destruct (Hb Hc) as [Ha Hl]. split; [lia|exact Hl].
Qed.

Theorem quiescent_count : forall t ps sched s, balanced t ->
  crun (cinit t ps) sched = Some s -> quiescent s = true ->
  clients (ctok s) = clients t + progs_net ps /\ balanced (ctok s).
Proof.
  intros t ps sched s Hb Hr Hq. unfold quiescent in Hq.
  destruct (crun_inv _ _ _ _ _ (cinit_cinv t ps Hb) Hr) as ((Ic & Ih & I0) & Hcap & _).
  rewrite (quiescent_total _ _ Hq) in Ic. split; [lia|]. split; [|exact I0].
  intro Hc. destruct (Ih Hc) as [Ha Hl]. rewrite (quiescent_total _ _ Hq) in Ha. split; [lia|exact Hl].
Qed.

(* the driver's round: n holders and n starters, k short sessions each: a quiescent round leaves the count as it was *)
Lemma pairs_net : forall k, prog_net (pairs k) = 0.
Proof. induction k as [|k IH]; [reflexivity|]. cbn [pairs]. rewrite !prog_net_cons, IH. reflexivity. Qed.
Lemma prog_net_app : forall a b, prog_net (a ++ b) = prog_net a + prog_net b.
Proof. intros a b. induction a as [|o a IH]; [reflexivity|]. cbn [app]. rewrite !prog_net_cons, IH. lia. Qed.
Lemma round_net : forall n k, progs_net (round_progs n k) = 0.
Proof.
  induction n as [|n IH]; intro k; [reflexivity|]. cbn [round_progs]. rewrite !progs_net_cons, IH.
  unfold holder, starter. rewrite prog_net_app, !prog_net_cons, pairs_net. reflexivity.
Qed.

(* the counter as a load and a store (lstate), two rets and a ret beside a get: the schedules on which an update is
   lost are C16_load_store_counter_refuted and C16_load_store_get_refuted; one ret after the other counts right *)
Definition two_rets : lstate := mkL 2 [(0, lret); (0, lret)].
Definition ret_and_get : lstate := mkL 1 [(0, lret); (0, lget)].
Theorem load_store_sequential_is_fine :
  exists s, lrun two_rets [0; 0; 1; 1]%nat = Some s /\ lquiescent s = true /\ lclients s = 0.
Proof. eexists. split; [vm_compute; reflexivity|]. split; reflexivity. Qed.

(* non-vacuity: two holders and two starters (k = 1), capacity 4, three slots in use; a schedule that really overlaps *)
Definition ex_tok : tokens := mkTok 4 3 3.
Definition ex_sched : list nat :=
  [0; 2; 1; 3; 0; 2; 1; 3; 1; 3; 0; 2; 1; 0; 3; 2; 1; 3; 0; 2; 0; 1; 2; 3]%nat.
Example ex_round_runs :
  exists s, crun (cinit ex_tok (round_progs 2 1)) ex_sched = Some s /\ quiescent s = true /\ clients (ctok s) = 3.
Proof. eexists. split; [vm_compute; reflexivity|]. split; reflexivity. Qed.
