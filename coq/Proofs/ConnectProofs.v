(* ConnectProofs.v — NewWebRTCPeerWithEvents / connect (coq/Model/Connect.v). The calls are made in a fixed
   order and the first one that fails ends the attempt, so the outcomes after it are never read: the lemmas
   are case analyses over the eight places where an attempt can stop (first_failure). *)
From Coq Require Import List Bool.
From Snow Require Import Model.Connect.
Import ListNotations.

(* Each hypothesis fixes the outcomes up to the first failure and leaves the later ones as variables.  new_peer does
   not inspect those, so on each of the eight rows it reduces to a closed result and closed events: the proofs (here and in
   Properties/C15.v) apply this lemma and then decide each row by evaluation, which covers all 2^7 outcome records. *)
Lemma first_failure : forall P : outcomes -> Prop,
  (forall b c d e f g, P (mkO false b c d e f g)) ->
  (forall c d e f g, P (mkO true false c d e f g)) ->
  (forall d e f g, P (mkO true true false d e f g)) ->
  (forall e f g, P (mkO true true true false e f g)) ->
  (forall f g, P (mkO true true true true false f g)) ->
  (forall g, P (mkO true true true true true false g)) ->
  P (mkO true true true true true true false) ->
  P (mkO true true true true true true true) -> forall o, P o.
Proof.
  intros P H1 H2 H3 H4 H5 H6 H7 H8 [a b c d e f g].
  destruct a; [|apply H1]. destruct b; [|apply H2]. destruct c; [|apply H3]. destruct d; [|apply H4].
  destruct e; [|apply H5]. destruct f; [|apply H6]. destruct g; [apply H8|apply H7].
Qed.

(* the pinned connect panics exactly when NewPeerConnection fails *)
Lemma connect_v0_panic_iff : forall o, fst (new_peer CV0 o) = Conn_Panic <-> o_newpc o = false.
Proof.
  intros o. pattern o. apply first_failure; intros; vm_compute; split; intros; auto; discriminate.
Qed.

(* an event that tells the listener of a failure: the offer or the rendezvous event with its error set, or
   EventOnSnowflakeConnectionFailed *)
Definition flagged (e : cevent) : bool :=
  match e with Ev_offer true | Ev_rendezvous true | Ev_failed _ => true | _ => false end.
