(* RedialProofs.v — the RedialPacketConn machine (Model/Redial.v): what a step does to the one carrier it
   acts on ([car_step], [step_shape]), the invariant of the reachable states, and from these: errors only after
   Close or a failed dial, at most one open carrier, the goroutine leak of the pinned code and its absence
   from the repaired code. *)
From Coq Require Import List Arith Bool Lia.
From Snow Require Import Lib.ListFacts Model.Redial.
Import ListNotations.

Definition reachable (ecap qcap : nat) (s : rstate) : Prop :=
  exists tr, run_trace ecap qcap tr rs_init = Some s.
Definition user_label (l : label) : bool :=
  match l with LUWrite | LURead | LUClose => true | _ => false end.

Lemma run_trace_app : forall ecap qcap tr1 tr2 s,
  run_trace ecap qcap (tr1 ++ tr2) s =
  match run_trace ecap qcap tr1 s with
  | Some s' => run_trace ecap qcap tr2 s'
  | None => None
  end.
Proof.
  intros ecap qcap tr1; induction tr1; simpl; intros; auto.
  destruct (step ecap qcap s a); auto.
Qed.

Lemma reachable_init : forall ecap qcap, reachable ecap qcap rs_init.
Proof. intros; exists []; reflexivity. Qed.

Lemma reachable_step : forall ecap qcap s l s',
  reachable ecap qcap s -> step ecap qcap s l = Some s' -> reachable ecap qcap s'.
Proof.
  intros ecap qcap s l s' [tr H] Hs. exists (tr ++ [l]).
  rewrite run_trace_app, H. simpl. rewrite Hs. reflexivity.
Qed.

Lemma reachable_induction : forall ecap qcap (P : rstate -> Prop),
  P rs_init ->
  (forall s l s', reachable ecap qcap s -> P s -> step ecap qcap s l = Some s' -> P s') ->
  forall s, reachable ecap qcap s -> P s.
Proof.
  intros ecap qcap P H0 HS s [tr Htr]. revert s Htr.
  induction tr using rev_ind; intros s Htr.
  - simpl in Htr. injection Htr as <-. exact H0.
  - rewrite run_trace_app in Htr.
    destruct (run_trace ecap qcap tr rs_init) as [s0|] eqn:E; try discriminate.
    simpl in Htr. destruct (step ecap qcap s0 x) as [s1|] eqn:E2; try discriminate.
    inversion Htr; subst. apply (HS s0 x s); auto. exists tr; auto.
Qed.

Lemma nth_error_upd : forall A (l : list A) k x k',
  nth_error (upd l k x) k' =
  if k' =? k then (match nth_error l k with Some _ => Some x | None => None end)
  else nth_error l k'.
Proof.
  induction l as [|h t IH]; intros k x k'.
  - simpl. destruct k'; destruct k; simpl; auto. destruct (k' =? k); auto.
  - destruct k; destruct k'; simpl; auto.
Qed.

Lemma upd_length : forall A (l : list A) k x, length (upd l k x) = length l.
Proof. induction l; destruct k; simpl; auto. Qed.

Lemma is_rpc_iff : forall a b, is_rpc a b = true <-> a = b.
Proof. destruct a, b; simpl; split; congruence. Qed.
Lemma is_wpc_iff : forall a b, is_wpc a b = true <-> a = b.
Proof. destruct a, b; simpl; split; congruence. Qed.

Lemma c_closed_true : forall c, c_closed c = true <-> c_nclose c <> 0.
Proof.
  intros c; unfold c_closed. rewrite negb_true_iff, Nat.eqb_neq. tauto.
Qed.
Lemma c_closed_false : forall c, c_closed c = false <-> c_nclose c = 0.
Proof.
  intros c; unfold c_closed. rewrite negb_false_iff, Nat.eqb_eq. tauto.
Qed.

Lemma at_exch_true : forall s k, at_exch s k = true -> r_d s = DExch k.
Proof.
  unfold at_exch. intros s k H. destruct (r_d s); try discriminate. apply Nat.eqb_eq in H. congruence.
Qed.

(* Every label except LDTop, LDialOk, LDialFail and the user's calls acts on ONE carrier, and at most
   moves the dial loop between DExch k, DClose k and DTop for that same carrier.  [car_step .. k l d c d' c']:
   label l takes carrier k from c to c' and the dial loop from d to d'; cl = c.closed is closed,
   sq = len(sendQueue).  The premises are the parts of the guards that the proofs below use. *)
Section CarStep.
  Variables (ecap : nat) (cl : bool) (sq k : nat).

  Inductive car_step : label -> dpc -> carrier -> dpc -> carrier -> Prop :=
  | cs_recv_r c : ch_ready (c_rerr c) = true ->
      car_step LDRecvR (DExch k) c (DClose k) (set_rerr c (ch_take (c_rerr c)))
  | cs_recv_w c : ch_ready (c_werr c) = true ->
      car_step LDRecvW (DExch k) c (DClose k) (set_werr c (ch_take (c_werr c)))
  | cs_close c :
      car_step LDCloseCarrier (DClose k) c DTop (mkcar (c_r c) (c_w c) (c_rerr c) (c_werr c) (S (c_nclose c)))
  | cs_rtop_closed d c : c_r c = RTop -> car_step (LRTopClosed k) d c d (r_exit c)
  | cs_rtop_werr d c : c_r c = RTop -> car_step (LRTopWerr k) d c d (r_exit (set_werr c (ch_take (c_werr c))))
  | cs_rtop_default d c : c_r c = RTop -> cl = false -> car_step (LRTopDefault k) d c d (set_r c RRead)
  | cs_read_ok d c : c_r c = RRead -> c_closed c = false -> car_step (LReadOk k) d c d (set_r c RTop)
  | cs_read_fail d c : c_r c = RRead -> car_step (LReadFail k) d c d (set_r c RSend)
  | cs_rsend_buf d c : c_r c = RSend -> ch_buf (c_rerr c) < ecap ->
      car_step (LRSendBuf k) d c d (r_exit (set_rerr c (ch_put (c_rerr c))))
  | cs_rsend_d c : c_r c = RSend -> car_step (LRSendToD k) (DExch k) c (DClose k) (r_exit c)
  | cs_rsend_w d c : c_r c = RSend -> c_w c = WSel -> car_step (LRSendToW k) d c d (w_exit (r_exit c))
  | cs_wsel_closed d c : c_w c = WSel -> car_step (LWSelClosed k) d c d (w_exit c)
  | cs_wsel_rerr d c : c_w c = WSel -> car_step (LWSelRerr k) d c d (w_exit (set_rerr c (ch_take (c_rerr c))))
  | cs_wsel_pkt d c : c_w c = WSel -> sq <> 0 -> car_step (LWSelPkt k) d c d (set_w c WWrite)
  | cs_write_ok d c : c_w c = WWrite -> c_closed c = false -> car_step (LWriteOk k) d c d (set_w c WSel)
  | cs_write_fail d c : c_w c = WWrite -> car_step (LWriteFail k) d c d (set_w c WSend)
  | cs_wsend_buf d c : c_w c = WSend -> ch_buf (c_werr c) < ecap ->
      car_step (LWSendBuf k) d c d (w_exit (set_werr c (ch_put (c_werr c))))
  | cs_wsend_d c : c_w c = WSend -> car_step (LWSendToD k) (DExch k) c (DClose k) (w_exit c)
  | cs_wsend_r d c : c_w c = WSend -> c_r c = RTop -> car_step (LWSendToR k) d c d (r_exit (w_exit c)).
End CarStep.

Definition sendq_after (qcap : nat) (s : rstate) (l : label) : nat :=
  match l with
  | LUWrite => if r_closed s then r_sendq s else if r_sendq s <? qcap then S (r_sendq s) else r_sendq s
  | LWSelPkt _ => r_sendq s - 1
  | _ => r_sendq s
  end.
Definition recvq_after (qcap : nat) (s : rstate) (l : label) : nat :=
  match l with
  | LReadOk _ => if r_recvq s <? qcap then S (r_recvq s) else r_recvq s
  | LURead => if r_closed s then r_recvq s else r_recvq s - 1
  | _ => r_recvq s
  end.

(* the successor state of every label, the carrier part given by [car_step] *)
Inductive shape (ecap qcap : nat) (s : rstate) : label -> rstate -> Prop :=
| sh_car l k c d' c' : nth_error (r_cs s) k = Some c ->
    car_step ecap (r_closed s) (r_sendq s) k l (r_d s) c d' c' ->
    shape ecap qcap s l (mkrs (r_closed s) (r_err s) d' (upd (r_cs s) k c') (sendq_after qcap s l)
                              (recvq_after qcap s l) (g_close_called s) (g_dial_failed s))
| sh_top : r_d s = DTop -> shape ecap qcap s LDTop (set_d s (if r_closed s then DDone else DDial))
| sh_dial_ok : r_d s = DDial ->
    shape ecap qcap s LDialOk
          (set_d (set_cs s (r_cs s ++ [mkcar RTop WSel ch_new ch_new 0])) (DExch (length (r_cs s))))
| sh_dial_fail : r_d s = DDial ->
    shape ecap qcap s LDialFail
          (mkrs true (if r_closed s then r_err s else EDialFailed) DDone (r_cs s) (r_sendq s) (r_recvq s)
                (g_close_called s) true)
| sh_user l : l = LUWrite \/ l = LURead ->
    shape ecap qcap s l (mkrs (r_closed s) (r_err s) (r_d s) (r_cs s) (sendq_after qcap s l)
                              (recvq_after qcap s l) (g_close_called s) (g_dial_failed s))
| sh_close :
    shape ecap qcap s LUClose
          (mkrs true (if r_closed s then r_err s else EClosedConn) (r_d s) (r_cs s) (r_sendq s) (r_recvq s)
                true (g_dial_failed s)).

Lemma step_shape : forall ecap qcap s l s', step ecap qcap s l = Some s' -> shape ecap qcap s l s'.
Proof.
  intros ecap qcap [cl er d cs sq rq gc gd] l s' H.
  (* [step] is, for every label, a nest of matches and ifs around one successor: take the branch that answers
     Some; the tests passed on the way stay as equations *)
  destruct l; unfold step, on_car in H; cbn [r_d r_cs r_closed r_sendq] in H;
    repeat match type of H with
           | match ?x with _ => _ end = _ => destruct x eqn:?; try discriminate
           end;
    injection H as <-.
  (* the boolean tests as the propositions the constructors of [car_step] and [shape] are stated with *)
  all: repeat match goal with
       | H : _ && _ = true |- _ => apply andb_prop in H; destruct H
       | H : negb _ = true |- _ => apply negb_true_iff in H
       | H : (_ =? _) = true |- _ => apply Nat.eqb_eq in H
       | H : (_ =? _) = false |- _ => apply Nat.eqb_neq in H
       | H : (_ <? _) = true |- _ => apply Nat.ltb_lt in H
       | H : is_rpc _ _ = true |- _ => apply is_rpc_iff in H
       | H : is_wpc _ _ = true |- _ => apply is_wpc_iff in H
       | H : at_exch _ _ = true |- _ => apply at_exch_true in H; simpl in H
       end; subst.
  all: try (constructor; auto; fail).
  all: cbv [set_d set_car set_cs r_closed r_err r_d r_cs r_sendq r_recvq g_close_called g_dial_failed].
  all: try (eapply sh_car; [eassumption | simpl; constructor; auto]).
  (* left: LDialFail, whose closeWithError stores the error only when the connection was open *)
  destruct cl; constructor; reflexivity.
Qed.

Lemma step_counters : forall ecap qcap s l s', step ecap qcap s l = Some s' ->
  r_sendq s' = sendq_after qcap s l /\ r_recvq s' = recvq_after qcap s l.
Proof. intros ecap qcap s l s' H. destruct (step_shape _ _ _ _ _ H); split; reflexivity. Qed.

(* the carrier named in a thread's label *)
Definition lcar (l : label) : option nat :=
  match l with
  | LRTopClosed k | LRTopWerr k | LRTopDefault k | LReadOk k | LReadFail k
  | LRSendBuf k | LRSendToD k | LRSendToW k
  | LWSelClosed k | LWSelRerr k | LWSelPkt k | LWriteOk k | LWriteFail k
  | LWSendBuf k | LWSendToD k | LWSendToR k => Some k
  | _ => None
  end.

Lemma car_step_lcar : forall ecap cl sq k l d c d' c' j,
  car_step ecap cl sq k l d c d' c' -> lcar l = Some j -> j = k.
Proof. intros ecap cl sq k l d c d' c' j Hs. destruct Hs; simpl; congruence. Qed.

Lemma step_carrier : forall ecap qcap s l s' k c c',
  step ecap qcap s l = Some s' -> nth_error (r_cs s) k = Some c -> nth_error (r_cs s') k = Some c' ->
  (c' = c /\ lcar l <> Some k) \/ car_step ecap (r_closed s) (r_sendq s) k l (r_d s) c (r_d s') c'.
Proof.
  intros ecap qcap s l s' k c c' H Hn Hn'.
  destruct (step_shape _ _ _ _ _ H) as [l j c0 d' c1 Hj Hs| | | | l [->| ->] |]; simpl in Hn';
    try (left; split; [congruence | discriminate]).
  - rewrite nth_error_upd in Hn'. destruct (Nat.eqb_spec k j) as [->|Hne].
    + rewrite Hj in Hn, Hn'. injection Hn as ->. injection Hn' as ->. right. exact Hs.
    + left. split; [congruence|]. intros E. apply Hne. exact (car_step_lcar _ _ _ _ _ _ _ _ _ _ Hs E).
  - rewrite nth_error_app1 in Hn' by (eapply nth_error_lt; eauto).
    left. split; [congruence | discriminate].
Qed.

(* Two independent parts.  Channels: an error channel is closed exactly when its sender has returned
   ([fin]), holds at most ecap values, and holds one only after the sender returned (send and close are
   one step).  Dial phase: a carrier has been closed 0 times while the dial loop serves it and once
   afterwards, and it is closed only after one of its two threads has returned. *)
Definition chan_ok (ecap : nat) (fin : bool) (e : echan) : Prop :=
  ch_closed e = fin /\ ch_buf e <= ecap /\ (0 < ch_buf e -> fin = true).

Lemma chan_take : forall n f e, chan_ok n f e -> chan_ok n f (ch_take e).
Proof. unfold chan_ok; simpl; intros n f e (A & B & C). repeat split; auto; try lia. intros; apply C; lia. Qed.

Lemma chan_close : forall n f e, chan_ok n f e -> chan_ok n true (ch_close e).
Proof. unfold chan_ok; simpl; intros n f e (A & B & C). auto. Qed.

Lemma chan_put : forall n e, ch_buf e < n -> chan_ok n true (ch_close (ch_put e)).
Proof. unfold chan_ok; simpl; intros n e D. repeat split; auto. Qed.

Lemma chan_ready : forall n f e, chan_ok n f e -> ch_ready e = true -> f = true.
Proof.
  unfold chan_ok, ch_ready; intros n f e (A & B & C) D.
  apply orb_prop in D as [D|D]; [|congruence].
  apply C. apply negb_true_iff, Nat.eqb_neq in D. lia.
Qed.

Lemma chan_open_empty : forall n e, chan_ok n false e -> ch_buf e = 0.
Proof. intros n e (_ & _ & C). destruct (ch_buf e); [reflexivity | discriminate C; lia]. Qed.

Definition hinv (ecap : nat) (c : carrier) : Prop :=
  chan_ok ecap (is_rpc (c_r c) RDone) (c_rerr c) /\ chan_ok ecap (is_wpc (c_w c) WDone) (c_werr c).

Definition serving (d : dpc) (k : nat) : bool :=
  match d with DExch j | DClose j => j =? k | _ => false end.
Definition closing (d : dpc) (k : nat) : bool :=
  match d with DClose j => j =? k | _ => false end.

Definition pinv (d : dpc) (k : nat) (c : carrier) : Prop :=
  c_nclose c = (if serving d k then 0 else 1) /\
  (closing d k || negb (serving d k) = true -> c_r c = RDone \/ c_w c = WDone).

Lemma hinv_car_step : forall ecap cl sq k l d c d' c',
  car_step ecap cl sq k l d c d' c' -> hinv ecap c -> hinv ecap c'.
Proof.
  intros ecap cl sq k l d c d' c' Hs [Hr Hw].
  destruct Hs; destruct c as [r w re we n]; simpl in *; subst; split; simpl;
    eauto using chan_take, chan_close, chan_put.
Qed.

Lemma pinv_car_step : forall ecap cl sq k l d c d' c',
  car_step ecap cl sq k l d c d' c' -> hinv ecap c -> pinv d k c -> pinv d' k c'.
Proof.
  intros ecap cl sq k l d c d' c' Hs [Hr Hw] [Hn Hd].
  (* The close count moves only at LDCloseCarrier (0 to 1, as the loop stops serving k).  "One thread is done"
     becomes due when the loop goes from DExch k to DClose k: at LDRecvR / LDRecvW (the two cases left at the end) the
     channel it received from was ready, so its sender had returned ([chan_ready]); at LRSendToD / LWSendToD the
     sending thread returns in that step.  Every other label leaves d alone and at most moves the thread whose
     guard says it is not the one that was done. *)
  destruct Hs; destruct c as [r w re we n]; unfold pinv in *; simpl in *; subst;
    rewrite ?Nat.eqb_refl in *; simpl in *.
  all: split; [lia || exact Hn|].
  all: intro X; try specialize (Hd X); try solve [intuition congruence].
  - (* LDRecvR *) left; apply is_rpc_iff; eapply chan_ready; eauto.
  - (* LDRecvW *) right; apply is_wpc_iff; eapply chan_ready; eauto.
Qed.

Lemma car_step_other : forall ecap cl sq k l d c d' c' j,
  car_step ecap cl sq k l d c d' c' -> j <> k ->
  serving d' j = serving d j /\ closing d' j = closing d j.
Proof.
  intros ecap cl sq k l d c d' c' j Hs Hj. apply not_eq_sym, Nat.eqb_neq in Hj.
  destruct Hs; simpl; rewrite ?Hj; auto.
Qed.

Lemma pinv_idle : forall d k c, serving d k = false ->
  (pinv d k c <-> c_nclose c = 1 /\ (c_r c = RDone \/ c_w c = WDone)).
Proof. unfold pinv; intros d k c H. rewrite H, orb_true_r. tauto. Qed.

Lemma pinv_same : forall d d' k c,
  serving d' k = serving d k -> closing d' k = closing d k -> pinv d k c -> pinv d' k c.
Proof. unfold pinv; intros d d' k c -> ->; auto. Qed.

Record inv (ecap : nat) (s : rstate) : Prop := mkinv {
  inv_len : forall k, serving (r_d s) k = true -> k < length (r_cs s);
  inv_err : r_closed s = true <-> r_err s <> ENone;
  inv_ghost : r_closed s = true -> g_close_called s = true \/ g_dial_failed s = true;
  inv_chan : forall k c, nth_error (r_cs s) k = Some c -> hinv ecap c;
  inv_phase : forall k c, nth_error (r_cs s) k = Some c -> pinv (r_d s) k c
}.

Lemma inv_init : forall ecap, inv ecap rs_init.
Proof.
  intros ecap; constructor; simpl; try discriminate.
  - split; intros; congruence.
  - intros [|k]; discriminate.
  - intros [|k]; discriminate.
Qed.

Lemma inv_step : forall ecap qcap s l s',
  inv ecap s -> step ecap qcap s l = Some s' -> inv ecap s'.
Proof.
  intros ecap qcap s l s' [Hlen Herr Hgh Hch Hph] H.
  destruct (step_shape _ _ _ _ _ H) as [l k c d' c' Hk Hs| Hd | Hd | Hd | l Hl |]; clear H;
    constructor; simpl; auto.
  - intros j Hj. rewrite upd_length. destruct (Nat.eq_dec j k) as [->|Hne].
    + eapply nth_error_lt; eauto.
    + apply Hlen. destruct (car_step_other _ _ _ _ _ _ _ _ _ j Hs Hne) as [<- _]. exact Hj.
  - intros j c0 Hn. rewrite nth_error_upd in Hn. destruct (Nat.eqb_spec j k) as [->|Hne].
    + rewrite Hk in Hn. injection Hn as <-. eapply hinv_car_step; eauto.
    + eauto.
  - intros j c0 Hn. rewrite nth_error_upd in Hn. destruct (Nat.eqb_spec j k) as [->|Hne].
    + rewrite Hk in Hn. injection Hn as <-. eapply pinv_car_step; eauto.
    + destruct (car_step_other _ _ _ _ _ _ _ _ _ j Hs Hne). eapply pinv_same; eauto.
  - destruct (r_closed s); discriminate.
  - intros k c Hn. apply (pinv_same (r_d s)); [rewrite Hd; destruct (r_closed s); reflexivity..|eauto].
  - intros k Hk. apply Nat.eqb_eq in Hk. subst. rewrite app_length. simpl. lia.
  - intros k c Hn. apply nth_error_snoc in Hn as [Hn|[-> ->]]; [eauto|].
    unfold hinv, chan_ok; simpl. repeat split; auto; lia.
  - intros k c Hn. apply nth_error_snoc in Hn as [Hn|[-> ->]].
    + apply (pinv_same (r_d s)); [rewrite Hd; simpl..|eauto]; [|reflexivity].
      apply nth_error_lt in Hn. apply Nat.eqb_neq. lia.
    + unfold pinv; simpl. rewrite Nat.eqb_refl. split; [reflexivity | discriminate].
  - discriminate.
  - split; [intros _ | reflexivity]. destruct (r_closed s); [apply Herr; reflexivity | discriminate].
  - intros k c Hn. apply (pinv_same (r_d s)); [rewrite Hd; reflexivity..|eauto].
  - split; [intros _ | reflexivity]. destruct (r_closed s); [apply Herr; reflexivity | discriminate].
Qed.

Lemma reachable_inv : forall ecap qcap s, reachable ecap qcap s -> inv ecap s.
Proof.
  intros ecap qcap. apply (reachable_induction ecap qcap (inv ecap)).
  - apply inv_init.
  - intros s l s' _ Hi Hs. eapply inv_step; eauto.
Qed.

Theorem redial_errors_only_after_close_or_dial_failure :
  forall ecap qcap s l e, reachable ecap qcap s -> user_result s l = UErr e ->
    (g_close_called s = true \/ g_dial_failed s = true) /\ e = r_err s /\ e <> ENone /\ r_closed s = true.
Proof.
  intros ecap qcap s l e Hr Hu.
  destruct (reachable_inv _ _ _ Hr) as [_ Herr Hgh _].
  assert (Hc : r_closed s = true /\ e = r_err s).
  { unfold user_result in Hu.
    destruct l; try discriminate; destruct (r_closed s); try discriminate;
      try (destruct (r_recvq s =? 0); discriminate);
      inversion Hu; auto. }
  destruct Hc as [Hc ->]. repeat split; auto. apply Herr; auto.
Qed.

Theorem redial_closed_only_by_close_or_dial_failure :
  forall ecap qcap s, reachable ecap qcap s -> r_closed s = true ->
    g_close_called s = true \/ g_dial_failed s = true.
Proof.
  intros ecap qcap s Hr Hc. destruct (reachable_inv _ _ _ Hr) as [_ _ Hgh _]. auto.
Qed.

Lemma serving_true : forall d k, serving d k = true -> d = DExch k \/ d = DClose k.
Proof. intros [| |j|j|] k H; try discriminate H; apply Nat.eqb_eq in H; subst; auto. Qed.

(* the close count of every carrier, in every reachable state, read off the dial loop's pc *)
Theorem redial_closed_unless_served :
  forall ecap qcap s k c, reachable ecap qcap s -> nth_error (r_cs s) k = Some c ->
    c_nclose c = if serving (r_d s) k then 0 else 1.
Proof. intros ecap qcap s k c Hr Hn. apply (inv_phase _ _ (reachable_inv _ _ _ Hr) _ _ Hn). Qed.

Theorem redial_one_active_carrier :
  forall ecap qcap s k c, reachable ecap qcap s -> nth_error (r_cs s) k = Some c -> c_closed c = false ->
    r_d s = DExch k \/ r_d s = DClose k.
Proof.
  intros ecap qcap s k c Hr Hn Hc. apply c_closed_false in Hc. apply serving_true.
  rewrite (redial_closed_unless_served _ _ _ _ _ Hr Hn) in Hc.
  destruct (serving (r_d s) k); [reflexivity | discriminate].
Qed.

Corollary redial_at_most_one_open :
  forall ecap qcap s k1 k2 c1 c2, reachable ecap qcap s ->
    nth_error (r_cs s) k1 = Some c1 -> nth_error (r_cs s) k2 = Some c2 ->
    c_closed c1 = false -> c_closed c2 = false -> k1 = k2.
Proof.
  intros ecap qcap s k1 k2 c1 c2 Hr H1 H2 Hc1 Hc2.
  pose proof (redial_one_active_carrier _ _ _ _ _ Hr H1 Hc1) as A.
  pose proof (redial_one_active_carrier _ _ _ _ _ Hr H2 Hc2) as B.
  destruct A as [A|A], B as [B|B]; congruence.
Qed.

Theorem redial_closed_once :
  forall ecap qcap s k c, reachable ecap qcap s -> nth_error (r_cs s) k = Some c -> c_nclose c <= 1.
Proof.
  intros ecap qcap s k c Hr Hn. rewrite (redial_closed_unless_served _ _ _ _ _ Hr Hn).
  destruct (serving (r_d s) k); lia.
Qed.

Theorem redial_done_all_closed :
  forall ecap qcap s, reachable ecap qcap s -> (r_d s = DDone \/ r_d s = DTop \/ r_d s = DDial) ->
    forall k c, nth_error (r_cs s) k = Some c -> c_closed c = true.
Proof.
  intros ecap qcap s Hr Hd k c Hn. apply c_closed_true.
  rewrite (redial_closed_unless_served _ _ _ _ _ Hr Hn).
  destruct Hd as [E|[E|E]]; rewrite E; discriminate.
Qed.

(* the pinned code, ecap = 0 *)
Theorem redial_v0_refuted_leak :
  forall qcap, 0 < qcap -> exists tr s c,
    run_trace 0 qcap tr rs_init = Some s /\ r_closed s = true /\ r_d s = DDone /\
    nth_error (r_cs s) 0 = Some c /\ c_closed c = true /\ c_r c = RSend /\ c_w c = WDone /\
    (forall l s', step 0 qcap s l = Some s' -> s' = s).
Proof.
  intros qcap Hq. destruct qcap as [|q]; [lia|]. clear Hq.
  exists [LDTop; LDialOk; LRTopDefault 0; LUWrite; LWSelPkt 0; LWriteFail 0; LWSendToD 0;
          LDCloseCarrier; LReadFail 0; LUClose; LDTop].
  exists (mkrs true EClosedConn DDone [mkcar RSend WDone (mkch 0 false) (mkch 0 true) 1] 0 0 true false).
  exists (mkcar RSend WDone (mkch 0 false) (mkch 0 true) 1).
  split; [reflexivity|].
  repeat (split; [reflexivity|]).
  intros l s' H.
  destruct l as [ | | | | | |k|k|k|k|k|k|k|k|k|k|k|k|k|k|k|k| | | ];
    try (destruct k as [|[|k]]); cbn in H; try discriminate; inversion H; reflexivity.
Qed.

(* label l, acting on the carrier c at index k, is enabled: its guard evaluates to true *)
Local Ltac en Hn l :=
  right; exists l; split;
  [ simpl; tauto
  | unfold enabled, step, on_car; rewrite Hn; simpl; try reflexivity ].

(* With buffered error channels (ecap = 1, the repaired code) a reader can always move: at its select `default` is there when
   nothing else is ready, a pending ReadFrom may fail, and the send finds the buffer empty. *)
Lemma reader_enabled : forall qcap s k c, nth_error (r_cs s) k = Some c -> hinv 1 c ->
  c_r c = RDone \/ exists l, In l (r_labels k ++ [LReadFail k]) /\ enabled 1 qcap s l = true.
Proof.
  intros qcap s k c Hn [Hr _].
  destruct (c_r c) eqn:Er.
  - destruct (r_closed s) eqn:Ec.
    + en Hn (LRTopClosed k). rewrite Er, Ec. reflexivity.
    + destruct (ch_ready (c_werr c)) eqn:Ew.
      * en Hn (LRTopWerr k). rewrite Er, Ew. reflexivity.
      * en Hn (LRTopDefault k). rewrite Er, Ec, Ew. reflexivity.
  - en Hn (LReadFail k). rewrite Er. reflexivity.
  - en Hn (LRSendBuf k). rewrite Er, (chan_open_empty _ _ Hr). reflexivity.
  - left; reflexivity.
Qed.

(* A writer waiting in its select needs a ready case: c.closed, or readErrCh once the reader is gone. *)
Lemma writer_enabled : forall qcap s k c, nth_error (r_cs s) k = Some c -> hinv 1 c ->
  r_closed s = true \/ c_r c = RDone ->
  c_w c = WDone \/ exists l, In l (w_labels k ++ [LWriteFail k]) /\ enabled 1 qcap s l = true.
Proof.
  intros qcap s k c Hn [[Hrc _] Hw] Hsel.
  destruct (c_w c) eqn:Ew.
  - destruct (r_closed s) eqn:Ec.
    + en Hn (LWSelClosed k). rewrite Ew, Ec. reflexivity.
    + destruct Hsel as [|Er]; [discriminate|]. rewrite Er in Hrc.
      en Hn (LWSelRerr k). rewrite Ew. unfold ch_ready. rewrite Hrc, orb_true_r. reflexivity.
  - en Hn (LWriteFail k). rewrite Ew. reflexivity.
  - en Hn (LWSendBuf k). rewrite Ew, (chan_open_empty _ _ Hw). reflexivity.
  - left; reflexivity.
Qed.

(* a thread of a carrier the adapter has closed is never blocked: it is done or one of its own
   steps (or the forced failure of its pending carrier call) is enabled *)
Theorem redial_v1_closed_carrier_threads_enabled :
  forall qcap s k c, reachable 1 qcap s -> nth_error (r_cs s) k = Some c -> c_closed c = true ->
    (c_r c = RDone \/ exists l, In l (r_labels k ++ [LReadFail k]) /\ enabled 1 qcap s l = true) /\
    (c_w c = WDone \/ exists l, In l (w_labels k ++ [LWriteFail k]) /\ enabled 1 qcap s l = true).
Proof.
  intros qcap s k c Hr Hn Hc.
  pose proof (reachable_inv _ _ _ Hr) as I.
  pose proof (inv_chan _ _ I _ _ Hn) as Hh. pose proof (inv_phase _ _ I _ _ Hn) as Hp.
  split; [eapply reader_enabled; eauto|].
  apply c_closed_true in Hc. apply pinv_idle in Hp as [_ [Hd|Hd]].
  - eapply writer_enabled; eauto.
  - left; exact Hd.
  - destruct Hp as [Hp _]. destruct (serving (r_d s) k); [congruence | reflexivity].
Qed.

Lemma all_done_fold : forall cs,
  (forall k c, nth_error cs k = Some c -> c_r c = RDone /\ c_w c = WDone) ->
  fold_right (fun c n => (if is_rpc (c_r c) RDone then 0 else 1) + (if is_wpc (c_w c) WDone then 0 else 1) + n) 0 cs = 0.
Proof.
  induction cs as [|h t IH]; intros H; simpl; auto.
  destruct (H 0 h eq_refl) as [-> ->]. simpl.
  apply IH. intros k c Hk. apply (H (S k) c Hk).
Qed.

(* after Close (or a dial failure): if nothing but user calls can happen any more, nothing is left *)
Theorem redial_v1_no_thread_left :
  forall qcap s, reachable 1 qcap s ->
    (forall l, user_label l = false -> step 1 qcap s l = None) ->
    threads_left s = 0 /\ r_d s = DDone /\
    (forall k c, nth_error (r_cs s) k = Some c -> c_closed c = true /\ c_r c = RDone /\ c_w c = WDone).
Proof.
  intros qcap s Hr Hstuck.
  assert (Hen : forall l, user_label l = false -> enabled 1 qcap s l = true -> False).
  { intros l Hl He. unfold enabled in He. rewrite (Hstuck l Hl) in He. discriminate. }
  (* a thread that is done unless one of its own labels is enabled is done *)
  assert (Hno : forall (P : Prop) ls, P \/ (exists l, In l ls /\ enabled 1 qcap s l = true) ->
            forallb (fun l => negb (user_label l)) ls = true -> P).
  { intros P ls [HP|(l & Hin & He)] Hls; [exact HP|]. exfalso. apply (Hen l); [|exact He].
    rewrite forallb_forall in Hls. apply negb_true_iff, Hls, Hin. }
  pose proof (reachable_inv _ _ _ Hr) as [Hlen _ _ Hch _].
  assert (Hd : r_d s = DDone).
  { destruct (r_d s) as [| |k|k|] eqn:Ed; auto; exfalso.
    - apply (Hen LDTop eq_refl). unfold enabled, step. rewrite Ed. reflexivity.
    - apply (Hen LDialOk eq_refl). unfold enabled, step. rewrite Ed. reflexivity.
    - destruct (nth_error (r_cs s) k) as [c|] eqn:Hn;
        [|apply nth_error_None in Hn; specialize (Hlen k (Nat.eqb_refl k)); lia].
      pose proof (Hch _ _ Hn) as Hh.
      pose proof (Hno _ _ (reader_enabled qcap s k c Hn Hh) eq_refl) as Er.
      destruct Hh as [[Hrc _] _]. rewrite Er in Hrc.
      apply (Hen LDRecvR eq_refl). unfold enabled, step, on_car, ch_ready.
      rewrite Ed, Hn, Hrc, orb_true_r. reflexivity.
    - destruct (nth_error (r_cs s) k) as [c|] eqn:Hn;
        [|apply nth_error_None in Hn; specialize (Hlen k (Nat.eqb_refl k)); lia].
      apply (Hen LDCloseCarrier eq_refl). unfold enabled, step, on_car. rewrite Ed, Hn. reflexivity. }
  assert (Hall : forall k c, nth_error (r_cs s) k = Some c -> c_closed c = true /\ c_r c = RDone /\ c_w c = WDone).
  { intros k c Hn.
    pose proof (redial_done_all_closed _ _ _ Hr (or_introl Hd) _ _ Hn) as Hc.
    destruct (redial_v1_closed_carrier_threads_enabled _ _ _ _ Hr Hn Hc) as [A B].
    split; [exact Hc|]. split; [exact (Hno _ _ A eq_refl) | exact (Hno _ _ B eq_refl)]. }
  split; [|split; auto].
  unfold threads_left. rewrite Hd. apply all_done_fold.
  intros k c Hn. apply (Hall k c Hn).
Qed.

(* the own steps a reader / writer has left at most before it returns *)
Definition rrank (p : rpc) : nat := match p with RTop => 3 | RRead => 2 | RSend => 1 | RDone => 0 end.
Definition wrank (p : wpc) : nat := match p with WSel => 3 | WWrite => 2 | WSend => 1 | WDone => 0 end.

(* the weights of [mu]: the steps the dial loop, the queued packets and the threads can still take after Close *)
Definition dweight (d : dpc) : nat :=
  match d with DDial => 6 | DExch _ => 3 | DClose _ => 2 | DTop => 1 | DDone => 0 end.
Definition rw (p : rpc) : nat := match p with RTop => 1 | RRead => 2 | RSend => 1 | RDone => 0 end.
Definition ww (p : wpc) : nat := match p with WSel => 1 | WWrite => 2 | WSend => 1 | WDone => 0 end.
Definition csum (cs : list carrier) : nat :=
  fold_right (fun c n => rw (c_r c) + ww (c_w c) + n) 0 cs.
Definition mu (s : rstate) : nat := dweight (r_d s) + 3 * r_sendq s + csum (r_cs s).

Lemma csum_upd : forall l k c c', nth_error l k = Some c ->
  csum (upd l k c') + (rw (c_r c) + ww (c_w c)) = csum l + (rw (c_r c') + ww (c_w c')).
Proof.
  induction l as [|h t IH]; intros k c c' H.
  - destruct k; discriminate.
  - destruct k; simpl in *.
    + inversion H; subst. unfold csum; simpl. lia.
    + specialize (IH _ _ c' H). unfold csum in *; simpl. lia.
Qed.

Lemma csum_app : forall l c, csum (l ++ [c]) = csum l + (rw (c_r c) + ww (c_w c)).
Proof.
  induction l as [|h t IH]; intros c; unfold csum in *; simpl.
  - lia.
  - rewrite IH. lia.
Qed.

(* once closed, every step that is not a user call lowers [mu] *)
Theorem redial_v1_closed_measure_decreases :
  forall ecap qcap s l s', r_closed s = true -> user_label l = false ->
    step ecap qcap s l = Some s' -> mu s' < mu s.
Proof.
  intros ecap qcap s l s' Hcl Hu H.
  destruct (step_shape _ _ _ _ _ H) as [l k c d' c' Hk Hs| Hd | Hd | Hd | l [->| ->] |];
    try discriminate Hu; unfold mu; simpl.
  - pose proof (csum_upd _ _ _ c' Hk).
    destruct Hs; destruct c as [r w re we n]; simpl in *; subst; simpl in *; congruence || lia.
  - rewrite Hcl, Hd. simpl. lia.
  - rewrite csum_app, Hd. simpl. lia.
  - rewrite Hd. simpl. lia.
Qed.

(* no step raises the rank of a thread of a closed carrier, and each of the thread's own steps lowers it *)
Theorem redial_v1_closed_carrier_rank_decreases :
  forall ecap qcap s k c l s' c', nth_error (r_cs s) k = Some c -> c_closed c = true ->
    step ecap qcap s l = Some s' -> nth_error (r_cs s') k = Some c' ->
    rrank (c_r c') <= rrank (c_r c) /\ wrank (c_w c') <= wrank (c_w c) /\
    (In l (r_labels k ++ [LReadFail k; LReadOk k]) -> rrank (c_r c') < rrank (c_r c)) /\
    (In l (w_labels k ++ [LWriteFail k; LWriteOk k]) -> wrank (c_w c') < wrank (c_w c)).
Proof.
  intros ecap qcap s k c l s' c' Hn Hc Hs Hn'.
  destruct (step_carrier _ _ _ _ _ _ _ _ Hs Hn Hn') as [[-> Hl]|Hcs].
  - split; [lia|]. split; [lia|].
    split; intros Hin; exfalso; apply Hl; simpl in Hin; intuition (subst; reflexivity).
  - destruct Hcs; destruct c as [r w re we n]; simpl in *; subst; simpl; try congruence;
      (split; [lia|]; split; [lia|]; split; intros Hin; simpl in Hin;
       intuition (discriminate || lia)).
Qed.

(* sanity: the same schedule on the repaired code leaves no thread *)
Example redial_v1_same_trace_clean :
  forall qcap, 0 < qcap -> exists s,
    run_trace 1 qcap [LDTop; LDialOk; LRTopDefault 0; LUWrite; LWSelPkt 0; LWriteFail 0; LWSendBuf 0;
                      LDRecvW; LDCloseCarrier; LReadFail 0; LRSendBuf 0; LUClose; LDTop] rs_init = Some s /\
    r_closed s = true /\ r_d s = DDone /\ threads_left s = 0.
Proof.
  intros qcap Hq. destruct qcap as [|q]; [lia|]. clear Hq.
  exists (mkrs true EClosedConn DDone [mkcar RDone WDone (mkch 1 true) (mkch 0 true) 1] 0 0 true false).
  split; [vm_compute; reflexivity|]. split; [reflexivity|]. split; reflexivity.
Qed.
