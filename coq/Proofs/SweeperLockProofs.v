(* SweeperLockProofs.v — the sweeper goroutine of NewClientMap, also when the map's lock is busy.

   for { time.Sleep(period); now := time.Now(); m.lock.Lock(); removeExpired(now, timeout); m.lock.Unlock() }
   A sweeper that WAITS for the lock performs its k-th sweep at tick k + d_k, where d_k >= 0 is how long the lock was
   held by somebody else (bounded by D: critical sections of the map are short, or a goroutine was descheduled inside one).
   These are histories of the machine of Proofs/QueueRetentionProofs.v (`swept`, sweeps at arbitrary instants); the
   sweeper that never has to wait is the one with every d_k = 0 ([ticker_idle_client]). *)
From Coq Require Import List ZArith NArith Arith Bool Lia.
From Snow Require Import Model.ClientMap Model.QueueConn.
From Snow Require Import Lib.ListFacts Proofs.ClientMapProofs Proofs.QueueConnProofs Proofs.QueueOutProofs
  Proofs.QueueRetentionProofs.
Import ListNotations.

(* segments of operations, the i-th followed by the (k+i)-th sweep, delayed by snd *)
Fixpoint with_delayed_ticks (phase period : Z) (k : nat) (segs : list (list qop * Z)) : list (list qop * Z) :=
  match segs with
  | [] => []
  | (seg, d) :: rest => (seg, (tick phase period (S k) + d)%Z) :: with_delayed_ticks phase period (S k) rest
  end.

Lemma with_delayed_idle : forall phase period a q segs k,
  Forall (fun x => forallb (idle_op a q) (fst x) = true) segs ->
  idle_segs a q (with_delayed_ticks phase period k segs).
Proof.
  intros phase period a q segs. induction segs as [|[seg d] rest IH]; intros k H; cbn [with_delayed_ticks]; [constructor|].
  inversion H; subst. constructor; [assumption|]. apply IH; assumption.
Qed.

Lemma with_delayed_nth_error : forall phase period segs k i,
  nth_error (with_delayed_ticks phase period k segs) i =
  option_map (fun x => (fst x, (tick phase period (k + S i) + snd x)%Z)) (nth_error segs i).
Proof.
  intros phase period segs. induction segs as [|[sg dd] rest IH]; intros k [|i];
    cbn [with_delayed_ticks nth_error option_map fst snd]; try reflexivity.
  - replace (k + 1) with (S k) by lia. reflexivity.
  - rewrite IH. replace (S k + S i) with (k + S (S i)) by lia. reflexivity.
Qed.

Lemma with_delayed_nth : forall phase period segs k i seg d,
  nth_error segs i = Some (seg, d) ->
  In (seg, (tick phase period (k + S i) + d)%Z) (with_delayed_ticks phase period k segs).
Proof.
  intros phase period segs k i seg d H. apply nth_error_In with i.
  rewrite with_delayed_nth_error, H. reflexivity.
Qed.

Lemma with_delayed_in : forall phase period segs k x,
  In x (with_delayed_ticks phase period k segs) ->
  exists i seg d, nth_error segs i = Some (seg, d) /\ x = (seg, (tick phase period (k + S i) + d)%Z).
Proof.
  intros phase period segs k x H. apply In_nth_error in H as [i H]. rewrite with_delayed_nth_error in H.
  destruct (nth_error segs i) as [[seg d]|] eqn:E; [|discriminate]. injection H as <-. exists i, seg, d. auto.
Qed.

(* sweeps at tick (k0+1) + d_1, tick (k0+2) + d_2, ... with delays d_i >= 0, and a client idle from the k0-th tick on
   whose timeout has run out by the n-th of these ticks: it is gone once n of the sweeps have been made, and it is still
   there as long as every sweep made came before last_seen + timeout *)
Lemma delayed_sweeps : forall cap timeout phase period k0 segs s a r n,
  cm_inv (clients s) -> rec_of (clients s) a = Some r ->
  Forall (fun x => forallb (idle_op a (c_qid r)) (fst x) = true) segs ->
  Forall (fun x => (0 <= snd x)%Z) segs ->
  1 <= n -> (c_seen r + timeout <= tick phase period (k0 + n))%Z ->
  let s' := fst (qrun cap timeout (swept (with_delayed_ticks phase period k0 segs)) s) in
  (n <= length segs -> rec_of (clients s') a = None /\ In (c_qid r) (map fst (dead (clients s')))) /\
  (Forall (fun x => (snd x < c_seen r + timeout)%Z) (with_delayed_ticks phase period k0 segs) ->
     rec_of (clients s') a = Some r).
Proof.
  intros cap timeout phase period k0 segs s a r n Hinv Hrec Hidle Hd Hn1 Hwin.
  pose proof (with_delayed_idle phase period a (c_qid r) segs k0 Hidle) as Hidle'.
  destruct (swept_idle cap timeout (with_delayed_ticks phase period k0 segs) s a r Hinv Hrec Hidle') as [K G].
  cbv zeta. split.
  - intro Hlen. apply G.
    destruct (nth_error segs (n - 1)) as [[seg d]|] eqn:En; [|apply nth_error_None in En; lia].
    pose proof (proj1 (Forall_forall _ _) Hd (seg, d) (nth_error_In _ _ En)) as Hdb. cbn [snd] in Hdb.
    pose proof (with_delayed_nth phase period segs k0 (n - 1) seg d En) as Hin.
    replace (k0 + S (n - 1)) with (k0 + n) in Hin by lia.
    apply Exists_exists. eexists. split; [exact Hin|]. cbn [snd]. lia.
  - intro Hall. apply K. apply Forall_forall. intros x Hx.
    pose proof (proj1 (Forall_forall _ _) Hall x Hx) as X. cbn beta in X. lia.
Qed.

(* a sweeper that waits for the lock: a client idle from the k0-th tick on (not yet due then) is gone after the first sweep
   whose tick is at or after last_seen + timeout, that sweep happens before last_seen + timeout + period + D, and no
   sweep before the timeout removes it *)
Theorem delayed_sweeper_removes : forall cap timeout phase period D k0 segs s a r,
  (0 < period)%Z -> cm_inv (clients s) -> rec_of (clients s) a = Some r ->
  Forall (fun x => forallb (idle_op a (c_qid r)) (fst x) = true) segs ->
  Forall (fun x => (0 <= snd x <= D)%Z) segs ->
  (tick phase period k0 < c_seen r + timeout)%Z ->
  exists n, 1 <= n /\
    (c_seen r + timeout <= tick phase period (k0 + n) < c_seen r + timeout + period)%Z /\
    let s' := fst (qrun cap timeout (swept (with_delayed_ticks phase period k0 segs)) s) in
    (n <= length segs ->
       rec_of (clients s') a = None /\ In (c_qid r) (map fst (dead (clients s'))) /\
       exists seg d, nth_error segs (n - 1) = Some (seg, d) /\
                     (c_seen r + timeout <= tick phase period (k0 + n) + d < c_seen r + timeout + period + D)%Z) /\
    (Forall (fun x => (snd x < c_seen r + timeout)%Z) (with_delayed_ticks phase period k0 segs) ->
       rec_of (clients s') a = Some r).
Proof.
  intros cap timeout phase period D k0 segs s a r Hp Hinv Hrec Hidle Hd Hk0.
  destruct (first_tick phase period k0 (c_seen r + timeout)%Z Hp Hk0) as (n & Hn1 & Hwin & _).
  exists n. split; [exact Hn1|]. split; [exact Hwin|].
  assert (Hd0 : Forall (fun x => (0 <= snd x)%Z) segs) by (revert Hd; apply Forall_impl; intros x X; apply X).
  destruct (delayed_sweeps cap timeout phase period k0 segs s a r n Hinv Hrec Hidle Hd0 Hn1 (proj1 Hwin)) as [G K].
  cbv zeta. split; [|exact K].
  intro Hlen. destruct (G Hlen) as [G1 G2]. split; [exact G1|]. split; [exact G2|].
  destruct (nth_error segs (n - 1)) as [[seg d]|] eqn:En; [|apply nth_error_None in En; lia].
  pose proof (proj1 (Forall_forall _ _) Hd (seg, d) (nth_error_In _ _ En)) as Hdb. cbn [snd] in Hdb.
  exists seg, d. split; [reflexivity | lia].
Qed.

(* the sweeper that never has to wait: every delay is 0 *)
Lemma with_ticks_delayed : forall phase period segs k,
  with_ticks phase period k segs = with_delayed_ticks phase period k (map (fun seg => (seg, 0%Z)) segs).
Proof.
  intros phase period segs. induction segs as [|seg rest IH]; intros k; cbn [with_ticks with_delayed_ticks map]; [reflexivity|].
  rewrite Z.add_0_r, IH. reflexivity.
Qed.

(* The sweeper and an idle client, in one statement: there is an n >= 1 -- the number of the first
   sweep at or after last_seen + timeout, which comes before last_seen + timeout + period -- such
   that after fewer than n further sweeps the client is still there with the same queue and the
   same contents, and after n or more it is gone and its queue is closed. *)
Theorem ticker_idle_client : forall cap timeout phase period pre a r,
  (0 < period)%Z ->
  let k0 := length pre in
  let s := fst (qrun cap timeout (ticked phase period 0 pre) qc_empty) in
  rec_of (clients s) a = Some r ->
  (tick phase period k0 < c_seen r + timeout)%Z ->
  exists n, 1 <= n /\
    (c_seen r + timeout <= tick phase period (k0 + n) < c_seen r + timeout + period)%Z /\
    forall segs, Forall (fun seg => forallb (idle_op a (c_qid r)) seg = true) segs ->
      let s' := fst (qrun cap timeout (ticked phase period 0 (pre ++ segs)) qc_empty) in
      (length segs < n -> rec_of (clients s') a = Some r /\ out_q (clients s') a = c_q r) /\
      (n <= length segs -> rec_of (clients s') a = None /\ In (c_qid r) (map fst (dead (clients s')))).
Proof.
  intros cap timeout phase period pre a r Hp k0 s Hrec Hlast.
  destruct (first_tick phase period k0 (c_seen r + timeout) Hp Hlast) as (n & Hn & Hwin & Hbefore).
  exists n. split; [exact Hn|]. split; [exact Hwin|].
  intros segs Hidle s'.
  assert (Hinv : cm_inv (clients s)) by (apply qrun_inv; exact cm_inv_empty).
  assert (Es' : s' = fst (qrun cap timeout (swept (with_delayed_ticks phase period k0 (map (fun seg => (seg, 0%Z)) segs))) s)).
  { unfold s'. rewrite ticked_app, qrun_app. unfold ticked. rewrite with_ticks_delayed. reflexivity. }
  destruct (delayed_sweeps cap timeout phase period k0 (map (fun seg => (seg, 0%Z)) segs) s a r n Hinv Hrec) as [G K];
    [apply Forall_map; exact Hidle | apply Forall_map, Forall_forall; intros; apply Z.le_refl | exact Hn | apply Hwin |].
  rewrite <- Es', map_length in *. split; [|exact G].
  (* fewer than n sweeps: each was made at a tick before last_seen + timeout *)
  intro Hl. assert (Hr : rec_of (clients s') a = Some r); [|split; [exact Hr | unfold out_q; rewrite Hr; reflexivity]].
  apply K, Forall_forall. intros x Hx. destruct (with_delayed_in _ _ _ _ _ Hx) as (i & seg & d & Hi & ->).
  rewrite nth_error_map in Hi. destruct (nth_error segs i) eqn:Ei; [|discriminate]. injection Hi as _ <-.
  cbn [snd]. rewrite Z.add_0_r. apply Hbefore. apply nth_error_lt in Ei. lia.
Qed.
