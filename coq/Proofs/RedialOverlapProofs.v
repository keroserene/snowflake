(* RedialOverlapProofs.v — "at most one carrier active", stated at the moment of a dial.

   What "closed" means in Model/Redial.v: c_nclose changes in exactly one step, LDCloseCarrier,
   which is a step of the dial loop itself, taken in DClose k (exchange has returned) and leading to
   DTop.  The dial loop is sequential: it reaches DDial, where
   dialContext can return, only through that step.  So LDCloseCarrier stands for the RETURN of
   conn.Close() in dialLoop: a Close that takes long is this step scheduled late (every other
   thread may move in between; a pending ReadFrom/WriteTo may fail at any time anyway), and the
   model's "c_closed c = true" is "Close() on the carrier has returned".  A dial loop that closes
   the finished carrier in another goroutine (`go conn.Close()`) is NOT this machine: the count
   would change by a step that is not the dial loop's.  The driver checks this reading on the code
   with carriers whose Close() blocks until the script releases it (turbotunnel redials, token K<k>). *)
From Coq Require Import List Arith Bool Lia.
From Snow Require Import Model.Redial Proofs.RedialProofs.
Import ListNotations.

Lemma dial_ok_inv : forall ecap qcap s s', step ecap qcap s LDialOk = Some s' ->
  r_d s = DDial /\ r_cs s' = r_cs s ++ [mkcar RTop WSel ch_new ch_new 0] /\ r_d s' = DExch (length (r_cs s)).
Proof.
  intros ecap qcap s s' H. unfold step in H.
  destruct (r_d s) eqn:E; try discriminate.
  inversion H; subst. simpl. auto.
Qed.

(* when dialContext hands out a carrier, every carrier obtained earlier is closed (its Close has
   returned), and afterwards the new carrier is the only one that is open *)
Theorem redial_no_open_carrier_at_dial :
  forall ecap qcap s s', reachable ecap qcap s -> step ecap qcap s LDialOk = Some s' ->
    (forall k c, nth_error (r_cs s) k = Some c -> c_closed c = true) /\
    (exists c', nth_error (r_cs s') (length (r_cs s)) = Some c' /\ c_closed c' = false) /\
    (forall k c, nth_error (r_cs s') k = Some c -> c_closed c = false -> k = length (r_cs s)).
Proof.
  intros ecap qcap s s' Hr Hs.
  destruct (dial_ok_inv _ _ _ _ Hs) as (Hd & Hcs & Hd').
  split; [|split].
  - intros k c Hn. eapply redial_done_all_closed; eauto.
  - exists (mkcar RTop WSel ch_new ch_new 0). split; [|reflexivity].
    rewrite Hcs, nth_error_app2 by lia. rewrite Nat.sub_diag. reflexivity.
  - intros k c Hn Hc.
    pose proof (reachable_step _ _ _ _ _ Hr Hs) as Hr'.
    destruct (redial_one_active_carrier _ _ _ _ _ Hr' Hn Hc) as [A|A]; rewrite Hd' in A; congruence.
Qed.

(* consequently: between two dials the dial loop closed the carrier it served.  In a run, a
   successful dial in a state with carriers is preceded by the close step of the last carrier. *)
Corollary redial_last_carrier_closed_before_next_dial :
  forall ecap qcap s s' c, reachable ecap qcap s -> step ecap qcap s LDialOk = Some s' ->
    nth_error (r_cs s) (length (r_cs s) - 1) = Some c -> c_nclose c = 1.
Proof.
  intros ecap qcap s s' c Hr Hs Hn.
  destruct (redial_no_open_carrier_at_dial _ _ _ _ Hr Hs) as (Hall & _).
  pose proof (Hall _ _ Hn) as Hc. apply c_closed_true in Hc.
  pose proof (redial_closed_once _ _ _ _ _ Hr Hn). lia.
Qed.
