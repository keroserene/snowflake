(* BrokerThms.v — what the broker invariant gives at the level of the properties (answers, relay URLs, the pool, the
   quiescent state), the budget that every step of the broker's own threads consumes ([budget]), and the two ways the
   V0 protocol blocks a request forever ([stuck_pair], [stuck_sender]) with the schedules that lead there. *)
From Coq Require Import List NArith ZArith Bool Arith Lia.
From Snow Require Import Model.Broker Proofs.BrokerLocal Proofs.BrokerProofs Proofs.BrokerSteps.
Import ListNotations.
Open Scope N_scope.

Definition client_answered (c : clrec) (a : answer) : Prop :=
  c_pc c = C_Cleanup (CAnswer a) \/ c_pc c = C_Done (CAnswer a).

(* an answer a client was given is among the answers recorded for the poll holding that client; what the record means is
   read off twice: against the log of answer requests here, against the history in Proofs/BrokerHist.v *)
Lemma answered_posted v br s p e c a :
  reachable v br s -> nth_error (entries s) p = Some e -> e_cl e = Some c -> client_answered c a -> In a (e_posted e).
Proof.
  intros R Hp Hc Ha. destruct (inv_entries v s (reachable_inv v br s R) p e Hp) as [_ [_ [_ [[_ [_ Hans]] _]]]].
  exact (Hans c a Hc Ha).
Qed.

Theorem current_list_is_newest v br s : reachable v br s -> nth_error (br_hist s) 0 = Some (bridges s).
Proof. intros R. apply (inv_hist v s (reachable_inv v br s R)). Qed.

(* the relay URL of a match: configured for the fingerprint of the client whose offer this is, in a list installed
   NOT BEFORE the list current at the client's request. [br_hist] is newest first and grows by one per installation,
   [c_epoch c] is its length at the request: the list current at the request sits at position
   [length (br_hist s) - c_epoch c] (it configures [c_url c]); the list the URL was taken from sits at a position
   i <= that one. With no installation in between (c_epoch c = length) both are the head: m_url = c_url. *)
Theorem match_response_since_request v br s p e m :
  reachable v br s -> nth_error (entries s) p = Some e -> e_w e = W_Done (PMatch m) ->
  exists c, e_cl e = Some c /\ m_offer m = c_offer c /\ m_nat m = c_nat c /\
    (c_epoch c <= length (br_hist s))%nat /\
    (exists b0, nth_error (br_hist s) (length (br_hist s) - c_epoch c) = Some b0 /\ lookup (c_fp c) b0 = Some (c_url c)) /\
    (exists i b, (i <= length (br_hist s) - c_epoch c)%nat /\ nth_error (br_hist s) i = Some b /\
                 lookup (c_fp c) b = Some (m_url m)) /\
    (c_epoch c = length (br_hist s) -> m_url m = c_url c).
Proof.
  intros R Hp Hw. pose proof (reachable_inv v br s R) as I.
  destruct (inv_entries v s I p e Hp) as [_ [[_ [Hm _]] [Hcl _]]].
  destruct (Hm m Hw) as [c [Hc [Ho [Hn [[i [b [Hi [Hb Hl]]]] Hu]]]]]. exists c.
  destruct (Hcl c Hc) as [_ [_ [Hle [Hb0 _]]]].
  split; [exact Hc|]. split; [exact Ho|]. split; [exact Hn|]. split; [exact Hle|]. split; [exact Hb0|]. split.
  - exists i, b. split; [unfold blist in *; lia|]. split; assumption.
  - intros He. destruct Hu as [Hu|Hu]; [exact Hu | unfold blist in *; lia].
Qed.

(* what the positions mean, without reference to the ghost fields of the client record: in any state s' reached from a
   (reachable) state s, the history is the lists installed since s, newest first, followed by the history of s; so
   position [length (br_hist s') - length (br_hist s)] holds the list current in s, and the positions up to it are
   exactly that list and the lists installed after s. With s the state of a client's request (C02_client_checked:
   c_epoch c = length (br_hist s)) this is what the positions of match_response_since_request stand for. *)
Lemma run_hist_suffix v : forall ls s s', run v s ls = Some s' -> exists newer, br_hist s' = newer ++ br_hist s.
Proof.
  apply run_ind.
  - intros s. exists []. reflexivity.
  - intros s l s1 ls s' Hs _ [newer Hn]. destruct (step_hist v s l s1 Hs) as [_ Hh]. rewrite Hn, Hh.
    destruct l; try (exists newer; reflexivity). exists (newer ++ [br]). rewrite <- app_assoc. reflexivity.
Qed.

(* a weaker corollary: some installed list configures the URL *)
Theorem match_response v br s p e m :
  reachable v br s -> nth_error (entries s) p = Some e -> e_w e = W_Done (PMatch m) ->
  exists c, e_cl e = Some c /\ m_offer m = c_offer c /\ m_nat m = c_nat c /\
    (exists b, In b (br_hist s) /\ lookup (c_fp c) b = Some (m_url m)) /\
    (exists b, In b (br_hist s) /\ lookup (c_fp c) b = Some (c_url c)) /\
    (m_url m = c_url c \/ (c_epoch c < length (br_hist s))%nat).
Proof.
  intros R Hp Hw.
  destruct (match_response_since_request v br s p e m R Hp Hw) as [c [Hc [Ho [Hn [Hle [[b0 [Hb0 Hl0]] [[i [b [_ [Hb Hl]]]] Heq]]]]]]].
  exists c. split; [exact Hc|]. split; [exact Ho|]. split; [exact Hn|]. split; [|split].
  - exists b. split; [eapply nth_error_In; exact Hb | exact Hl].
  - exists b0. split; [eapply nth_error_In; exact Hb0 | exact Hl0].
  - destruct (Nat.eq_dec (c_epoch c) (length (br_hist s))) as [E|E]; [left; exact (Heq E) | right; lia].
Qed.

Theorem inheap_iff_waiting v br s p e :
  reachable v br s -> nth_error (entries s) p = Some e ->
  (e_inheap e = true <-> e_cl e = None /\ w_unmatched_waiting (e_w e) = true).
Proof.
  intros R Hp. destruct (inv_entries v s (reachable_inv v br s R) p e Hp) as [Hs _].
  split.
  - intros Hh. destruct (shape_inheap e Hs Hh) as [A [_ B]]. split; assumption.
  - intros [Hc Hw]. unfold shape_ok in Hs. rewrite Hc in Hs.
    destruct (e_w e) as [| | | |m|r]; try discriminate; apply andb_prop in Hs; apply Hs.
Qed.

Lemma pool_empty_spec n es : pool_empty n es = true <-> forall e, In e es -> eligible n e = false.
Proof.
  unfold pool_empty. rewrite negb_true_iff. split.
  - intros H e Hin. destruct (eligible n e) eqn:E; [|reflexivity].
    assert (existsb (eligible n) es = true) by (apply existsb_exists; exists e; split; assumption). congruence.
  - intros H. destruct (existsb (eligible n) es) eqn:E; [|reflexivity].
    apply existsb_exists in E. destruct E as [e [Hin He]]. rewrite (H e Hin) in He. discriminate.
Qed.

Theorem refusal_iff v s n ofp o ch s' :
  step v s (L_Client n ofp o ch) = Some s' -> lookup (fp_of ofp) (bridges s) <> None ->
  (ch = None <-> forall e, In e (entries s) -> eligible n e = false) /\
  (ch = None -> done_clients s' = (next_cid s, n, fp_of ofp, o, CNoProxies) :: done_clients s /\ entries s' = entries s).
Proof.
  intros H Hfp. cbn [step] in H. destruct (lookup (fp_of ofp) (bridges s)) as [u|]; [|congruence].
  destruct ch as [p|].
  - destruct (nth_error (entries s) p) as [e|] eqn:Hp; [|discriminate].
    destruct (eligible n e && is_min n (entries s) e) eqn:He; [|discriminate].
    apply andb_prop in He. destruct He as [He _]. split; [|discriminate].
    split; [discriminate|]. intros Hall. apply nth_error_In in Hp. rewrite (Hall e Hp) in He. discriminate.
  - destruct (pool_empty n (entries s)) eqn:Hpe; [|discriminate]. injection H as <-.
    split; [|intros _; split; reflexivity].
    split; [intros _; apply pool_empty_spec; exact Hpe | reflexivity].
Qed.

Theorem least_loaded v s n ofp o p s' :
  step v s (L_Client n ofp o (Some p)) = Some s' ->
  exists e, nth_error (entries s) p = Some e /\ eligible n e = true /\
    (forall e', In e' (entries s) -> eligible n e' = true -> e_clients e <= e_clients e') /\
    exists c, nth_error (entries s') p = Some (set_cl (Some c) (set_heap_live false (e_live e) e)) /\
              c_nat c = n /\ c_fp c = fp_of ofp /\ c_offer c = o /\ c_pc c = C_Send.
Proof.
  intros H. destruct (client_step_inv v s n ofp o p s' H) as (e & u & Hp & _ & He & Hmin & Hp').
  exists e. split; [exact Hp|]. split; [exact He|]. split.
  - intros e' Hin He'. unfold is_min in Hmin. rewrite forallb_forall in Hmin.
    specialize (Hmin e' Hin). rewrite He' in Hmin. cbn in Hmin. apply N.leb_le. exact Hmin.
  - exists (new_client s n ofp o u). split; [exact Hp'|]. repeat split.
Qed.

Lemma shape_not_pending e : shape_ok e = true -> entry_pending e = false ->
  e_inheap e = false /\ e_live e = false.
Proof.
  intros Hs Hp. unfold entry_pending in Hp.
  apply orb_false_iff in Hp. destruct Hp as [Hp _]. apply orb_false_iff in Hp. destruct Hp as [Hw Hc].
  destruct (e_cl e) as [c|] eqn:Ec.
  - destruct (shape_client e c Hs Ec) as [Hh X]. destruct (c_pc c); try discriminate. split; [exact Hh | apply X].
  - unfold shape_ok in Hs. rewrite Ec in Hs. destruct (e_w e) as [| | | |m|[|m|]]; try discriminate.
    apply andb_prop in Hs. rewrite !negb_true_iff in Hs. exact Hs.
Qed.

Lemma count_live_zero es : (forall e, In e es -> e_live e = false) -> count_live es = 0%Z.
Proof.
  induction es as [|e es IH]; intros H; cbn [count_live]; [reflexivity|].
  rewrite (H e (or_introl eq_refl)). rewrite IH; [reflexivity|]. intros e' Hin. apply H. right. exact Hin.
Qed.

Theorem quiescent_clean v br s : reachable v br s -> quiescent s = true ->
  idmap s = [] /\ count_inheap s = 0%nat /\ gauge s = 0%Z /\
  (forall n e, In e (entries s) -> eligible n e = false).
Proof.
  intros R Hq. pose proof (reachable_inv v br s R) as I.
  unfold quiescent in Hq. rewrite negb_true_iff in Hq.
  assert (Hall : forall e, In e (entries s) -> e_inheap e = false /\ e_live e = false).
  { intros e Hin. destruct (In_nth_error _ _ Hin) as [p Hp].
    destruct (inv_entries v s I p e Hp) as [Hs _]. apply shape_not_pending; [exact Hs|].
    destruct (entry_pending e) eqn:E; [|reflexivity].
    assert (existsb entry_pending (entries s) = true) by (apply existsb_exists; exists e; split; assumption).
    congruence. }
  split; [|split; [|split]].
  - destruct (idmap s) as [|[sd p] rest] eqn:Em; [reflexivity|].
    destruct (inv_idmap v s I sd p) as [e [Hp [_ Hl]]]; [rewrite Em; left; reflexivity|].
    apply nth_error_In in Hp. destruct (Hall e Hp) as [_ Hd]. congruence.
  - unfold count_inheap. destruct (filter e_inheap (entries s)) as [|e l] eqn:Ef; [reflexivity|].
    assert (Hin : In e (filter e_inheap (entries s))) by (rewrite Ef; left; reflexivity).
    apply filter_In in Hin. destruct Hin as [Hin Hh]. destruct (Hall e Hin). congruence.
  - rewrite (inv_gauge v s I). apply count_live_zero. intros e Hin. apply Hall. exact Hin.
  - intros n e Hin. unfold eligible. destruct (Hall e Hin) as [Hh _]. rewrite Hh. reflexivity.
Qed.

Definition internal (l : label) : bool :=
  match l with L_Poll _ _ _ _ | L_Client _ _ _ _ | L_Answer _ _ | L_Install _ => false | _ => true end.

Definition target (l : label) : option nat :=
  match l with
  | L_FireW p | L_WTake p | L_WTimeoutCS p | L_RvOffer p | L_RvForward p | L_FireC p | L_CTake p
  | L_CCleanup p | L_RvAnswer p | L_AnswerPut p | L_CTakeAnswer p => Some p
  | _ => None
  end.

Lemma target_touched s l p : target l = Some p -> touched s l = Some p.
Proof. destruct l; try discriminate; intros H; exact H. Qed.

(* every step of the broker's own threads consumes a bounded budget: no request can be kept busy forever *)
Definition wm (w : wpc) (fired : bool) : nat :=
  match w with
  | W_Select => if fired then 4 else 5
  | W_TimedOut => 3 | W_Late => 2 | W_Forward _ => 1 | W_Stuck => 0 | W_Done _ => 0
  end.
Definition cm (c : clrec) : nat :=
  match c_pc c with C_Send => 4 | C_Wait => if c_fired c then 2 else 3 | C_Cleanup _ => 1 | C_Done _ => 0 end.
Definition em (e : entry) : nat :=
  wm (e_w e) (e_wfired e) + match e_cl e with Some c => cm c | None => 0 end + length (e_senders e).
Fixpoint total (es : list entry) : nat :=
  match es with [] => 0 | e :: es' => em e + total es' end.
Definition budget (s : state) : nat := total (entries s).

Lemma total_upd : forall es p e e', nth_error es p = Some e -> (em e' < em e)%nat ->
  (total (upd p (fun _ => e') es) < total es)%nat.
Proof.
  induction es as [|x es IH]; intros [|p] e e'; cbn [nth_error upd total]; try discriminate.
  - intros H; injection H as ->. lia.
  - intros H Hlt. specialize (IH p e e' H Hlt). lia.
Qed.

Lemma estep_budget s l e e' : estep V1 s l e e' -> internal l = true -> (em e' < em e)%nat.
Proof.
  intros H Hi. destruct H; try discriminate; unfold em, cm; cbn; rewrite ?Hc; cbn; rewrite ?Hw, ?Hpc, ?Hf, ?Hs; cbn; try lia.
  - unfold w_receives in Hw. destruct (e_w e); try discriminate; destruct (e_wfired e), (c_fired c); cbn; lia.
  - destruct (buf_free e); cbn; lia.
  - destruct (c_fired c); lia.
Qed.

Theorem internal_step_decreases s l s' :
  internal l = true -> step V1 s l = Some s' -> (budget s' < budget s)%nat.
Proof.
  intros Hi H. unfold budget.
  destruct (step_inv V1 s l s' H) as [_ [sd n pt cl -> _ _ _ | p e e' _ Hp Hes -> _ _ | _ Hno _ _ _]].
  - discriminate.
  - apply total_upd with e; [exact Hp | exact (estep_budget s l e e' Hes Hi)].
  - destruct l; try discriminate; destruct (Hno _ eq_refl) as [_ [sd [a E]]]; discriminate.
Qed.

(* the pinned protocol (V0) can block requests forever *)
Definition stuck_pair (e : entry) : Prop :=
  e_w e = W_Stuck /\ exists c, e_cl e = Some c /\ c_pc c = C_Send.

Definition stuck_sender (e : entry) : Prop :=
  e_cl e = None /\ e_inheap e = false /\ e_senders e <> [].

Lemma stuck_pair_kept s l e e' : estep V0 s l e e' -> stuck_pair e -> stuck_pair e'.
Proof.
  intros H [Ew [c0 [Ec Epc]]]. destruct H; try congruence; try (split; [exact Ew | exists c0; split; assumption]).
  - split; [exact Ew | eexists; split; reflexivity].
  - rewrite Ew in Hw. discriminate.
Qed.

Lemma stuck_sender_kept s l e e' : estep V0 s l e e' -> stuck_sender e -> stuck_sender e'.
Proof.
  intros H [Ec [Eh Es]]. destruct H; try congruence; try (split; [exact Ec | split; [exact Eh | exact Es]]).
  - apply eligible_inheap in Hel. destruct Hel. congruence.
  - split; [exact Ec|]. split; [exact Eh|]. cbn. intros E. apply app_eq_nil in E. destruct E. discriminate.
Qed.

Lemma forever {P : entry -> Prop} (Pres : forall s l s' p e, step V0 s l = Some s' ->
    nth_error (entries s) p = Some e -> P e -> exists e', nth_error (entries s') p = Some e' /\ P e') :
  forall ls s s' p e, run V0 s ls = Some s' -> nth_error (entries s) p = Some e -> P e ->
  exists e', nth_error (entries s') p = Some e' /\ P e'.
Proof. exact (run_keeps V0 P Pres). Qed.

Definition f1_trace : list label :=
  [L_Poll 1 NatUnrestricted 1 0; L_FireW 0; L_WTake 0; L_Client NatRestricted (Some 7) 100 (Some 0%nat); L_WTimeoutCS 0].
Definition f2_trace : list label :=
  [L_Poll 1 NatUnrestricted 1 0; L_Answer 1 55; L_FireW 0; L_WTake 0; L_WTimeoutCS 0].

(* the same two schedules complete under the repaired protocol *)
Example v1_timeout_match_completes :
  exists s, run V1 (init [(7, 9)])
    (f1_trace ++ [L_RvOffer 0; L_RvForward 0; L_FireC 0; L_CTake 0; L_CCleanup 0]) = Some s /\ quiescent s = true.
Proof. eexists. split; vm_compute; reflexivity. Qed.

Example v1_answer_completes :
  exists s, run V1 (init [(7, 9)]) (f2_trace ++ [L_AnswerPut 0]) = Some s /\ quiescent s = true.
Proof. eexists. split; vm_compute; reflexivity. Qed.
