(* ProxyClientIPProofs.v — under every schedule of the handlers of one proxy, the URL a session is dialled with is
   relay_url_of (default relay) (that session): in particular its client_ip is that session's remote address, or -
   when the proxy knows none - whatever the relay URL itself carried; never another session's. *)
From Coq Require Import List NArith Bool Arith.
From Snow Require Import Lib.Wire Lib.WireFacts Lib.ListFacts Model.ProxyClientIP.
Import ListNotations.
Open Scope nat_scope.

Lemma q_values_set_same k v q : q_values k (q_set k v q) = [v].
Proof.
  unfold q_values, q_set. rewrite filter_app, map_app. cbn [filter fst]. rewrite beq_refl. cbn [map snd].
  replace (filter (fun e => beq (fst e) k) (filter (fun e => negb (beq (fst e) k)) q)) with (@nil (bytes * bytes)); [reflexivity|].
  induction q as [|e q IH]; cbn [filter]; [reflexivity|].
  destruct (beq (fst e) k) eqn:E; cbn [negb]; [exact IH|]. cbn [filter]. rewrite E. exact IH.
Qed.

Lemma q_values_set_other k k' v q : (forall e : bytes * bytes, beq (fst e) k' = true -> beq (fst e) k = false) ->
  q_values k' (q_set k v q) = q_values k' q.
Proof.
  intros Hdis. unfold q_values, q_set. rewrite filter_app, map_app. cbn [filter fst].
  assert (Ekk : beq k k' = false).
  { destruct (beq k k') eqn:E; [|reflexivity]. exfalso. pose proof (Hdis (k, []) E) as H. cbn [fst] in H. rewrite beq_refl in H. discriminate. }
  rewrite Ekk. cbn [map]. rewrite app_nil_r. f_equal.
  induction q as [|e q IH]; cbn [filter]; [reflexivity|].
  destruct (beq (fst e) k) eqn:E; cbn [negb].
  - destruct (beq (fst e) k') eqn:E'; [rewrite (Hdis e E') in E; discriminate | exact IH].
  - cbn [filter]. destruct (beq (fst e) k'); [f_equal; exact IH | exact IH].
Qed.

Lemma hupd_eq h : forall l i x, nth_error l i = Some x -> nth_error (hupd i h l) i = Some h.
Proof. induction l as [|y l IH]; intros [|i] x; cbn [hupd nth_error]; try discriminate; [reflexivity | apply IH]. Qed.
Lemma hupd_neq h : forall l i j, i <> j -> nth_error (hupd i h l) j = nth_error l j.
Proof.
  induction l as [|y l IH]; intros [|i] [|j] H; cbn [hupd nth_error]; try reflexivity; try congruence. apply IH. congruence.
Qed.
Lemma hupd_length h : forall l i, length (hupd i h l) = length l.
Proof. induction l as [|y l IH]; intros [|i]; cbn [hupd length]; try reflexivity. rewrite IH. reflexivity. Qed.

(* the invariant: every handler's own URL value is a function of its own session; a dial is of its handler *)
Definition pc_ok (dflt : rurl) (s : session) (pc : hpc) : Prop :=
  match pc with
  | H_Start | H_Dialed => True
  | H_Parsed u => u = base_of dflt s
  | H_Ready u => u = relay_url_of dflt s
  end.

Record PInv (dflt : rurl) (st : pstate) : Prop := {
  pi_default : p_default st = dflt;
  pi_pc : forall i s pc, nth_error (p_handlers st) i = Some (s, pc) -> pc_ok dflt s pc;
  pi_dial : forall i u, In (i, u) (p_dials st) ->
            exists s, nth_error (p_handlers st) i = Some (s, H_Dialed) /\ u = relay_url_of dflt s;
  pi_once : NoDup (map fst (p_dials st))
}.

Lemma pinv_init dflt : PInv dflt (pinit dflt).
Proof.
  constructor; cbn.
  - reflexivity.
  - intros [|i] s pc H; discriminate.
  - intros i u [].
  - constructor.
Qed.

Fixpoint spawned (tr : list plabel) : list session :=
  match tr with
  | [] => []
  | L_Spawn s :: t => s :: spawned t
  | _ :: t => spawned t
  end.

(* a handler's program is a straight line: its next move, and what the move dials *)
Definition hnext (dflt : rurl) (s : session) (pc : hpc) : hpc * list rurl :=
  match pc with
  | H_Start => (H_Parsed (base_of dflt s), [])
  | H_Parsed u => (H_Ready (match s_addr s with Some a => set_client_ip a u | None => u end), [])
  | H_Ready u => (H_Dialed, [u])
  | H_Dialed => (H_Dialed, [])
  end.

(* a step spawns a handler, or is not enabled, or makes one handler that has not dialled yet take its
   next move: the labels L_Parse / L_SetQuery / L_Dial only say which move they would allow *)
Lemma pstep_cases st l :
  (exists s0, l = L_Spawn s0) \/
  spawned [l] = [] /\
  (pstep st l = st \/
   exists j s pc, nth_error (p_handlers st) j = Some (s, pc) /\ pc <> H_Dialed /\
     pstep st l = mk_pstate (p_default st) (hupd j (s, fst (hnext (p_default st) s pc)) (p_handlers st))
                            (p_dials st ++ map (pair j) (snd (hnext (p_default st) s pc)))).
Proof.
  destruct l as [s0|j|j|j]; [left; exists s0; reflexivity| | |]; right; (split; [reflexivity|]); cbn [pstep].
  all: destruct (nth_error (p_handlers st) j) as [[sj [|u|u|]]|] eqn:Hj; try (left; reflexivity).
  all: right; exists j, sj; eexists; split; [exact Hj|]; split; [discriminate|].
  all: cbn [hnext fst snd map]; rewrite ?app_nil_r; reflexivity.
Qed.

(* the session of a handler never changes, whatever step is taken *)
Lemma pstep_session st l i s pc : nth_error (p_handlers st) i = Some (s, pc) ->
  exists pc', nth_error (p_handlers (pstep st l)) i = Some (s, pc').
Proof.
  intros H. destruct (pstep_cases st l) as [(s0 & ->) | (_ & [-> | (j & sj & pcj & Hj & _ & ->)])]; cbn.
  - exists pc. rewrite nth_error_app1; [exact H|]. eapply nth_error_lt, H.
  - exists pc. exact H.
  - destruct (Nat.eq_dec j i) as [->|Hne]; [|exists pc; rewrite hupd_neq by exact Hne; exact H].
    rewrite H in Hj. injection Hj as <- <-. eexists. eapply hupd_eq, H.
Qed.

Lemma pstep_inv dflt st l : PInv dflt st -> PInv dflt (pstep st l).
Proof.
  intros [Id Ip Idl Io].
  destruct (pstep_cases st l) as [(s0 & ->) | (_ & [-> | (j & sj & pcj & Hj & Hnd & ->)])];
    [| constructor; assumption |]; constructor; cbn [pstep p_default p_handlers p_dials]; try exact Id.
  - intros i s pc H. destruct (nth_error_snoc _ _ _ _ H) as [Ho|[_ E]]; [eapply Ip; exact Ho|].
    injection E as -> ->. exact I.
  - intros i u Hin. destruct (Idl i u Hin) as [s [Hs Hu]]. exists s. split; [|exact Hu].
    rewrite nth_error_app1; [exact Hs|]. eapply nth_error_lt, Hs.
  - exact Io.
  - (* handler j moves: its new URL value is again a function of its own session *)
    intros i s pc H. destruct (Nat.eq_dec j i) as [->|Hne].
    + rewrite (hupd_eq _ _ _ _ Hj) in H. injection H as <- <-. pose proof (Ip _ _ _ Hj) as Hu. rewrite Id.
      destruct pcj; cbn in *; [reflexivity | unfold relay_url_of; rewrite Hu; reflexivity | exact I | exact I].
    + rewrite hupd_neq in H by exact Hne. eapply Ip; exact H.
  - (* a handler that has dialled is not j; the new dial, if any, is j's ready URL *)
    intros i u Hin. apply in_app_or in Hin. destruct Hin as [Hin|Hin].
    + destruct (Idl i u Hin) as [s [Hs Hu]]. exists s. split; [|exact Hu].
      rewrite hupd_neq; [exact Hs|]. intros ->. rewrite Hs in Hj. injection Hj as _ <-. apply Hnd. reflexivity.
    + pose proof (Ip _ _ _ Hj) as Hu. destruct pcj; cbn in Hin, Hu; try contradiction.
      destruct Hin as [[= <- <-]|[]]. exists sj. split; [eapply hupd_eq, Hj | exact Hu].
  - rewrite map_app. destruct pcj; cbn; rewrite ?app_nil_r; try exact Io.
    apply NoDup_snoc; [exact Io|]. intros Hin. apply in_map_iff in Hin. destruct Hin as [[i u0] [Hi Hin]].
    cbn in Hi. subst i. destruct (Idl j u0 Hin) as [s [Hs _]]. rewrite Hs in Hj. discriminate.
Qed.

Theorem prun_inv dflt tr : PInv dflt (prun dflt tr).
Proof.
  unfold prun. assert (G : forall st, PInv dflt st -> PInv dflt (fold_left pstep tr st)).
  { induction tr as [|l tr IH]; intros st I; cbn [fold_left]; [exact I|]. apply IH. apply pstep_inv. exact I. }
  apply G. apply pinv_init.
Qed.

Theorem dial_is_of_its_session : forall dflt tr i u,
  In (i, u) (p_dials (prun dflt tr)) ->
  exists s, nth_error (p_handlers (prun dflt tr)) i = Some (s, H_Dialed) /\ u = relay_url_of dflt s.
Proof. intros dflt tr. apply (pi_dial _ _ (prun_inv dflt tr)). Qed.

Theorem client_ip_of_session : forall dflt s,
  q_values CLIENT_IP (ru_query (relay_url_of dflt s)) =
    match s_addr s with
    | Some a => [a]
    | None => q_values CLIENT_IP (ru_query (base_of dflt s))
    end.
Proof.
  intros dflt s. unfold relay_url_of. destruct (s_addr s) as [a|]; [|reflexivity].
  cbn [set_client_ip ru_query]. apply q_values_set_same.
Qed.

Lemma hupd_fst i s pc : forall l pc0, nth_error l i = Some (s, pc0) -> map fst (hupd i (s, pc) l) = map fst l.
Proof.
  revert i. induction i as [|i IH]; intros [|[s1 pc1] l] pc0 H; cbn in *; try discriminate.
  - injection H as -> _. reflexivity.
  - f_equal. eapply IH. exact H.
Qed.

Lemma pstep_sessions st l : map fst (p_handlers (pstep st l)) = map fst (p_handlers st) ++ spawned [l].
Proof.
  destruct (pstep_cases st l) as [(s0 & ->) | (-> & [-> | (j & sj & pcj & Hj & _ & ->)])]; rewrite ?app_nil_r.
  - cbn. rewrite map_app. reflexivity.
  - reflexivity.
  - cbn. eapply hupd_fst, Hj.
Qed.

