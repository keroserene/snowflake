(* EncapPadProofs.v — WritePadding over any padding buffer (Model/EncapPad.v): invisible to every reader for
   batches up to 8194 bytes whatever the fill, and the first batch size at which the prefix is wrong. *)
From Coq Require Import List NArith Lia.
From Snow Require Import Model.Encap Model.EncapPad Proofs.EncapSweep Proofs.EncapProofs.
Import ListNotations.
Open Scope N_scope.

Theorem padding_buf_exact buf n : 1 <= blen buf -> blen buf <= PADBATCH_MAX ->
  length (write_padding_buf buf n) = N.to_nat n.
Proof. intros H1 H2. destruct (write_padding_buf_ok buf n H1 H2) as [cs [_ [_ [_ H]]]]. exact H. Qed.

Theorem padding_buf_invisible buf n rest sc : 1 <= blen buf -> blen buf <= PADBATCH_MAX ->
  read_stream (write_padding_buf buf n ++ rest) sc = read_stream rest sc.
Proof.
  intros H1 H2. destruct (write_padding_buf_ok buf n H1 H2) as [cs [Hwf [Hd [Hb _]]]].
  rewrite !read_stream_independent, <- Hb. unfold decode_stream.
  rewrite (parse_stream_chunks cs (S (length (chunks_bytes cs ++ rest))) rest Hwf) by lia.
  rewrite (chunks_datas_nodata cs Hd).
  destruct (parse_stream (S (length rest)) rest) as [ds e]. reflexivity.
Qed.

Corollary padding_buf_invisible_alone buf n sc : 1 <= blen buf -> blen buf <= PADBATCH_MAX ->
  read_stream (write_padding_buf buf n) sc = ([], EOF).
Proof.
  intros H1 H2. rewrite <- (app_nil_r (write_padding_buf buf n)).
  rewrite (padding_buf_invisible buf n [] sc H1 H2). rewrite read_stream_independent. reflexivity.
Qed.

(* a batch of 8195 bytes: the prefix announces 0 bytes although 8192 follow *)
Lemma pad_prefix_8195 : pad_prefix 8195 = ([64; 128; 0], 8192) /\ hdr_exact [64; 128; 0] = Some (false, 0).
Proof. split; vm_compute; reflexivity. Qed.
