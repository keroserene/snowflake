(* MessagesProofs.v — the vocabulary of C12 (the per-field reading of a message: hits, fstr/fint/fptr, well_typed,
   valid_nat, fingerprint_valid, absent) and the proofs about Model/JsonBoundary.v and Model/Messages.v. *)
From Coq Require Import List NArith ZArith Lia Bool String.
From Coq Require Import ZifyBool.
From Snow Require Import Lib.Wire Lib.WireFacts Model.JsonBoundary Model.Messages.
Import ListNotations.
Open Scope N_scope.

Lemma dec_parse_aux_digit : forall d r a, d < 10 -> dec_parse_aux ((48 + d) :: r) a = dec_parse_aux r (10 * a + d).
Proof.
  intros d r a H. unfold dec_parse_aux at 1; fold dec_parse_aux.
  replace ((48 <=? 48 + d) && (48 + d <=? 57)) with true by lia.
  f_equal. lia.
Qed.

Lemma digits_parse : forall f n acc, n < 10 ^ N.of_nat f ->
  dec_parse_aux (digits_aux f n acc) 0 = dec_parse_aux acc n.
Proof.
  induction f as [|f IH]; intros n acc H.
  - cbn in H. cbn [digits_aux]. replace n with 0 by lia. reflexivity.
  - rewrite Nat2N.inj_succ, N.pow_succ_r' in H.
    cbn [digits_aux]. destruct (n / 10 =? 0) eqn:E.
    + rewrite dec_parse_aux_digit by (apply N.mod_lt; lia). f_equal.
      apply N.eqb_eq in E. pose proof (N.div_mod n 10). lia.
    + rewrite IH.
      * rewrite dec_parse_aux_digit by (apply N.mod_lt; lia). f_equal.
        pose proof (N.div_mod n 10). lia.
      * apply N.div_lt_upper_bound; lia.
Qed.

Lemma digits_head : forall f n acc, exists d r, digits_aux (S f) n acc = (48 + d) :: r /\ d < 10.
Proof.
  induction f as [|f IH]; intros n acc.
  - exists (n mod 10), acc. cbn [digits_aux]. split; [destruct (n / 10 =? 0); reflexivity | apply N.mod_lt; lia].
  - remember (S f) as g. cbn [digits_aux]. destruct (n / 10 =? 0).
    + exists (n mod 10), acc. split; [reflexivity | apply N.mod_lt; lia].
    + subst g. apply IH.
Qed.

Lemma parse_print_nat : forall n, n < 100000000000000000000 -> dec_parse (print_nat n) = Some n.
Proof.
  intros n H. unfold print_nat.
  destruct (digits_head 19 n []) as (d & r & E & Hd).
  unfold dec_parse. rewrite E. rewrite <- E.
  rewrite digits_parse; [reflexivity|]. exact H.
Qed.

Definition int64 (z : Z) : Prop := (-9223372036854775808 <= z < 9223372036854775808)%Z.

(* a printed natural number starts with a digit, so no sign is stripped from it *)
Lemma parse_print_unsigned : forall n, n < 100000000000000000000 ->
  parse_int64 (print_nat n) =
  if ((-9223372036854775808 <=? Z.of_N n)%Z && (Z.of_N n <? 9223372036854775808)%Z) then Some (Z.of_N n) else None.
Proof.
  intros n H. unfold parse_int64. destruct (digits_head 19 n []) as (d & r & E & Hd). fold (print_nat n) in E. rewrite E.
  replace (48 + d =? 45) with false by lia. replace (48 + d =? 43) with false by lia.
  rewrite <- E, parse_print_nat by exact H. reflexivity.
Qed.

Lemma parse_print_int : forall z, int64 z -> parse_int64 (print_int z) = Some z.
Proof.
  intros z [Hlo Hhi]. destruct z as [|p|p]; unfold print_int.
  - reflexivity.
  - rewrite parse_print_unsigned by lia. change (Z.of_N (N.pos p)) with (Z.pos p).
    replace ((-9223372036854775808 <=? Z.pos p)%Z && (Z.pos p <? 9223372036854775808)%Z) with true by lia.
    reflexivity.
  - unfold parse_int64. rewrite N.eqb_refl, parse_print_nat by lia. change (- Z.of_N (N.pos p))%Z with (Z.neg p).
    replace ((-9223372036854775808 <=? Z.neg p)%Z && (Z.neg p <? 9223372036854775808)%Z) with true by lia.
    reflexivity.
Qed.

(* typed unmarshalling: the single pass of Model/JsonBoundary.v equals a declarative per-field reading (unmarshal_eq) *)

Definition entries (v : json) : list (bytes * json) := match v with JObj es => es | _ => [] end.
Definition is_objb (v : json) : bool := match v with JNull | JObj _ => true | _ => false end.

(* the key selects the field named nm: equal after case folding *)
Definition names_key (nm key : bytes) : bool := beq (fold_name key) (fold_name nm).

(* the values a message carries for field nm, in source order *)
Definition hits (nm : bytes) (es : list (bytes * json)) : list json :=
  map snd (filter (fun kv => names_key nm (fst kv)) es).

Definition kind_ok (t : ftype) (x : json) : bool :=
  match x with
  | JNull => true
  | JStr _ => match t with TInt => false | _ => true end
  | JNum txt => match t with
                | TInt => match parse_int64 txt with Some _ => true | None => false end
                | _ => false
                end
  | _ => false
  end.

(* last string / last integer / last string-or-null occurrence *)
Fixpoint last_str (vs : list json) (d : bytes) : bytes :=
  match vs with
  | [] => d
  | JStr s :: r => last_str r s
  | _ :: r => last_str r d
  end.
Fixpoint last_int (vs : list json) (d : Z) : Z :=
  match vs with
  | [] => d
  | JNum txt :: r => match parse_int64 txt with Some z => last_int r z | None => last_int r d end
  | _ :: r => last_int r d
  end.
Fixpoint last_ptr (vs : list json) (d : option bytes) : option bytes :=
  match vs with
  | [] => d
  | JStr s :: r => last_ptr r (Some s)
  | JNull :: r => last_ptr r None
  | _ :: r => last_ptr r d
  end.

Definition fieldval (t : ftype) (vs : list json) : fval :=
  match t with
  | TStr => VStr (last_str vs [])
  | TInt => VInt (last_int vs 0%Z)
  | TPtr => VPtr (last_ptr vs None)
  end.

(* every entry whose key names a field carries a value of that field's kind *)
Definition entry_ok (sc : schema) (kv : bytes * json) : bool :=
  forallb (fun fd => negb (names_key (fst fd) (fst kv)) || kind_ok (snd fd) (snd kv)) sc.
Definition typed_okb (sc : schema) (v : json) : bool := is_objb v && forallb (entry_ok sc) (entries v).

Definition nodup_folds (sc : schema) : Prop := NoDup (map (fun fd => fold_name (fst fd)) sc).

Definition upd (t : ftype) (x : fval) (v : json) : fval :=
  match assign t x v with Some y => y | None => x end.
Definition final_from (t : ftype) (x : fval) (vs : list json) : fval := fold_left (upd t) vs x.
Definition upd1 (kv : bytes * json) (fd : bytes * ftype) (x : fval) : fval :=
  if names_key (fst fd) (fst kv) then upd (snd fd) x (snd kv) else x.

Fixpoint zipw (f : bytes * ftype -> fval -> fval) (sc : schema) (st : list fval) : list fval :=
  match sc, st with
  | fd :: sc', x :: st' => f fd x :: zipw f sc' st'
  | _, _ => []
  end.

Lemma zipw_length : forall f sc st, List.length st = List.length sc -> List.length (zipw f sc st) = List.length sc.
Proof.
  induction sc as [|fd sc IH]; intros [|x st] H; cbn in *; try reflexivity; try discriminate.
  f_equal. apply IH. lia.
Qed.

Lemma zipw_ext_in : forall f g sc st, (forall fd x, In fd sc -> f fd x = g fd x) -> zipw f sc st = zipw g sc st.
Proof.
  induction sc as [|fd sc IH]; intros [|x st] H; cbn; try reflexivity.
  rewrite H by (left; reflexivity). f_equal. apply IH. intros; apply H; right; assumption.
Qed.

Lemma zipw_id : forall f sc st, List.length st = List.length sc -> (forall fd x, In fd sc -> f fd x = x) -> zipw f sc st = st.
Proof.
  induction sc as [|fd sc IH]; intros [|x st] HL H; cbn in *; try reflexivity; try discriminate.
  rewrite H by (left; reflexivity). f_equal. apply IH; [lia|]. intros; apply H; right; assumption.
Qed.

Lemma zipw_fuse : forall f g sc st, zipw f sc (zipw g sc st) = zipw (fun fd x => f fd (g fd x)) sc st.
Proof.
  induction sc as [|fd sc IH]; intros [|x st]; cbn; try reflexivity. f_equal. apply IH.
Qed.

Lemma zipw_zeros : forall f sc, zipw f sc (zeros sc) = map (fun fd => f fd (zero_of (snd fd))) sc.
Proof. induction sc as [|fd sc IH]; cbn; [reflexivity|]. f_equal. apply IH. Qed.

Lemma assign_kind : forall t x v, assign t x v = None <-> kind_ok t v = false.
Proof.
  intros t x v. destruct v as [|b|txt|s|l|l]; destruct t; cbn; try (split; congruence).
  destruct (parse_int64 txt); split; congruence.
Qed.

Lemma assign_upd : forall t x v, kind_ok t v = true -> assign t x v = Some (upd t x v).
Proof.
  intros t x v H. unfold upd. destruct (assign t x v) eqn:E; [reflexivity|].
  apply assign_kind in E. congruence.
Qed.

Lemma entry_ok_nomatch : forall sc kv, (forall fd, In fd sc -> names_key (fst fd) (fst kv) = false) -> entry_ok sc kv = true.
Proof.
  intros sc kv H. unfold entry_ok. apply forallb_forall. intros fd Hin. rewrite (H fd Hin). reflexivity.
Qed.

Lemma entry_ok_cons : forall fd sc kv,
  entry_ok (fd :: sc) kv = (negb (names_key (fst fd) (fst kv)) || kind_ok (snd fd) (snd kv)) && entry_ok sc kv.
Proof. reflexivity. Qed.

(* field selection: with distinct folded names, the search by exact name and then by folded name finds the one
   field whose folded name is that of the key, which the search by folded name alone finds as well *)
Lemma find_folded_in : forall fk sc i, find_folded fk sc = Some i -> In fk (map (fun fd => fold_name (fst fd)) sc).
Proof.
  induction sc as [|[nm t] sc IH]; intros i H; cbn in H; [discriminate|].
  destruct (beq fk (fold_name nm)) eqn:E; [left; symmetry; apply beq_eq, E|].
  destruct (find_folded fk sc) as [j|]; [right; apply (IH j eq_refl) | discriminate].
Qed.

Lemma find_field_folded : forall key sc, nodup_folds sc -> find_field key sc = find_folded (fold_name key) sc.
Proof.
  intros key sc ND. unfold find_field. destruct (find_exact key sc) as [i|] eqn:F; [symmetry|reflexivity].
  revert i F. induction sc as [|[nm t] sc IH]; intros i F; cbn in F |- *; [discriminate|].
  inversion ND as [|? ? Hn ND']; subst. destruct (beq key nm) eqn:E.
  - apply beq_eq in E. subst nm. rewrite beq_refl. exact F.
  - destruct (find_exact key sc) as [j|]; [|discriminate]. rewrite (IH ND' j eq_refl).
    destruct (beq (fold_name key) (fold_name nm)) eqn:E2; [|exact F].
    apply beq_eq in E2. destruct Hn. cbn [fst]. rewrite <- E2. apply (find_folded_in _ _ j), IH; auto.
Qed.

Lemma step_spec : forall sc st kv, nodup_folds sc -> List.length st = List.length sc ->
  step sc (Some st) kv = if entry_ok sc kv then Some (zipw (upd1 kv) sc st) else None.
Proof.
  intros sc st [key v] ND. unfold step. cbn [fst snd]. rewrite (find_field_folded key sc ND). revert st.
  induction sc as [|[nm t] sc IH]; intros [|x st] HL; try discriminate HL; [reflexivity|].
  inversion ND as [|? ? Hn ND']; subst. injection HL as HL.
  cbn [find_folded store zipw]. rewrite entry_ok_cons. unfold upd1 at 1, names_key. cbn [fst snd].
  destruct (beq (fold_name key) (fold_name nm)) eqn:E; cbn [negb orb andb].
  - (* the head is the field; no field of the tail has its folded name *)
    assert (NM : forall fd, In fd sc -> names_key (fst fd) key = false).
    { intros fd Hin. unfold names_key. apply beq_neq. intros E'. apply Hn. apply beq_eq in E. rewrite <- E, E'.
      apply (in_map (fun fd => fold_name (fst fd))), Hin. }
    rewrite (entry_ok_nomatch sc (key, v) NM), andb_true_r, zipw_id; [| exact HL |].
    + destruct (kind_ok t v) eqn:K; [rewrite (assign_upd _ _ _ K) | rewrite (proj2 (assign_kind t x v) K)]; reflexivity.
    + intros fd y Hin. unfold upd1. cbn [fst]. rewrite (NM fd Hin). reflexivity.
  - specialize (IH ND' st HL). destruct (find_folded (fold_name key) sc) as [j|]; cbn [option_map]; [rewrite IH|];
      destruct (entry_ok sc (key, v)); try reflexivity; [injection IH as <-; reflexivity | discriminate IH].
Qed.

Lemma fold_step_none : forall sc es, fold_left (step sc) es None = None.
Proof. induction es as [|kv es IH]; cbn; [reflexivity | exact IH]. Qed.

Lemma fold_spec : forall sc es st, nodup_folds sc -> List.length st = List.length sc ->
  fold_left (step sc) es (Some st) =
  if forallb (entry_ok sc) es
  then Some (zipw (fun fd x => final_from (snd fd) x (hits (fst fd) es)) sc st) else None.
Proof.
  intros sc es. induction es as [|kv es IH]; intros st ND HL.
  - cbn [fold_left forallb]. rewrite zipw_id; [reflexivity | assumption | reflexivity].
  - cbn [fold_left forallb]. rewrite step_spec by assumption.
    destruct (entry_ok sc kv); [|apply fold_step_none]. cbn [andb].
    rewrite IH; [| assumption | rewrite zipw_length; [reflexivity|assumption]].
    destruct (forallb (entry_ok sc) es); [|reflexivity].
    rewrite zipw_fuse. f_equal. apply zipw_ext_in. intros fd x _.
    unfold upd1, hits. cbn [filter]. destruct (names_key (fst fd) (fst kv)); reflexivity.
Qed.

Lemma final_str : forall vs d, final_from TStr (VStr d) vs = VStr (last_str vs d).
Proof.
  induction vs as [|v vs IH]; intros d; [reflexivity|].
  unfold final_from in *. cbn [fold_left]. destruct v; cbn [upd assign last_str]; unfold upd; cbn [assign]; apply IH.
Qed.
Lemma final_int : forall vs d, final_from TInt (VInt d) vs = VInt (last_int vs d).
Proof.
  induction vs as [|v vs IH]; intros d; [reflexivity|].
  unfold final_from in *. cbn [fold_left]. destruct v; unfold upd; cbn [assign last_int]; try apply IH.
  destruct (parse_int64 t); apply IH.
Qed.
Lemma final_ptr : forall vs d, final_from TPtr (VPtr d) vs = VPtr (last_ptr vs d).
Proof.
  induction vs as [|v vs IH]; intros d; [reflexivity|].
  unfold final_from in *. cbn [fold_left]. destruct v; unfold upd; cbn [assign last_ptr]; apply IH.
Qed.
Lemma final_zero : forall t vs, final_from t (zero_of t) vs = fieldval t vs.
Proof. intros [] vs; cbn [zero_of fieldval]; [apply final_str | apply final_int | apply final_ptr]. Qed.

Theorem unmarshal_eq : forall sc v, nodup_folds sc ->
  unmarshal sc v =
  if typed_okb sc v then Some (map (fun fd => fieldval (snd fd) (hits (fst fd) (entries v))) sc) else None.
Proof.
  intros sc v ND. destruct v as [|b|t|s|l|es]; cbn [unmarshal typed_okb is_objb entries andb forallb]; try reflexivity.
  rewrite fold_spec; [| assumption | unfold zeros; apply map_length].
  destruct (forallb (entry_ok sc) es); [|reflexivity].
  rewrite zipw_zeros. f_equal. apply map_ext. intros fd. apply final_zero.
Qed.

Definition well_typed (sc : schema) (v : json) : Prop :=
  (v = JNull \/ exists es, v = JObj es) /\
  forall key x nm t, In (key, x) (entries v) -> In (nm, t) sc -> fold_name key = fold_name nm -> kind_ok t x = true.

Lemma typed_okb_iff : forall sc v, typed_okb sc v = true <-> well_typed sc v.
Proof.
  intros sc v. unfold typed_okb, well_typed. rewrite andb_true_iff, forallb_forall. split.
  - intros [O F]. split.
    + destruct v; try discriminate; [left; reflexivity | right; eexists; reflexivity].
    + intros key x nm t Hin Hsc Hf. specialize (F _ Hin). unfold entry_ok in F.
      rewrite forallb_forall in F. specialize (F _ Hsc). cbn [fst snd] in F.
      unfold names_key in F. rewrite Hf, beq_refl in F. exact F.
  - intros [O F]. split.
    + destruct O as [->|[es ->]]; reflexivity.
    + intros [key x] Hin. unfold entry_ok. apply forallb_forall. intros [nm t] Hsc. cbn [fst snd].
      destruct (names_key nm key) eqn:E; [|reflexivity]. cbn [negb orb].
      unfold names_key in E. apply beq_eq in E. eapply F; eassumption.
Qed.

(* boolean NoDup for the concrete schemas *)
Fixpoint nodupb (l : list bytes) : bool :=
  match l with
  | [] => true
  | x :: r => negb (existsb (beq x) r) && nodupb r
  end.
Lemma nodupb_sound : forall l, nodupb l = true -> NoDup l.
Proof.
  induction l as [|x l IH]; intros H; [constructor|].
  cbn in H. apply andb_true_iff in H as [H1 H2]. constructor; [|apply IH; assumption].
  intros Hin. apply negb_true_iff in H1.
  assert (existsb (beq x) l = true) by (apply existsb_exists; exists x; split; [assumption | apply beq_refl]).
  congruence.
Qed.
Local Ltac nodup_schema := unfold nodup_folds; apply nodupb_sound; vm_compute; reflexivity.

Lemma nodup_poll_req : nodup_folds poll_req_schema. Proof. nodup_schema. Qed.
Lemma nodup_poll_resp : nodup_folds poll_resp_schema. Proof. nodup_schema. Qed.
Lemma nodup_answer_req : nodup_folds answer_req_schema. Proof. nodup_schema. Qed.
Lemma nodup_answer_resp : nodup_folds answer_resp_schema. Proof. nodup_schema. Qed.
Lemma nodup_client_req : nodup_folds client_req_schema. Proof. nodup_schema. Qed.
Lemma nodup_client_resp : nodup_folds client_resp_schema. Proof. nodup_schema. Qed.

(* first step on any decoder over schema SC: the struct after json.Unmarshal, field by field; a value that is
   not well typed is rejected by every decoder *)
Ltac open_struct ND SC :=
  rewrite unmarshal_eq by apply ND;
  match goal with |- context [typed_okb ?sc ?v] => destruct (typed_okb sc v) end; [|reflexivity];
  cbv [map SC fst snd fieldval].

Definition fstr (v : json) (nm : string) : bytes := last_str (hits (bs nm) (entries v)) [].
Definition fint (v : json) (nm : string) : Z := last_int (hits (bs nm) (entries v)) 0%Z.
Definition fptr (v : json) (nm : string) : option bytes := last_ptr (hits (bs nm) (entries v)) None.

Definition valid_nat (n : bytes) : Prop :=
  n = [] \/ n = NAT_UNKNOWN \/ n = NAT_RESTRICTED \/ n = NAT_UNRESTRICTED.
Definition valid_natb (n : bytes) : bool :=
  beq n [] || beq n NAT_UNKNOWN || beq n NAT_RESTRICTED || beq n NAT_UNRESTRICTED.
Definition nat_default (n : bytes) : bytes := if beq n [] then NAT_UNKNOWN else n.

Lemma valid_natb_iff : forall n, valid_natb n = true <-> valid_nat n.
Proof.
  intros n. unfold valid_natb, valid_nat. rewrite !orb_true_iff, !beq_eq. tauto.
Qed.

Lemma norm_nat_eq : forall n, norm_nat n = if valid_natb n then Some (nat_default n) else None.
Proof.
  intros n. unfold norm_nat, valid_natb, nat_default. destruct (beq n []); [reflexivity|]. cbn [orb].
  destruct (beq n NAT_UNKNOWN || beq n NAT_RESTRICTED || beq n NAT_UNRESTRICTED); reflexivity.
Qed.

Definition fingerprint_valid (fp : bytes) : Prop :=
  exists b, hex_decode fp = Some b /\ (List.length b = 20%nat \/ List.length b = 32%nat).
Lemma fingerprint_ok_iff : forall fp, fingerprint_ok fp = true <-> fingerprint_valid fp.
Proof.
  intros fp. unfold fingerprint_ok, fingerprint_valid. destruct (hex_decode fp) as [b|].
  - rewrite orb_true_iff, !Nat.eqb_eq. split.
    + intros H. exists b. split; [reflexivity|assumption].
    + intros (b' & E & H). injection E as <-. assumption.
  - split; [discriminate | intros (b & E & _); discriminate].
Qed.

Lemma if_err : forall {A} (b : bool) (x : A), (if b then Ok x else Err) = Err <-> b = false.
Proof. intros A [] x; split; congruence. Qed.

Definition poll_req_of (v : json) : poll_req :=
  {| pq_sid := fstr v "Sid"; pq_type := norm_type (fstr v "Type"); pq_nat := nat_default (fstr v "NAT");
     pq_clients := fint v "Clients";
     pq_pattern := match fptr v "AcceptedRelayPattern" with Some p => p | None => [] end;
     pq_aware := match fptr v "AcceptedRelayPattern" with Some _ => true | None => false end |}.

Definition poll_req_acceptb (v : json) : bool :=
  typed_okb poll_req_schema v && major_ok (fstr v "Version") && negb (beq (fstr v "Sid") [])
  && valid_natb (fstr v "NAT").

Lemma decode_proxy_poll_eq : forall v,
  decode_proxy_poll v = if poll_req_acceptb v then Ok (poll_req_of v) else Err.
Proof.
  intros v. unfold decode_proxy_poll, poll_req_acceptb, poll_req_of, fstr, fint, fptr.
  open_struct nodup_poll_req poll_req_schema. rewrite norm_nat_eq. cbn [andb].
  destruct (major_ok _); [|reflexivity]. cbn [negb andb].
  destruct (beq (last_str (hits (bs "Sid") (entries v)) []) []); [reflexivity|]. cbn [negb andb].
  destruct (valid_natb _); reflexivity.
Qed.

Theorem accept_proxy_poll : forall v r, decode_proxy_poll v = Ok r -> r = poll_req_of v.
Proof.
  intros v r. rewrite decode_proxy_poll_eq. destruct (poll_req_acceptb v); congruence.
Qed.

Definition poll_resp_acceptb (v : json) : bool :=
  typed_okb poll_resp_schema v && negb (beq (fstr v "Status") [])
  && (if beq (fstr v "Status") CLIENT_MATCH then negb (beq (fstr v "Offer") []) else beq (fstr v "Status") NO_MATCH).

Definition poll_resp_of (v : json) : bytes * bytes * bytes :=
  ((if beq (fstr v "Status") CLIENT_MATCH then fstr v "Offer" else []), nat_default (fstr v "NAT"), fstr v "RelayURL").

(* the decoder with the failure reason made visible determines the other one *)
Lemma decode_poll_response_reason_eq : forall v,
  decode_poll_response_reason v =
  if poll_resp_acceptb v then PROk (poll_resp_of v)
  else if typed_okb poll_resp_schema v && negb (beq (fstr v "Status") []) && negb (beq (fstr v "Status") CLIENT_MATCH)
       then PRReason (fstr v "Status") (nat_default (fstr v "NAT")) (fstr v "RelayURL")
       else PRErr.
Proof.
  intros v. unfold decode_poll_response_reason, poll_resp_acceptb, poll_resp_of, fstr, nat_default.
  open_struct nodup_poll_resp poll_resp_schema. cbn [andb].
  destruct (beq (last_str (hits (bs "Status") (entries v)) []) []); [reflexivity|].
  destruct (beq _ CLIENT_MATCH); [destruct (beq _ []); reflexivity|].
  destruct (beq _ NO_MATCH); reflexivity.
Qed.

(* it is the decoder of the property with one error class split off *)
Theorem poll_response_reason_refines : forall v,
  decode_poll_response v = match decode_poll_response_reason v with PROk r => Ok r | _ => Err end.
Proof.
  intros v. unfold decode_poll_response, decode_poll_response_reason.
  destruct (unmarshal poll_resp_schema v) as [[|[status| |] [|[offer| |] [|[nat| |] [|[relay| |] [|]]]]]|]; try reflexivity.
  destruct (beq status []); [reflexivity|].
  destruct (beq status CLIENT_MATCH); [destruct (beq offer []); reflexivity|]. destruct (beq status NO_MATCH); reflexivity.
Qed.

Lemma decode_poll_response_eq : forall v,
  decode_poll_response v = if poll_resp_acceptb v then Ok (poll_resp_of v) else Err.
Proof.
  intros v. rewrite poll_response_reason_refines, decode_poll_response_reason_eq.
  destruct (poll_resp_acceptb v); [reflexivity|]. destruct (_ && _); reflexivity.
Qed.

Theorem accept_poll_response : forall v r, decode_poll_response v = Ok r -> r = poll_resp_of v.
Proof. intros v r. rewrite decode_poll_response_eq. destruct (poll_resp_acceptb v); congruence. Qed.

Definition answer_req_acceptb (v : json) : bool :=
  typed_okb answer_req_schema v && major_ok (fstr v "Version")
  && negb (beq (fstr v "Sid") [] || beq (fstr v "Answer") []).

Lemma decode_answer_request_eq : forall v,
  decode_answer_request v = if answer_req_acceptb v then Ok (fstr v "Answer", fstr v "Sid") else Err.
Proof.
  intros v. unfold decode_answer_request, answer_req_acceptb, fstr.
  open_struct nodup_answer_req answer_req_schema. cbn [andb].
  destruct (major_ok _); [|reflexivity]. cbn [negb andb].
  destruct (beq (last_str (hits (bs "Sid") (entries v)) []) [] || beq (last_str (hits (bs "Answer") (entries v)) []) []); reflexivity.
Qed.

Lemma decode_answer_response_eq : forall v,
  decode_answer_response v =
  if typed_okb answer_resp_schema v && negb (beq (fstr v "Status") []) then Ok (beq (fstr v "Status") SUCCESS) else Err.
Proof.
  intros v. unfold decode_answer_response, fstr.
  open_struct nodup_answer_resp answer_resp_schema. cbn [andb].
  destruct (beq (last_str (hits (bs "Status") (entries v)) []) []); reflexivity.
Qed.

Definition fp_default (fp : bytes) : bytes := if beq fp [] then DEFAULT_FINGERPRINT else fp.

Definition client_req_acceptb (v : json) : bool :=
  typed_okb client_req_schema v && negb (beq (fstr v "offer") [])
  && fingerprint_ok (fp_default (fstr v "fingerprint")) && valid_natb (fstr v "nat").

Lemma decode_client_poll_body_eq : forall v,
  decode_client_poll_body v =
  if client_req_acceptb v
  then Ok (fstr v "offer", nat_default (fstr v "nat"), fp_default (fstr v "fingerprint")) else Err.
Proof.
  intros v. unfold decode_client_poll_body, client_req_acceptb, fp_default, fstr.
  open_struct nodup_client_req client_req_schema. rewrite norm_nat_eq. cbn [andb].
  destruct (beq (last_str (hits (bs "offer") (entries v)) []) []); [reflexivity|]. cbn [negb andb].
  destruct (fingerprint_ok _); [|reflexivity]. cbn [negb andb].
  destruct (valid_natb _); reflexivity.
Qed.

Theorem reject_iff_client_poll_body : forall v,
  decode_client_poll_body v = Err <->
  ~ well_typed client_req_schema v \/ fstr v "offer" = []
  \/ ~ fingerprint_valid (fp_default (fstr v "fingerprint")) \/ ~ valid_nat (fstr v "nat").
Proof.
  intros v. rewrite decode_client_poll_body_eq, if_err. unfold client_req_acceptb.
  rewrite !andb_false_iff, negb_false_iff, beq_eq.
  rewrite <- typed_okb_iff, <- valid_natb_iff, <- fingerprint_ok_iff, !not_true_iff_false. tauto.
Qed.

Theorem accept_client_poll_body : forall v r, decode_client_poll_body v = Ok r ->
  r = (fstr v "offer", nat_default (fstr v "nat"), fp_default (fstr v "fingerprint")).
Proof. intros v r. rewrite decode_client_poll_body_eq. destruct (client_req_acceptb v); congruence. Qed.

Lemma split_nl_some : forall l a b, split_nl l = Some (a, b) -> l = a ++ 10 :: b /\ ~ In 10 a.
Proof.
  induction l as [|c l IH]; intros a b H; cbn [split_nl] in H; [discriminate|].
  destruct (c =? 10) eqn:E.
  - apply N.eqb_eq in E. subst c. injection H as <- <-. split; [reflexivity | intros []].
  - apply N.eqb_neq in E. destruct (split_nl l) as [[a' b']|]; [|discriminate].
    injection H as <- <-. destruct (IH a' b' eq_refl) as [-> N']. split; [reflexivity|].
    intros [H|H]; [congruence|contradiction].
Qed.

Lemma split_nl_none : forall l, split_nl l = None <-> ~ In 10 l.
Proof.
  induction l as [|c l IH]; cbn [split_nl In]; [tauto|].
  destruct (N.eqb_spec c 10) as [->|E]; [intuition discriminate|].
  destruct (split_nl l) as [[a b]|]; intuition discriminate.
Qed.

Lemma decode_client_response_eq : forall v,
  decode_client_response v =
  if typed_okb client_resp_schema v && negb (beq (fstr v "error") [] && beq (fstr v "answer") [])
  then Ok (fstr v "answer", fstr v "error") else Err.
Proof.
  intros v. unfold decode_client_response, fstr.
  open_struct nodup_client_resp client_resp_schema. cbn [andb].
  destruct (beq (last_str (hits (bs "error") (entries v)) []) [] && beq (last_str (hits (bs "answer") (entries v)) []) []); reflexivity.
Qed.

(* byte level: the library parser as a Section variable *)
Section Bytes.
  Variable parse : bytes -> option json.      (* encoding/json: None = not one valid JSON text *)

  Theorem reject_iff_bytes : forall {A} (d : json -> result A) data,
    opt_decode d (parse data) = Err <-> parse data = None \/ exists v, parse data = Some v /\ d v = Err.
  Proof.
    intros A d data. unfold opt_decode. destruct (parse data) as [v|].
    - split; [intros H; right; exists v; split; [reflexivity|assumption]|].
      intros [H|(v' & H & E)]; [discriminate|]. injection H as <-. assumption.
    - split; [left|]; reflexivity.
  Qed.

  Theorem reject_iff_client_poll : forall data,
    decode_client_poll parse data = Err <->
    ~ In 10 data
    \/ exists ver body, split_nl data = Some (ver, body) /\
         (ver <> CLIENT_VERSION \/ parse body = None \/
          exists v, parse body = Some v /\
            (~ well_typed client_req_schema v \/ fstr v "offer" = []
             \/ ~ fingerprint_valid (fp_default (fstr v "fingerprint")) \/ ~ valid_nat (fstr v "nat"))).
  Proof.
    intros data. rewrite <- split_nl_none. unfold decode_client_poll.
    destruct (split_nl data) as [[ver body]|]; [|split; auto].
    assert (Q : (if beq ver CLIENT_VERSION then opt_decode decode_client_poll_body (parse body) else Err) = Err <->
                ver <> CLIENT_VERSION \/ parse body = None \/ exists v, parse body = Some v /\ decode_client_poll_body v = Err).
    { destruct (beq ver CLIENT_VERSION) eqn:E; [apply beq_eq in E; rewrite reject_iff_bytes | apply beq_neq in E]; tauto. }
    setoid_rewrite <- reject_iff_client_poll_body. rewrite Q.
    split; [eauto|]. intros [H|(ver' & body' & [= <- <-] & R)]; [discriminate | exact R].
  Qed.

  Lemma client_poll_accept : forall data r, decode_client_poll parse data = Ok r ->
    exists body v, data = CLIENT_VERSION ++ 10 :: body /\ parse body = Some v /\ decode_client_poll_body v = Ok r.
  Proof.
    intros data r. unfold decode_client_poll. destruct (split_nl data) as [[ver body]|] eqn:S; [|discriminate].
    destruct (beq ver CLIENT_VERSION) eqn:E; [|discriminate]. apply beq_eq in E. subst ver.
    unfold opt_decode. destruct (parse body) as [v|] eqn:P; [|discriminate]. intros H.
    exists body, v. split; [apply split_nl_some in S; tauto | split; assumption].
  Qed.
End Bytes.

(* For a round trip: the argument of the decoder is the encoder's output, a JSON value whose keys and shape are
   literals and whose leaves are the variables of the theorem.  [eval_enc] evaluates every field reading (fstr / fint /
   fptr) and every typed_okb of the goal on that value; the result mentions the leaves only, so what is left of the
   goal is the decoder's checks on the fields that were encoded.  parse_int64 and print_int stay folded: that an
   integer field reads back is parse_print_int, not an evaluation. *)
Ltac eval_enc :=
  repeat match goal with
  | |- context [fstr ?E ?nm] =>
      let r := eval cbv -[parse_int64 print_int] in (fstr E nm) in change (fstr E nm) with r
  | |- context [fint ?E ?nm] =>
      let r := eval cbv -[parse_int64 print_int] in (fint E nm) in change (fint E nm) with r
  | |- context [fptr ?E ?nm] =>
      let r := eval cbv -[parse_int64 print_int] in (fptr E nm) in change (fptr E nm) with r
  | |- context [typed_okb ?sc ?E] =>
      let r := eval cbv -[parse_int64 print_int] in (typed_okb sc E) in change (typed_okb sc E) with r
  end.

Lemma fp_default_idem : forall fp, fp_default (fp_default fp) = fp_default fp.
Proof.
  intros fp. unfold fp_default. destruct (beq fp []) eqn:E; [reflexivity|].
  rewrite E. reflexivity.
Qed.

Theorem roundtrip_client_poll_body : forall offer nat fp,
  offer <> [] -> valid_nat nat -> fingerprint_valid (fp_default fp) ->
  decode_client_poll_body (encode_client_poll offer nat fp) = Ok (offer, nat_default nat, fp_default fp).
Proof.
  intros offer nat fp Ho Hn Hf. rewrite decode_client_poll_body_eq. unfold client_req_acceptb, encode_client_poll.
  fold (fp_default fp). pose proof (fp_default_idem fp) as I. apply fingerprint_ok_iff in Hf.
  remember (fp_default fp) as fp'. eval_enc.
  rewrite I, Hf, (beq_nil_false _ Ho), (proj2 (valid_natb_iff _) Hn). reflexivity.
Qed.

(* byte level, round trips: all that is needed of encoding/json is that it reads back what it prints (parse_print) *)
Section Library.
  Variable parse : bytes -> option json.
  Variable print : json -> bytes.
  Variable printable : json -> Prop.     (* e.g. every string is valid UTF-8 *)
  Hypothesis parse_print : forall v, printable v -> parse (print v) = Some v.

  Theorem roundtrip_bytes : forall {A} (d : json -> result A) v r,
    printable v -> d v = r -> opt_decode d (parse (print v)) = r.
  Proof. intros A d v r P H. rewrite (parse_print v P). exact H. Qed.

  Theorem roundtrip_client_poll_bytes : forall offer nat fp,
    printable (encode_client_poll offer nat fp) ->
    offer <> [] -> valid_nat nat -> fingerprint_valid (fp_default fp) ->
    decode_client_poll parse (encode_client_poll_bytes print offer nat fp) = Ok (offer, nat_default nat, fp_default fp).
  Proof.
    intros offer nat fp P Ho Hn Hf. unfold decode_client_poll, encode_client_poll_bytes.
    change (split_nl (CLIENT_VERSION ++ [10] ++ print (encode_client_poll offer nat fp)))
      with (Some (CLIENT_VERSION, print (encode_client_poll offer nat fp))).
    cbv beta iota. rewrite beq_refl. apply roundtrip_bytes; [assumption|]. apply roundtrip_client_poll_body; assumption.
  Qed.
End Library.

Definition absent (nm : string) (v : json) : Prop :=
  forall key x, In (key, x) (entries v) -> fold_name key <> fold_name (bs nm).

Lemma absent_hits : forall nm v, absent nm v -> hits (bs nm) (entries v) = [].
Proof.
  intros nm v H. unfold hits, absent in *. induction (entries v) as [|[key x] es IH]; [reflexivity|].
  cbn [filter fst]. destruct (names_key (bs nm) key) eqn:E.
  - unfold names_key in E. apply beq_eq in E. exfalso. apply (H key x); [left; reflexivity | exact E].
  - apply IH. intros k y Hin. apply (H k y). right. assumption.
Qed.

Lemma absent_fstr : forall nm v, absent nm v -> fstr v nm = [].
Proof. intros nm v A. unfold fstr. rewrite (absent_hits _ _ A). reflexivity. Qed.

Lemma absent_fptr : forall nm v, absent nm v -> fptr v nm = None.
Proof. intros nm v A. unfold fptr. rewrite (absent_hits _ _ A). reflexivity. Qed.

Theorem defaults : 
  (forall v r, decode_proxy_poll v = Ok r -> absent "NAT" v -> pq_nat r = NAT_UNKNOWN) /\
  (forall v r, decode_proxy_poll v = Ok r -> known_type (fstr v "Type") = false -> pq_type r = PROXY_UNKNOWN) /\
  (forall v r, decode_proxy_poll v = Ok r -> known_type (fstr v "Type") = true -> pq_type r = fstr v "Type") /\
  (forall v r, decode_proxy_poll v = Ok r -> absent "AcceptedRelayPattern" v -> pq_aware r = false /\ pq_pattern r = []) /\
  (forall v r p, decode_proxy_poll v = Ok r -> fptr v "AcceptedRelayPattern" = Some p -> pq_aware r = true /\ pq_pattern r = p) /\
  (forall v o n u, decode_poll_response v = Ok (o, n, u) -> absent "NAT" v -> n = NAT_UNKNOWN) /\
  (forall v o n f, decode_client_poll_body v = Ok (o, n, f) -> absent "nat" v -> n = NAT_UNKNOWN) /\
  (forall v o n f, decode_client_poll_body v = Ok (o, n, f) -> absent "fingerprint" v -> f = DEFAULT_FINGERPRINT).
Proof.
  repeat apply conj.
  - intros v r H A. rewrite (accept_proxy_poll v r H). cbn [pq_nat poll_req_of]. rewrite (absent_fstr _ _ A). reflexivity.
  - intros v r H K. rewrite (accept_proxy_poll v r H). cbn [pq_type poll_req_of]. unfold norm_type. rewrite K. reflexivity.
  - intros v r H K. rewrite (accept_proxy_poll v r H). cbn [pq_type poll_req_of]. unfold norm_type. rewrite K. reflexivity.
  - intros v r H A. rewrite (accept_proxy_poll v r H). cbn [pq_aware pq_pattern poll_req_of].
    rewrite (absent_fptr _ _ A). split; reflexivity.
  - intros v r p H E. rewrite (accept_proxy_poll v r H). cbn [pq_aware pq_pattern poll_req_of]. rewrite E. split; reflexivity.
  - intros v o n u H A. apply accept_poll_response in H. injection H as _ -> _. rewrite (absent_fstr _ _ A). reflexivity.
  - intros v o n f H A. apply accept_client_poll_body in H. injection H as _ -> _. rewrite (absent_fstr _ _ A). reflexivity.
  - intros v o n f H A. apply accept_client_poll_body in H. injection H as _ _ ->. rewrite (absent_fstr _ _ A). reflexivity.
Qed.
