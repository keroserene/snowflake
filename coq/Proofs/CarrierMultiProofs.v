(* CarrierMultiProofs.v — a session carried over ANY number of carriers (sequential, overlapping, cut anywhere):
   what the server queues for the session is the in-order union of the complete packets decoded from each
   carrier's own byte stream: no packet from another session, none invented, none reordered within a carrier.
   [sent_on i ops] is the bytes the peer sent on carrier i in the schedule [ops] (syntactic: the concatenation of the
   S_Recv i pieces after the carrier exists); [offered ops] the ghost log, in time order, of every packet a read loop
   handed to QueueIncoming: (carrier, ClientID presented by that carrier, packet). *)
From Coq Require Import List NArith Bool Arith Lia.
From Snow Require Import Lib.Wire Lib.ListFacts Model.Encap Model.CarrierLayer Model.CarrierTimed
  Proofs.CarrierFragProofs Proofs.CarrierProofs.
Import ListNotations.
Open Scope N_scope.

Definition strip (k : carrier) : carrier :=
  {| k_state := k_state k; k_cid := k_cid k; k_buf := k_buf k; k_up := k_up k; k_down := []; k_wire := [] |}.

Lemma pump_strip : forall fuel k, pump fuel (strip k) = (strip (fst (pump fuel k)), snd (pump fuel k)).
Proof.
  induction fuel as [|f IH]; intros k; [reflexivity|].
  rewrite (pump_S f k), (pump_S f (strip k)). cbn [strip k_state k_buf k_cid k_up k_down k_wire].
  destruct (k_state k) eqn:Es.
  - destruct (length (k_buf k) <? 8)%nat; [cbn [fst snd]; unfold strip; rewrite ?Es; reflexivity|].
    destruct (beq (firstn 8 (k_buf k)) TOKEN); [|reflexivity].
    match goal with |- pump f ?A = (_ (fst (pump f ?B)), _) => change A with (strip B) end. apply IH.
  - destruct (length (k_buf k) <? 8)%nat; [cbn [fst snd]; unfold strip; rewrite ?Es; reflexivity|].
    match goal with |- pump f ?A = (_ (fst (pump f ?B)), _) => change A with (strip B) end. apply IH.
  - destruct (parse_one (k_buf k)) as [isd d rest| | |] eqn:Ep; try (cbn [fst snd]; unfold strip; rewrite ?Es; reflexivity).
    set (k1 := {| k_state := K_Open; k_cid := k_cid k; k_buf := rest; k_up := if isd then k_up k ++ [d] else k_up k;
                  k_down := k_down k; k_wire := k_wire k |}).
    change {| k_state := K_Open; k_cid := k_cid k; k_buf := rest; k_up := if isd then k_up k ++ [d] else k_up k;
              k_down := []; k_wire := [] |} with (strip k1).
    rewrite (IH k1). destruct (pump f k1) as [k2 ps2].
    reflexivity.
  - cbn [fst snd]. unfold strip. rewrite ?Es. reflexivity.
Qed.

Lemma feed_strip k b : feed (strip k) b = (strip (fst (feed k b)), snd (feed k b)).
Proof.
  unfold feed. cbn [strip k_state]. destruct (k_state k) eqn:Es; try reflexivity;
  (assert (Hm : more (strip k) b = strip (more k b)) by reflexivity; rewrite Hm;
   assert (Hn : need (strip (more k b)) = need (more k b)) by reflexivity; rewrite Hn; apply pump_strip).
Qed.

Lemma strip_kill k : strip (kill k) = kill (strip k).
Proof. reflexivity. Qed.

Lemma strip_idem k : strip (strip k) = strip k.
Proof. reflexivity. Qed.

Definition sent_step (i : nat) (acc : nat * bytes) (o : sop) : nat * bytes :=
  match o with
  | S_New => (S (fst acc), snd acc)
  | S_Recv j b => if (Nat.eqb j i && Nat.ltb i (fst acc))%bool then (fst acc, snd acc ++ b) else acc
  | _ => acc
  end.
Definition sent_acc (i : nat) (ops : list sop) : nat * bytes := fold_left (sent_step i) ops (0%nat, []).
Definition sent_on (i : nat) (ops : list sop) : bytes := snd (sent_acc i ops).

Lemma sent_acc_snoc i ops o : sent_acc i (ops ++ [o]) = sent_step i (sent_acc i ops) o.
Proof. unfold sent_acc. rewrite fold_left_app. reflexivity. Qed.

Lemma sent_acc_count i : forall ops, fst (sent_acc i ops) = length (carriers (srun ops)).
Proof.
  induction ops as [|o ops IH] using rev_ind; [reflexivity|].
  rewrite sent_acc_snoc, srun_app, sstep_ncarriers. unfold sent_step.
  destruct o; try exact IH.
  - cbn [fst]. rewrite IH. reflexivity.
  - destruct (Nat.eqb i0 i && Nat.ltb i (fst (sent_acc i ops)))%bool; exact IH.
Qed.

(* carrier k (at index i) is explained by the bytes [sent] sent on it: it queued, under the ClientID it presented,
   exactly what the one-carrier read loop decodes from the first n of them; n is all of them — and the upstream view
   IS that read loop's state — as long as the carrier is alive *)
Definition explained (k : carrier) (sent : bytes) : Prop :=
  exists n, (n <= length sent)%nat /\
    k_up k = k_up (fst (feed new_carrier (firstn n sent))) /\
    k_cid k = k_cid (fst (feed new_carrier (firstn n sent))) /\
    (k_state k <> K_Dead -> n = length sent /\ strip k = strip (fst (feed new_carrier sent))).

Lemma feed_up k b : k_up (fst (feed k b)) = k_up k ++ snd (feed k b).
Proof. exact (po_up _ _ _ (feed_ok k b)). Qed.

Lemma feed_new_up s : k_up (fst (feed new_carrier s)) = snd (feed new_carrier s).
Proof. rewrite feed_up. reflexivity. Qed.

Lemma feed_strip_eq k k0 b : strip k = strip k0 ->
  strip (fst (feed k b)) = strip (fst (feed k0 b)) /\ snd (feed k b) = snd (feed k0 b).
Proof.
  intros H. pose proof (feed_strip k b) as A. pose proof (feed_strip k0 b) as B. rewrite H in A. rewrite A in B.
  split; [exact (f_equal fst B) | exact (f_equal snd B)].
Qed.

Lemma strip_fields k k0 : strip k = strip k0 ->
  k_state k = k_state k0 /\ k_cid k = k_cid k0 /\ k_buf k = k_buf k0 /\ k_up k = k_up k0.
Proof. unfold strip. intros H. injection H as -> -> -> ->. repeat split. Qed.

Lemma explained_new : explained new_carrier [].
Proof. exists 0%nat. split; [cbn; lia|]. cbn [firstn]. repeat split. Qed.

Lemma explained_feed k sent b : k_state k <> K_Dead -> explained k sent -> explained (fst (feed k b)) (sent ++ b).
Proof.
  intros Hal [n [Hn [Hup [Hcid Halive]]]]. destruct (Halive Hal) as [-> Hst].
  set (k0 := fst (feed new_carrier sent)) in *.
  assert (Hfa : fst (feed new_carrier (sent ++ b)) = fst (feed k0 b)).
  { rewrite (feed_app new_carrier sent b) by discriminate. unfold k0.
    destruct (feed new_carrier sent) as [k1 ps1]. cbn [fst]. destruct (feed k1 b) as [k2 ps2]. reflexivity. }
  destruct (feed_strip_eq k k0 b Hst) as [Hs2 _].
  destruct (strip_fields _ _ Hs2) as [_ [Hc [_ Hu]]].
  exists (length (sent ++ b)). split; [lia|]. rewrite firstn_all, Hfa.
  split; [exact Hu|]. split; [exact Hc|]. intros _. split; [reflexivity | exact Hs2].
Qed.

Lemma explained_dead_more k sent b : k_state k = K_Dead -> explained k sent -> explained k (sent ++ b).
Proof.
  intros Hd [n [Hn [Hup [Hcid _]]]]. exists n. rewrite firstn_app. replace (n - length sent)%nat with 0%nat by lia.
  cbn [firstn]. rewrite app_nil_r, app_length. split; [lia|]. split; [exact Hup|]. split; [exact Hcid|]. congruence.
Qed.

Lemma explained_kill k sent : explained k sent -> explained (kill k) sent.
Proof.
  intros [n [Hn [Hup [Hcid _]]]]. exists n. split; [exact Hn|]. split; [exact Hup|]. split; [exact Hcid|].
  cbn. congruence.
Qed.

Lemma explained_same_up k k' sent : strip k' = strip k -> explained k sent -> explained k' sent.
Proof.
  intros Hs [n [Hn [Hup [Hcid Hal]]]]. destruct (strip_fields _ _ Hs) as [Hst [Hc [_ Hu]]].
  exists n. split; [exact Hn|]. rewrite Hu, Hc. split; [exact Hup|]. split; [exact Hcid|].
  rewrite Hst, Hs. exact Hal.
Qed.

Lemma sent_on_snoc i ops o : sent_on i (ops ++ [o]) =
  match o with
  | S_Recv j b => if (Nat.eqb j i && Nat.ltb i (length (carriers (srun ops))))%bool then sent_on i ops ++ b else sent_on i ops
  | _ => sent_on i ops
  end.
Proof.
  unfold sent_on. rewrite sent_acc_snoc. unfold sent_step. destruct o; try reflexivity.
  rewrite sent_acc_count. destruct (Nat.eqb i0 i && Nat.ltb i (length (carriers (srun ops))))%bool; reflexivity.
Qed.

Lemma sent_on_fresh i ops : (length (carriers (srun ops)) <= i)%nat -> sent_on i ops = [].
Proof.
  induction ops as [|o ops IH] using rev_ind; intros H; [reflexivity|].
  rewrite srun_app, sstep_ncarriers in H. rewrite sent_on_snoc.
  destruct o; try (apply IH; lia).
  destruct (Nat.ltb_spec i (length (carriers (srun ops)))) as [Hlt|Hge]; [lia|].
  rewrite andb_false_r. apply IH. lia.
Qed.

(* where a carrier of the next state comes from ([sstep_carriers], read at one index): S_New appends a fresh one;
   S_Recv i feeds carrier i; every other operation leaves a carrier as it is, closes it, or writes the open carrier one
   frame *)
Lemma sstep_carrier_from s o j k' : nth_error (carriers (sstep s o)) j = Some k' ->
  (o = S_New /\ j = length (carriers s) /\ k' = new_carrier) \/
  exists k, nth_error (carriers s) j = Some k /\
    match o with
    | S_Recv i b => k' = if Nat.eqb i j then fst (feed k b) else k
    | _ => k' = k \/ k' = kill k \/ (k_state k = K_Open /\ exists p w, k' = open_carrier k p w)
    end.
Proof.
  intros Hj. destruct (sstep_carriers s o) as (f & Hf & E). rewrite E in Hj.
  assert (Hold : (o = S_New /\ j = length (carriers s) /\ k' = new_carrier) \/
                 nth_error (kupd (touched o) f (carriers s)) j = Some k').
  { destruct o; rewrite ?app_nil_r in Hj; auto.
    destruct (nth_error_snoc _ _ _ _ Hj) as [H|[-> ->]]; [auto | left; rewrite kupd_length; auto]. }
  destruct Hold as [H|H]; [left; exact H | right].
  destruct (knth_upd_inv _ _ _ _ _ H) as [[<- [x [Hx ->]]]|[Hne H']].
  - exists x. split; [exact Hx|]. specialize (Hf x Hx). destruct o; try exact Hf.
    cbn [touched kmove] in *. rewrite Nat.eqb_refl. exact Hf.
  - exists k'. split; [exact H'|]. destruct o; auto.
    cbn [touched] in Hne. rewrite (proj2 (Nat.eqb_neq _ _) Hne). reflexivity.
Qed.

Theorem carriers_explained : forall ops i k,
  nth_error (carriers (srun ops)) i = Some k -> explained k (sent_on i ops).
Proof.
  induction ops as [|o ops IH] using rev_ind; intros i k Hk.
  { destruct i; discriminate. }
  rewrite srun_app in Hk. rewrite sent_on_snoc. set (s := srun ops) in *.
  destruct (sstep_carrier_from s o i k Hk) as [(-> & -> & ->)|(k0 & Hk0 & H)].
  - rewrite sent_on_fresh by (fold s; lia). apply explained_new.
  - specialize (IH i k0 Hk0).
    destruct o; try (destruct H as [->|[->|(Es & p0 & w0 & ->)]];
      [exact IH | apply explained_kill, IH | apply (explained_same_up k0); [unfold strip; cbn; rewrite Es; reflexivity | exact IH]]).
    destruct (Nat.eqb_spec i0 i) as [->|_]; [|subst k; exact IH].
    rewrite (proj2 (Nat.ltb_lt _ _) (nth_error_lt _ _ _ Hk0)). cbn [andb]. subst k.
    destruct (k_state k0) eqn:Es; try (apply explained_feed; [congruence | exact IH]).
    rewrite (feed_dead k0 b Es). apply explained_dead_more; assumption.
Qed.

(* the one-carrier read loop of PacketPathProofs ([queued_from], [upstream_cut]) is [feed new_carrier] *)
Lemma feed_new_is_pump s : feed new_carrier s = pump (S (S (S (length s)))) (with_buf s new_carrier).
Proof.
  rewrite feed_alive by discriminate. apply pump_fuel; unfold need, more, with_buf; cbn; lia.
Qed.

Theorem carrier_up_decoded : forall ops i k,
  nth_error (carriers (srun ops)) i = Some k ->
  exists n, (n <= length (sent_on i ops))%nat /\
    (k_state k <> K_Dead -> n = length (sent_on i ops)) /\
    let s := firstn n (sent_on i ops) in
    k_up k = snd (pump (S (S (S (length s)))) (with_buf s new_carrier)) /\
    k_cid k = k_cid (fst (pump (S (S (S (length s)))) (with_buf s new_carrier))).
Proof.
  intros ops i k Hk. destruct (carriers_explained ops i k Hk) as [n [Hn [Hup [Hcid Hal]]]].
  exists n. split; [exact Hn|]. split; [intros H; apply (Hal H)|]. cbn zeta.
  rewrite <- feed_new_is_pump. rewrite <- feed_new_up. split; assumption.
Qed.

Definition offer_of (s : sstate) (o : sop) : list (nat * bytes * bytes) :=
  match o with
  | S_Recv i b =>
      match nth_error (carriers s) i with
      | Some k => map (fun p => (i, k_cid (fst (feed k b)), p)) (snd (feed k b))
      | None => []
      end
  | _ => []
  end.

Definition ostep (acc : sstate * list (nat * bytes * bytes)) (o : sop) : sstate * list (nat * bytes * bytes) :=
  (sstep (fst acc) o, snd acc ++ offer_of (fst acc) o).
Definition orun (ops : list sop) := fold_left ostep ops (sinit, []).
Definition offered (ops : list sop) : list (nat * bytes * bytes) := snd (orun ops).

Lemma orun_snoc ops o : orun (ops ++ [o]) = ostep (orun ops) o.
Proof. unfold orun. rewrite fold_left_app. reflexivity. Qed.

Lemma orun_fst : forall ops, fst (orun ops) = srun ops.
Proof.
  induction ops as [|o ops IH] using rev_ind; [reflexivity|].
  rewrite orun_snoc, srun_app. unfold ostep. cbn [fst]. rewrite IH. reflexivity.
Qed.

Lemma offered_snoc ops o : offered (ops ++ [o]) = offered ops ++ offer_of (srun ops) o.
Proof. unfold offered. rewrite orun_snoc. unfold ostep. cbn [snd]. rewrite orun_fst. reflexivity. Qed.

Definition from_carrier (i : nat) (x : nat * bytes * bytes) : bool := Nat.eqb (fst (fst x)) i.
Definition pkts_of (l : list (nat * bytes * bytes)) : list bytes := map snd l.

Lemma filter_map_const {A B} (p : B -> bool) (f : A -> B) b l :
  (forall x, p (f x) = b) -> filter p (map f l) = if b then map f l else [].
Proof. intros H. induction l as [|x l IH]; cbn; [destruct b; reflexivity|]. rewrite H, IH. destruct b; reflexivity. Qed.

Lemma offered_index_range : forall ops j c p, In (j, c, p) (offered ops) -> (j < length (carriers (srun ops)))%nat.
Proof.
  induction ops as [|o ops IH] using rev_ind; [intros j c p []|].
  intros j c p Hin. rewrite offered_snoc in Hin. rewrite srun_app, sstep_ncarriers.
  apply in_app_or in Hin. destruct Hin as [Hin|Hin].
  - specialize (IH j c p Hin). destruct o; lia.
  - destruct o; try destruct Hin. cbn [offer_of] in Hin.
    destruct (nth_error (carriers (srun ops)) i) as [k0|] eqn:Hk0; [|destruct Hin].
    apply in_map_iff in Hin. destruct Hin as [p' [E _]]. injection E as <- _ _.
    apply nth_error_Some. congruence.
Qed.

Theorem offered_per_carrier : forall ops i k,
  nth_error (carriers (srun ops)) i = Some k ->
  pkts_of (filter (from_carrier i) (offered ops)) = k_up k.
Proof.
  induction ops as [|o ops IH] using rev_ind; intros i k Hk.
  { destruct i; discriminate. }
  rewrite offered_snoc. unfold pkts_of. rewrite filter_app, map_app. fold (pkts_of (filter (from_carrier i) (offered ops))).
  rewrite srun_app in Hk. set (s := srun ops) in *.
  destruct (sstep_carrier_from s o i k Hk) as [(-> & -> & ->)|(k0 & Hk0 & H)].
  - (* a fresh carrier: no entry of the log names it yet *)
    cbn [offer_of filter map new_carrier k_up]. rewrite app_nil_r.
    assert (G : forall l, (forall j c p, In (j, c, p) l -> (j < length (carriers s))%nat) ->
                pkts_of (filter (from_carrier (length (carriers s))) l) = []).
    { induction l as [|[[j c] p] l IHl]; intros H; [reflexivity|]. cbn [filter]. unfold from_carrier at 1. cbn [fst].
      destruct (Nat.eqb_spec j (length (carriers s))) as [E|_].
      - specialize (H j c p (or_introl eq_refl)). lia.
      - apply IHl. intros j' c' p' Hin. apply (H j' c' p'). right. exact Hin. }
    apply G. apply offered_index_range.
  - rewrite (IH i k0 Hk0).
    destruct o; cbn [offer_of filter map]; rewrite ?app_nil_r;
      try (destruct H as [->|[->|(_ & p0 & w0 & ->)]]; reflexivity).
    destruct (Nat.eqb_spec i0 i) as [->|Hne]; subst k.
    + rewrite Hk0. rewrite (filter_map_const _ _ true) by (intros x0; unfold from_carrier; cbn [fst]; apply Nat.eqb_refl).
      rewrite map_map. cbn [snd]. rewrite map_id. symmetry. apply feed_up.
    + destruct (nth_error (carriers s) i0) as [k1|]; [|cbn; apply app_nil_r].
      rewrite (filter_map_const _ _ false) by (intros x0; unfold from_carrier; cbn [fst]; apply Nat.eqb_neq; exact Hne).
      apply app_nil_r.
Qed.

Inductive subseq {A} : list A -> list A -> Prop :=
| sub_nil : subseq [] []
| sub_take x a b : subseq a b -> subseq (x :: a) (x :: b)
| sub_skip x a b : subseq a b -> subseq a (x :: b).

Lemma subseq_refl {A} (l : list A) : subseq l l.
Proof. induction l; constructor; assumption. Qed.
Lemma subseq_nil_l {A} (l : list A) : subseq [] l.
Proof. induction l; constructor; assumption. Qed.
Lemma subseq_app {A} (a b c d : list A) : subseq a b -> subseq c d -> subseq (a ++ c) (b ++ d).
Proof. intros H. induction H; intros Hc; cbn [app]; try constructor; auto. Qed.
Lemma subseq_in {A} (a b : list A) x : subseq a b -> In x a -> In x b.
Proof. intros H. induction H; cbn; intros Hin; [destruct Hin | destruct Hin; [left|right]; auto | right; auto]. Qed.
Lemma subseq_length {A} (a b : list A) : subseq a b -> (length a <= length b)%nat.
Proof. intros H. induction H; cbn; lia. Qed.
Lemma subseq_filter {A} (f : A -> bool) (a b : list A) : subseq a b -> subseq (filter f a) (filter f b).
Proof.
  intros H. induction H; cbn [filter]; [constructor| |].
  - destruct (f x); [constructor|]; assumption.
  - destruct (f x); [constructor|]; assumption.
Qed.
Lemma subseq_map {A B} (f : A -> B) (a b : list A) : subseq a b -> subseq (map f a) (map f b).
Proof. intros H. induction H; cbn [map]; constructor; assumption. Qed.

Definition tag_of (x : nat * bytes * bytes) : bytes * bytes := (snd x, snd (fst x)).

Lemma enqueue_all_subseq cid : forall ps q, exists ps',
  subseq ps' ps /\ enqueue_all cid ps q = q ++ map (fun p => (p, cid)) ps'.
Proof.
  induction ps as [|p ps IH]; intros q; cbn [enqueue_all].
  - exists []. split; [constructor | rewrite app_nil_r; reflexivity].
  - destruct (length q <? QUEUE_SIZE)%nat.
    + destruct (IH (q ++ [(p, cid)])) as [ps' [Hs He]]. exists (p :: ps'). split; [constructor; exact Hs|].
      rewrite He, <- app_assoc. reflexivity.
    + destruct (IH q) as [ps' [Hs He]]. exists ps'. split; [constructor; exact Hs | exact He].
Qed.

Lemma enqueue_all_room cid : forall ps q, (length q + length ps <= QUEUE_SIZE)%nat ->
  enqueue_all cid ps q = q ++ map (fun p => (p, cid)) ps.
Proof.
  induction ps as [|p ps IH]; intros q H; cbn [enqueue_all map]; [rewrite app_nil_r; reflexivity|].
  cbn [length] in H. destruct (Nat.ltb_spec (length q) QUEUE_SIZE) as [_|Hc]; [|lia].
  rewrite IH by (rewrite app_length; cbn; lia). rewrite <- app_assoc. reflexivity.
Qed.

Definition surfaced (s : sstate) : list (bytes * bytes) := delivered s ++ recvq s.

(* one step, seen from KCP's side: what surfaces grows by the part [kept] of the packets this step offered that the
   bounded receive queue had room for - all of them when it had room for all *)
Lemma surfaced_step s o : exists kept,
  subseq kept (map tag_of (offer_of s o)) /\ surfaced (sstep s o) = surfaced s ++ kept /\
  ((length (recvq s) + length (offer_of s o) <= QUEUE_SIZE)%nat -> kept = map tag_of (offer_of s o)).
Proof.
  assert (Quiet : offer_of s o = [] -> surfaced (sstep s o) = surfaced s -> exists kept,
            subseq kept (map tag_of (offer_of s o)) /\ surfaced (sstep s o) = surfaced s ++ kept /\
            ((length (recvq s) + length (offer_of s o) <= QUEUE_SIZE)%nat -> kept = map tag_of (offer_of s o))).
  { intros -> E. exists []. rewrite app_nil_r. repeat split; [constructor | exact E]. }
  destruct o; try (apply Quiet; [reflexivity|]; unfold surfaced; cbn [sstep]).
  - reflexivity.
  - destruct (nth_error (carriers s) i) as [k|] eqn:Hk.
    2:{ apply Quiet; cbn [offer_of sstep]; rewrite Hk; reflexivity. }
    cbn [offer_of]. rewrite Hk, (sstep_recv_feed s i b k Hk). unfold surfaced. cbn [delivered recvq].
    rewrite map_map. unfold tag_of. cbn [fst snd].
    destruct (enqueue_all_subseq (k_cid (fst (feed k b))) (snd (feed k b)) (recvq s)) as [ps' [Hs He]].
    exists (map (fun p => (p, k_cid (fst (feed k b)))) ps'). split; [apply subseq_map; exact Hs|].
    split; [rewrite He, app_assoc; reflexivity|].
    intros Hroom. rewrite map_length in Hroom. rewrite (enqueue_all_room _ _ _ Hroom) in He.
    symmetry. exact (app_inv_head _ _ _ He).
  - reflexivity.
  - destruct (length (q_lookup cid (sendqs s)) <? QUEUE_SIZE)%nat; reflexivity.
  - destruct (nth_error (carriers s) i) as [k|]; [|reflexivity].
    destruct (k_state k); try reflexivity. destruct (q_lookup (k_cid k) (sendqs s)); [reflexivity|].
    destruct (write_data b); reflexivity.
  - destruct (recvq s) as [|x q'] eqn:Er; [rewrite Er; reflexivity|]. cbn [delivered recvq]. rewrite <- app_assoc. reflexivity.
Qed.

Theorem queue_is_subsequence_of_offered : forall ops,
  subseq (surfaced (srun ops)) (map tag_of (offered ops)).
Proof.
  induction ops as [|o ops IH] using rev_ind; [constructor|].
  rewrite offered_snoc, srun_app, map_app. destruct (surfaced_step (srun ops) o) as (kept & Hs & -> & _).
  apply subseq_app; assumption.
Qed.

(* when the bounded receive queue never filled up (at most queueSize packets offered in total is a simple
   sufficient condition) nothing was dropped: KCP sees the whole log, in order *)
Theorem queue_is_offered_when_room : forall ops,
  (length (offered ops) <= QUEUE_SIZE)%nat -> surfaced (srun ops) = map tag_of (offered ops).
Proof.
  induction ops as [|o ops IH] using rev_ind; [reflexivity|].
  rewrite offered_snoc, srun_app, map_app, app_length. intros Hlen. specialize (IH ltac:(lia)).
  assert (Hq : (length (recvq (srun ops)) <= length (offered ops))%nat).
  { pose proof (f_equal (@length _) IH) as L. unfold surfaced in L. rewrite app_length, map_length in L. lia. }
  destruct (surfaced_step (srun ops) o) as (kept & _ & -> & Hroom). rewrite IH, Hroom by lia. reflexivity.
Qed.

(* every log entry carries the ClientID its carrier presented, and that carrier presented token and ClientID *)
Theorem offered_tagged_by_presented_id : forall ops i c p,
  In (i, c, p) (offered ops) ->
  exists k, nth_error (carriers (srun ops)) i = Some k /\ k_cid k = c /\ ~ pre_open k /\ In p (k_up k).
Proof.
  induction ops as [|o ops IH] using rev_ind; intros i c p Hin; [destruct Hin|].
  rewrite offered_snoc in Hin. rewrite srun_app. set (s := srun ops) in *.
  apply in_app_or in Hin. destruct Hin as [Hin|Hin].
  - (* an old entry: its carrier keeps ClientID and packets *)
    destruct (IH i c p Hin) as (k & Hk & Hc & Hnp & Hu). destruct (sstep_kept s o i k Hk) as (k' & Hk' & Hs).
    destruct (kstep_tag _ _ Hs Hnp) as (A & B & C). exists k'. split; [exact Hk'|]. split; [congruence|]. split; [exact A | apply C, Hu].
  - (* a new entry: the carrier that queued a packet has presented its ClientID *)
    destruct o; try destruct Hin. cbn [offer_of] in Hin.
    destruct (nth_error (carriers s) i0) as [k0|] eqn:Hk0; [|destruct Hin].
    apply in_map_iff in Hin. destruct Hin as [p' [E Hp']]. injection E as <- <- <-.
    rewrite (sstep_recv_feed s i0 b k0 Hk0). cbn [carriers].
    exists (fst (feed k0 b)). split; [apply knth_upd_eq with (x := k0); exact Hk0|]. split; [reflexivity|].
    split; [apply (pump_ok_queued _ _ _ (feed_ok k0 b)); intros E; rewrite E in Hp'; destruct Hp'|].
    rewrite feed_up. apply in_or_app. right. exact Hp'.
Qed.
