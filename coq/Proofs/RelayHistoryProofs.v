(* RelayHistoryProofs.v — C06 over histories: the relay-pattern decision of a broker context and the relay-URL
   decision of a proxy do not depend on what was asked before (Model/RelayCheck.v broker_run / proxy_run), and
   the reply of the gated matching machine (Model/BrokerGate.v gstep) to a poll does not depend on the
   machine state, hence not on the history of polls, client offers, answers and timeouts that produced it. *)
From Coq Require Import List NArith ZArith Bool Arith Lia.
From Snow Require Import Model.NameMatcher Model.RelayCheck Model.Broker Model.BrokerGate
  Proofs.NameMatcherProofs Proofs.BrokerGateProofs.
Import ListNotations.
Open Scope N_scope.

Definition is_poll (e : broker_event) : bool := match e with EvPoll _ => true | EvInstall _ => false end.

Lemma broker_run_length : forall evs cfg, length (broker_run cfg evs) = length evs.
Proof. induction evs as [|[pat|c] r IH]; intros cfg; cbn; [reflexivity| |]; rewrite IH; reflexivity. Qed.

Lemma broker_cfg_after_app : forall pre post cfg,
  broker_cfg_after cfg (pre ++ post) = broker_cfg_after (broker_cfg_after cfg pre) post.
Proof. induction pre as [|[pat|c] r IH]; intros post cfg; cbn; [reflexivity| |]; apply IH. Qed.

Lemma broker_cfg_after_polls : forall polls cfg,
  forallb is_poll polls = true -> broker_cfg_after cfg polls = cfg.
Proof.
  induction polls as [|[pat|c] r IH]; intros cfg H; cbn in *; [reflexivity| |discriminate].
  apply IH. exact H.
Qed.

Lemma nth_error_after {A} (l1 l2 : list A) n : length l1 = n -> nth_error (l1 ++ l2) n = nth_error l2 0.
Proof. intros <-. rewrite nth_error_app2, Nat.sub_diag by lia. reflexivity. Qed.

(* the answer to the poll at any position of any history = the decision for that poll alone, under the
   patterns in force at that moment *)
Lemma broker_poll_answer_at : forall cfg pre pat post,
  nth_error (broker_run cfg (pre ++ EvPoll pat :: post)) (length pre)
  = Some (Some (broker_accepts_poll (broker_cfg_after cfg pre) pat)).
Proof.
  intros cfg pre pat post. rewrite broker_run_app, nth_error_after by apply broker_run_length. reflexivity.
Qed.

(* ... and those patterns are the ones of the latest InstallBridgeListProfile, whatever polls came in between
   and whatever happened before that installation *)
Lemma broker_poll_answer_after_install : forall cfg0 before c polls pat post,
  forallb is_poll polls = true ->
  nth_error (broker_run cfg0 (before ++ EvInstall c :: polls ++ EvPoll pat :: post))
            (length before + S (length polls))
  = Some (Some (broker_accepts_poll c pat)).
Proof.
  intros cfg0 before c polls pat post Hp.
  replace (before ++ EvInstall c :: polls ++ EvPoll pat :: post)
    with ((before ++ EvInstall c :: polls) ++ EvPoll pat :: post)
    by (rewrite <- app_assoc; reflexivity).
  replace (length before + S (length polls))%nat with (length (before ++ EvInstall c :: polls))
    by (rewrite app_length; reflexivity).
  rewrite broker_poll_answer_at. rewrite broker_cfg_after_app. cbn [broker_cfg_after].
  rewrite broker_cfg_after_polls by exact Hp. reflexivity.
Qed.

Lemma gstep_reply : forall cfg v s g s' r, gstep cfg v s g = Some (s', r) -> r = gate_reply cfg g.
Proof.
  intros cfg v s g s' r. destruct g as [sd n pt cl pat|l]; cbn [gstep gate_reply].
  - destruct (broker_accepts_poll cfg pat).
    + destruct (step v s (L_Poll sd n pt cl)) as [s1|]; cbn; [|discriminate]. intros H; injection H as _ <-. reflexivity.
    + intros H; injection H as _ <-. reflexivity.
  - destruct l; try discriminate;
    match goal with |- option_map _ ?X = _ -> _ =>
      destruct X as [s1|]; cbn; [|discriminate]; intros H; injection H as _ <-; reflexivity end.
Qed.

Lemma grun_replies : forall cfg v gs s s' rs,
  grun cfg v s gs = Some (s', rs) -> rs = map (gate_reply cfg) gs.
Proof.
  intros cfg v gs. induction gs as [|g r IH]; intros s s' rs H; cbn in H.
  - injection H as _ <-. reflexivity.
  - destruct (gstep cfg v s g) as [[s1 o]|] eqn:E; [|discriminate].
    destruct (grun cfg v s1 r) as [[s2 os]|] eqn:E2; [|discriminate].
    injection H as _ <-. cbn. rewrite (gstep_reply _ _ _ _ _ _ E). rewrite (IH _ _ _ E2). reflexivity.
Qed.

Lemma proxy_run_map : forall cfg offers,
  proxy_run cfg offers = map (fun o : relay_offer => proxy_relay_decision cfg (fst o) (snd o)) offers.
Proof. intros cfg offers. induction offers as [|[raw pu] r IH]; cbn; [reflexivity|]. rewrite IH. reflexivity. Qed.

Lemma proxy_run_length : forall cfg offers, length (proxy_run cfg offers) = length offers.
Proof. intros. rewrite proxy_run_map. apply map_length. Qed.

Lemma proxy_decision_at : forall cfg pre raw pu post,
  nth_error (proxy_run cfg (pre ++ (raw, pu) :: post)) (length pre) = Some (proxy_relay_decision cfg raw pu).
Proof.
  intros cfg pre raw pu post. rewrite proxy_run_map, map_app, nth_error_after by apply map_length. reflexivity.
Qed.
