(* SdpStripLinesProofs.v — Model/SdpStripLines.v (C08): marshalling the stripped description gives the lines of
   the input filtered by [keepf] (marshal_strip); from that, what [to_send] hands to the broker with the keep flag
   on or off and Marshal succeeding or failing, and the same over an arbitrary library Marshal. *)
From Coq Require Import List NArith Bool.
From Snow Require Import Model.IpClass Model.SdpStrip Model.SdpStripLines.
From Snow Require Import Proofs.SdpStripProofs.
Import ListNotations.
Open Scope N_scope.

Definition keepf := fun x : line => negb (bad_host_line x).

Lemma bad_host_attr_line : forall a, bad_host_line (attr_line a) = bad_host a.
Proof. intros [i c]. reflexivity. Qed.

Lemma filter_flat_map : forall {A B} (p : B -> bool) (f : A -> list B) l,
  filter p (flat_map f l) = flat_map (fun x => filter p (f x)) l.
Proof. intros A B p f l. induction l as [|x l IH]; cbn [flat_map]; [reflexivity|]. rewrite filter_app, IH. reflexivity. Qed.

Lemma filter_attr_lines : forall attrs,
  filter keepf (map attr_line attrs) = map attr_line (filter keep attrs).
Proof.
  induction attrs as [|a attrs IH]; cbn [map filter]; [reflexivity|].
  unfold keepf at 1, keep at 1. rewrite bad_host_attr_line.
  destruct (bad_host a); cbn [negb map]; rewrite IH; reflexivity.
Qed.

Lemma filter_plain_lines : forall k ids, (forall c, k <> KAttr c) ->
  filter keepf (map (fun i => mkLine i k) ids) = map (fun i => mkLine i k) ids.
Proof.
  intros k ids Hk. apply filter_all. intros x Hx. apply in_map_iff in Hx. destruct Hx as [i [E _]]. subst x.
  destruct k as [| |c]; [reflexivity | reflexivity | destruct (Hk c eq_refl)].
Qed.

Lemma marshal_media_strip : forall m, marshal_media (strip_msec m) = filter keepf (marshal_media m).
Proof.
  intros m. unfold marshal_media, strip_msec. cbn [ms_head ms_attrs].
  rewrite filter_app, filter_plain_lines, filter_attr_lines, strip_media_filter by discriminate. reflexivity.
Qed.

(* the output, line for line, is the input minus exactly the local host candidate lines *)
Lemma marshal_strip : forall d, marshal (strip_sdesc d) = filter keepf (marshal d).
Proof.
  intros d. unfold marshal, strip_sdesc. cbn [sd_session sd_media].
  rewrite filter_app, filter_plain_lines, filter_flat_map by discriminate. f_equal.
  induction (sd_media d) as [|m ms IH]; cbn [map flat_map]; [reflexivity|].
  rewrite marshal_media_strip, IH. reflexivity.
Qed.

Lemma lines_preserved : forall d,
  marshal (strip_sdesc d) = filter (fun l => negb (bad_host_line l)) (marshal d)
  /\ Sublist (marshal (strip_sdesc d)) (marshal d)
  /\ (forall l, In l (marshal (strip_sdesc d)) <-> In l (marshal d) /\ bad_host_line l = false).
Proof.
  intros d. rewrite marshal_strip. split; [reflexivity|]. split; [apply filter_sublist|].
  intros l. rewrite filter_In. unfold keepf. rewrite negb_true_iff. tauto.
Qed.

Lemma no_local_line_left : forall d l, In l (marshal (strip_sdesc d)) -> bad_host_line l = false.
Proof. intros d l H. apply (proj2 (proj2 (lines_preserved d))) in H. tauto. Qed.

Lemma bad_host_line_spec : forall l,
  bad_host_line l = true <-> exists ip, l_kind l = KAttr (Cand Host (Some ip)) /\ bad_addr ip = true.
Proof.
  intros [i k]. unfold bad_host_line. cbn [l_kind l_id]. split.
  - destruct k as [| |c]; try discriminate. intro H. apply bad_host_spec in H. cbn [a_class] in H.
    destruct H as [ip [E Hb]]. exists ip. subst c. split; [reflexivity|exact Hb].
  - intros [ip [E Hb]]. subst k. apply bad_host_spec. exists ip. split; [reflexivity|exact Hb].
Qed.

(* every line that is not a media-level attribute survives, and so does every attribute line that
   is not a parsed host candidate with a local address: the projections onto those are unchanged *)
Definition is_attr_line (l : line) : bool := match l_kind l with KAttr _ => true | _ => false end.

Lemma filter_filter_sub : forall {A} (p q : A -> bool) l,
  (forall x, p x = true -> q x = true) -> filter p (filter q l) = filter p l.
Proof.
  intros A p q l H. induction l as [|x l IH]; cbn [filter]; [reflexivity|].
  destruct (q x) eqn:Eq; cbn [filter].
  - rewrite IH. reflexivity.
  - destruct (p x) eqn:Ep; [rewrite (H x Ep) in Eq; discriminate|exact IH].
Qed.

Lemma non_attr_lines_identical : forall d,
  filter (fun l => negb (is_attr_line l)) (marshal (strip_sdesc d)) = filter (fun l => negb (is_attr_line l)) (marshal d).
Proof.
  intros d. rewrite marshal_strip. apply filter_filter_sub. intros [i k] H.
  unfold keepf, bad_host_line, is_attr_line in *. cbn [l_kind] in *. destruct k; [reflexivity|reflexivity|discriminate].
Qed.

Lemma kept_lines_identical : forall d,
  filter keepf (marshal (strip_sdesc d)) = filter keepf (marshal d).
Proof. intros d. rewrite marshal_strip. apply filter_filter_sub. auto. Qed.

(* the attribute part is Model/SdpStrip.v's strip *)
Lemma strip_sdesc_attrs : forall d, map ms_attrs (sd_media (strip_sdesc d)) = strip (map ms_attrs (sd_media d)).
Proof.
  intros d. unfold strip_sdesc, strip. cbn [sd_media]. rewrite !map_map. apply map_ext. reflexivity.
Qed.

Lemma strip_sdesc_rest : forall d,
  sd_session (strip_sdesc d) = sd_session d /\ map ms_head (sd_media (strip_sdesc d)) = map ms_head (sd_media d).
Proof.
  intros d. split; [reflexivity|]. unfold strip_sdesc. cbn [sd_media]. rewrite map_map. apply map_ext. reflexivity.
Qed.

Lemma filter_keepf_clean : forall l x, In x (filter keepf l) -> bad_host_line x = false.
Proof. intros l x Hx. apply filter_In in Hx. destruct Hx as [_ Hx]. apply negb_true_iff in Hx. exact Hx. Qed.

Lemma to_send_eq : forall k mok p,
  to_send k mok p =
  if k then Original
  else match p with Some d => if mok then Lines (filter keepf (marshal d)) else Original | None => Original end.
Proof.
  intros [|] mok [d|]; try reflexivity. destruct mok; [|reflexivity].
  unfold to_send, to_send_lib, strip_lines_lib, observed_marshal. rewrite marshal_strip. reflexivity.
Qed.

(* flag off, something freshly marshalled goes out: then Marshal succeeded, and it is the stripped text *)
Lemma to_send_strips : forall mok p l, to_send false mok p = Lines l ->
  mok = true
  /\ (forall x, In x l -> bad_host_line x = false)
  /\ exists d, p = Some d /\ l = filter (fun x => negb (bad_host_line x)) (marshal d).
Proof.
  intros mok p l. rewrite to_send_eq. destruct p as [d|]; [|discriminate]. destruct mok; [|discriminate].
  intros [= <-]. split; [reflexivity|]. split; [apply filter_keepf_clean | eauto].
Qed.

(* flag off, the original text goes out: exactly when one of the two library calls failed *)
Lemma to_send_original_iff : forall mok p, to_send false mok p = Original <-> p = None \/ mok = false.
Proof. intros mok p. rewrite to_send_eq. destruct p, mok; intuition discriminate. Qed.

Lemma to_send_original_only_unparsable : forall p, to_send false true p = Original -> p = None.
Proof. intros p H. apply to_send_original_iff in H. destruct H; [assumption|discriminate]. Qed.

Lemma to_send_keep : forall mok p, to_send true mok p = Original.
Proof. reflexivity. Qed.

(* Marshal failed: the ORIGINAL text is handed to the broker, local host candidates included *)
Lemma to_send_marshal_failed : forall p, to_send false false p = Original.
Proof. intros p. apply to_send_original_iff. right. reflexivity. Qed.

Definition leak_witness : sdesc := mkSdesc [0] [mkMsec [1] [mkAttr 2 (Cand Host (Some [10;0;0;1]))]].

Lemma marshal_failure_leaks :
  to_send false false (Some leak_witness) = Original
  /\ (exists l, In l (marshal leak_witness) /\ bad_host_line l = true)
  /\ to_send false true (Some leak_witness) = Lines [mkLine 0 KSession; mkLine 1 KHead].
Proof.
  split; [reflexivity|]. split; [|reflexivity].
  exists (mkLine 2 (KAttr (Cand Host (Some [10;0;0;1])))). split; [right; right; left; reflexivity | reflexivity].
Qed.

(* the same over the library function: what the property needs of pion/sdp *)
Section PionMarshal.
  Variable pion_marshal : sdesc -> option (list line).
  (* when Marshal succeeds it writes the lines of the structure, in order (checked on every case) *)
  Hypothesis marshal_writes : forall d l, pion_marshal d = Some l -> l = marshal d.

  Lemma to_send_lib_observed : forall k p,
    to_send_lib pion_marshal k p =
    to_send k (match p with Some d => match pion_marshal (strip_sdesc d) with Some _ => true | None => false end | None => true end) p.
  Proof.
    intros k p. unfold to_send, to_send_lib. destruct k; [reflexivity|].
    unfold strip_lines_lib, observed_marshal. destruct p as [d|]; [|reflexivity].
    destruct (pion_marshal (strip_sdesc d)) as [l|] eqn:E; [|reflexivity].
    rewrite (marshal_writes _ _ E). reflexivity.
  Qed.

  Lemma to_send_lib_lines : forall p l, to_send_lib pion_marshal false p = Lines l ->
    (forall x, In x l -> bad_host_line x = false)
    /\ exists d, p = Some d /\ l = filter (fun x => negb (bad_host_line x)) (marshal d).
  Proof. intros p l H. rewrite to_send_lib_observed in H. apply to_send_strips in H. tauto. Qed.

  Lemma to_send_lib_original : forall p, to_send_lib pion_marshal false p = Original ->
    p = None \/ exists d, p = Some d /\ pion_marshal (strip_sdesc d) = None.
  Proof.
    intros p H. rewrite to_send_lib_observed in H. apply to_send_original_iff in H.
    destruct H as [H|H]; [left; exact H|]. destruct p as [d|]; [|discriminate].
    right. exists d. split; [reflexivity|]. destruct (pion_marshal (strip_sdesc d)); [discriminate|reflexivity].
  Qed.

  (* the library contract the first sentence of the property rests on *)
  Hypothesis marshal_total : forall d, pion_marshal d <> None.

  Lemma to_send_lib_contract : forall p,
    (to_send_lib pion_marshal false p = Original -> p = None)
    /\ (forall l, to_send_lib pion_marshal false p = Lines l ->
          (forall x, In x l -> bad_host_line x = false)
          /\ exists d, p = Some d /\ l = filter (fun x => negb (bad_host_line x)) (marshal d))
    /\ (forall d, p = Some d -> to_send_lib pion_marshal false p = Lines (filter (fun x => negb (bad_host_line x)) (marshal d))).
  Proof.
    intros p. split; [|split].
    - intros H. apply to_send_lib_original in H. destruct H as [H|[d [_ H]]]; [exact H|]. exfalso. apply (marshal_total _ H).
    - apply to_send_lib_lines.
    - intros d ->. unfold to_send_lib, strip_lines_lib. destruct (pion_marshal (strip_sdesc d)) as [l|] eqn:E.
      + rewrite (marshal_writes _ _ E), marshal_strip. reflexivity.
      + exfalso. apply (marshal_total _ E).
  Qed.
End PionMarshal.

(* a Marshal that writes the right lines whenever it succeeds, but fails once: the unstripped text goes out *)
Lemma marshal_contract_needed :
  let pm := fun d : sdesc => match sd_media d with [m] => match ms_attrs m with [] => None | _ => Some (marshal d) end | _ => Some (marshal d) end in
  (forall d l, pm d = Some l -> l = marshal d)
  /\ pm (strip_sdesc leak_witness) = None
  /\ to_send_lib pm false (Some leak_witness) = Original
  /\ exists l, In l (marshal leak_witness) /\ bad_host_line l = true.
Proof.
  cbv zeta. split; [|split; [reflexivity|split; [reflexivity|apply marshal_failure_leaks]]].
  intros d l H. destruct (sd_media d) as [|m [|m' ms]]; try (inversion H; reflexivity).
  destruct (ms_attrs m); [discriminate|inversion H; reflexivity].
Qed.

(* flag off: the original text because a library call failed, or the stripped lines *)
Definition stripped_or_failed (mok : bool) (p : option sdesc) (s : sent) : Prop :=
  (s = Original /\ (p = None \/ mok = false))
  \/ exists d, mok = true /\ p = Some d /\ s = Lines (filter (fun x => negb (bad_host_line x)) (marshal d))
               /\ forall x, In x (filter (fun x => negb (bad_host_line x)) (marshal d)) -> bad_host_line x = false.

Lemma site_cases : forall k mok p,
  (k = true -> to_send k mok p = Original) /\ (k = false -> stripped_or_failed mok p (to_send k mok p)).
Proof.
  intros [|] mok p; split; intros Hk; try discriminate Hk; [reflexivity|].
  destruct (to_send false mok p) as [|l] eqn:E.
  - left. split; [reflexivity|]. apply to_send_original_iff. exact E.
  - right. apply to_send_strips in E. destruct E as (Hm & Hc & d & Hp & Hl). exists d. subst l. auto.
Qed.

(* an all-local description is sent WITHOUT its candidates, not with them: no line of what is freshly
   marshalled is a local host candidate, whatever the input *)
Lemma sent_never_leaks : forall mok p l, to_send false mok p = Lines l -> Forall (fun x => bad_host_line x = false) l.
Proof. intros mok p l H. apply Forall_forall. apply (proj1 (proj2 (to_send_strips mok p l H))). Qed.
