(* IpClassProofs.v — the address classes of Model/IpClass.v as numeric intervals (C08). *)
From Coq Require Import List NArith Bool Lia.
From Coq Require Import ZifyBool.   (* lets lia read the boolean tests of the model (is_local_4, is_loopback_4, is_unspecified_4) *)
From Snow Require Import Lib.Wire Lib.WireFacts Model.IpClass.
Import ListNotations.
Open Scope N_scope.

Definition wf (ip : bytes) : Prop := Forall (fun b => b < 256) ip.

(* big-endian value of a byte string *)
Definition be_num (l : bytes) : N := fold_left (fun acc b => acc * 256 + b) l 0.

Definition v4num (a b c d : N) : N := be_num [a; b; c; d].

(* the IPv4 ranges, as closed intervals of 32-bit numbers *)
Definition in_local4 (n : N) : Prop :=
  (v4num 10 0 0 0 <= n <= v4num 10 255 255 255)              (* 10.0.0.0/8      RFC 1918 *)
  \/ (v4num 172 16 0 0 <= n <= v4num 172 31 255 255)         (* 172.16.0.0/12   RFC 1918 *)
  \/ (v4num 192 168 0 0 <= n <= v4num 192 168 255 255)       (* 192.168.0.0/16  RFC 1918 *)
  \/ (v4num 100 64 0 0 <= n <= v4num 100 127 255 255)        (* 100.64.0.0/10   RFC 6598 *)
  \/ (v4num 169 254 0 0 <= n <= v4num 169 254 255 255).      (* 169.254.0.0/16  RFC 3927 *)
Definition in_loop4 (n : N) : Prop := v4num 127 0 0 0 <= n <= v4num 127 255 255 255.   (* 127.0.0.0/8 *)
Definition bad4 (n : N) : Prop := in_local4 n \/ n = 0 \/ in_loop4 n.

(* 128-bit landmarks *)
Definition MAPPED_LO : N := be_num [0;0;0;0;0;0;0;0;0;0;255;255;0;0;0;0].            (* ::ffff:0.0.0.0 *)
Definition MAPPED_HI : N := be_num [0;0;0;0;0;0;0;0;0;0;255;255;255;255;255;255].    (* ::ffff:255.255.255.255 *)
Definition ULA_LO : N := be_num [252;0;0;0;0;0;0;0;0;0;0;0;0;0;0;0].                 (* fc00:: *)
Definition ULA_HI : N := be_num [253;255;255;255;255;255;255;255;255;255;255;255;255;255;255;255]. (* fdff:…:ffff *)

Definition in_local16 (n : N) : Prop :=
  (MAPPED_LO <= n <= MAPPED_HI /\ in_local4 (n - MAPPED_LO)) \/ (ULA_LO <= n <= ULA_HI).   (* fc00::/7  RFC 4193 *)
Definition bad16 (n : N) : Prop :=
  (MAPPED_LO <= n <= MAPPED_HI /\ bad4 (n - MAPPED_LO)) \/ (ULA_LO <= n <= ULA_HI) \/ n = 0 \/ n = 1.

(* masks, by a complete sweep of the byte values *)

Definition all_bytes : list N := map N.of_nat (seq 0 256).

Lemma in_all_bytes : forall b, b < 256 -> In b all_bytes.
Proof.
  intros b H. unfold all_bytes. apply in_map_iff. exists (N.to_nat b). split; [apply N2Nat.id|].
  apply in_seq. lia.
Qed.

Lemma sweep_eq : forall f g : N -> bool,
  forallb (fun b => Bool.eqb (f b) (g b)) all_bytes = true -> forall b, b < 256 -> f b = g b.
Proof. intros f g H b Hb. apply eqb_prop. rewrite forallb_forall in H. apply H, in_all_bytes, Hb. Qed.

Lemma land240 : forall b, b < 256 -> (N.land b 240 =? 16) = ((16 <=? b) && (b <=? 31)).
Proof. apply sweep_eq. vm_compute. reflexivity. Qed.

Lemma land192 : forall b, b < 256 -> (N.land b 192 =? 64) = ((64 <=? b) && (b <=? 127)).
Proof. apply sweep_eq. vm_compute. reflexivity. Qed.

Lemma land254 : forall b, b < 256 -> (N.land b 254 =? 252) = ((252 <=? b) && (b <=? 253)).
Proof. apply sweep_eq. vm_compute. reflexivity. Qed.

(* be_num is positional notation in base 256 *)

Lemma be_num_app : forall a b, be_num (a ++ b) = be_num a * 256 ^ N.of_nat (List.length b) + be_num b.
Proof.
  intros a b. unfold be_num. rewrite fold_left_app. generalize (fold_left (fun acc b => acc * 256 + b) a 0).
  induction b as [|y b IH]; intros n; cbn [fold_left List.length].
  - cbn. lia.
  - rewrite (IH (n * 256 + y)), (IH (0 * 256 + y)), Nat2N.inj_succ, N.pow_succ_r'. lia.
Qed.

Lemma be_num_cons : forall b l, be_num (b :: l) = b * 256 ^ N.of_nat (List.length l) + be_num l.
Proof. intros b l. exact (be_num_app [b] l). Qed.

Lemma be_num_lt : forall l, wf l -> be_num l < 256 ^ N.of_nat (List.length l).
Proof.
  induction 1 as [|b l Hb _ IH]; [reflexivity|].
  rewrite be_num_cons. cbn [List.length]. rewrite Nat2N.inj_succ, N.pow_succ_r'.
  assert (b * 256 ^ N.of_nat (List.length l) <= 255 * 256 ^ N.of_nat (List.length l)) by (apply N.mul_le_mono_r; lia).
  lia.
Qed.

(* digits below the base are determined by the value: quotient and remainder by 256^|l| are unique *)
Lemma be_num_inj : forall x y, wf x -> wf y -> List.length x = List.length y -> be_num x = be_num y -> x = y.
Proof.
  induction x as [|a x IH]; intros [|b y] Hx Hy Hl E; try discriminate Hl; [reflexivity|].
  inversion Hx as [|? ? _ Hx']; inversion Hy as [|? ? _ Hy']; subst. injection Hl as Hl.
  pose proof (be_num_lt x Hx') as Lx. pose proof (be_num_lt y Hy') as Ly.
  rewrite Hl in Lx. rewrite !be_num_cons, Hl, !(N.mul_comm _ (256 ^ _)) in E.
  destruct (N.div_mod_unique _ _ _ _ _ Lx Ly E) as [-> E']. f_equal. apply IH; assumption.
Qed.

Lemma beq_be_num : forall x c, wf x -> wf c -> List.length x = List.length c ->
  (beq x c = true <-> be_num x = be_num c).
Proof. intros x c Hx Hc Hl. rewrite beq_eq. split; [congruence | apply be_num_inj; assumption]. Qed.

Lemma wf4 : forall a b c d, wf [a; b; c; d] -> a < 256 /\ b < 256 /\ c < 256 /\ d < 256.
Proof.
  intros a b c d H. inversion H as [|? ? Ha H1]; subst. inversion H1 as [|? ? Hb H2]; subst.
  inversion H2 as [|? ? Hc H3]; subst. inversion H3 as [|? ? Hd H4]; subst. auto.
Qed.

(* every range of the code fixes the first byte and bounds the second: such a set is an interval *)
Lemma v4_prefix : forall a b c d k lo hi, wf [a; b; c; d] -> hi < 256 ->
  (a = k /\ lo <= b <= hi <-> v4num k lo 0 0 <= v4num a b c d <= v4num k hi 255 255).
Proof. intros a b c d k lo hi H Hhi. apply wf4 in H. unfold v4num, be_num. cbn [fold_left]. lia. Qed.

Lemma is_local_4 : forall a b c d, wf [a; b; c; d] ->
  (is_local [a; b; c; d] = true <-> in_local4 (v4num a b c d)).
Proof.
  intros a b c d H. pose proof (wf4 a b c d H) as [_ [Hb _]].
  unfold is_local, to4, len_is. cbn [List.length Nat.eqb byte_at nth].
  rewrite (land240 b Hb), (land192 b Hb). unfold in_local4.
  rewrite <- !(v4_prefix a b c d) by first [assumption | reflexivity]. lia.
Qed.

Lemma is_loopback_4 : forall a b c d, wf [a; b; c; d] ->
  (is_loopback [a; b; c; d] = true <-> in_loop4 (v4num a b c d)).
Proof.
  intros a b c d H. pose proof (wf4 a b c d H) as [_ [Hb _]].
  unfold is_loopback, to4, len_is. cbn [List.length Nat.eqb byte_at nth].
  unfold in_loop4. rewrite <- (v4_prefix a b c d) by first [assumption | reflexivity]. lia.
Qed.

Lemma is_unspecified_4 : forall a b c d,
  (is_unspecified [a; b; c; d] = true <-> v4num a b c d = 0).
Proof.
  intros a b c d.
  unfold is_unspecified, ip_equal, len_is, IPv4zero, IPv6unspecified, v4InV6Prefix.
  cbn [List.length Nat.eqb app firstn skipn beq andb orb].
  unfold v4num, be_num. cbn [fold_left]. lia.
Qed.

Lemma bad_addr_4 : forall a b c d, wf [a; b; c; d] ->
  (bad_addr [a; b; c; d] = true <-> bad4 (v4num a b c d)).
Proof.
  intros a b c d H. unfold bad_addr, bad4.
  rewrite !orb_true_iff, (is_local_4 a b c d H), (is_loopback_4 a b c d H), (is_unspecified_4 a b c d). tauto.
Qed.

(* the test of To4 on a 16-byte slice *)
Definition mapped16 (x : bytes) : bool :=
  is_zeros (firstn 10 x) && (byte_at x 10 =? 255) && (byte_at x 11 =? 255).

Lemma to4_16 : forall x, List.length x = 16%nat ->
  to4 x = if mapped16 x then Some (skipn 12 x) else None.
Proof.
  intros x H. unfold to4, mapped16, len_is. rewrite H. cbn [Nat.eqb andb]. reflexivity.
Qed.

Lemma mapped16_beq : forall x, List.length x = 16%nat -> mapped16 x = beq (firstn 12 x) v4InV6Prefix.
Proof.
  intros x H. do 12 (destruct x as [|? x]; [discriminate H|]).
  unfold mapped16, is_zeros. cbn [firstn forallb byte_at nth beq v4InV6Prefix].
  rewrite !andb_true_r, <- !andb_assoc. reflexivity.
Qed.

Lemma landmarks : MAPPED_LO = 65535 * 256 ^ 4 /\ MAPPED_HI = MAPPED_LO + (256 ^ 4 - 1)
  /\ ULA_LO = 252 * 256 ^ 15 /\ ULA_HI = 253 * 256 ^ 15 + (256 ^ 15 - 1).
Proof. repeat split; reflexivity. Qed.

(* To4 succeeds exactly on ::ffff:0:0/96, and its result is the offset in that block: x is split after the
   12th byte, and the bounds on the whole determine the value of the first part *)
Lemma to4_16_cases : forall x, wf x -> List.length x = 16%nat ->
  (exists a b c d, to4 x = Some [a; b; c; d] /\ wf [a; b; c; d]
     /\ MAPPED_LO <= be_num x <= MAPPED_HI /\ be_num x - MAPPED_LO = v4num a b c d)
  \/ (to4 x = None /\ ~ MAPPED_LO <= be_num x <= MAPPED_HI).
Proof.
  intros x Hwf Hlen. rewrite (to4_16 x Hlen), (mapped16_beq x Hlen).
  assert (Hp : List.length (firstn 12 x) = 12%nat) by (rewrite firstn_length; lia).
  assert (Hq : List.length (skipn 12 x) = 4%nat) by (rewrite skipn_length; lia).
  rewrite <- (firstn_skipn 12 x) in Hwf at 1. apply Forall_app in Hwf. destruct Hwf as [Wp Wq].
  assert (En : be_num x = be_num (firstn 12 x) * 256 ^ 4 + be_num (skipn 12 x))
    by (rewrite <- (firstn_skipn 12 x) at 1; rewrite be_num_app, Hq; reflexivity).
  pose proof (be_num_lt _ Wq) as Lq. rewrite Hq in Lq.
  destruct landmarks as (Elo & Ehi & _).
  destruct (beq (firstn 12 x) v4InV6Prefix) eqn:E.
  - left. apply beq_eq in E. rewrite E in En.
    destruct (skipn 12 x) as [|a [|b [|c [|d [|]]]]]; try discriminate Hq.
    exists a, b, c, d. change (be_num v4InV6Prefix) with 65535 in En. unfold v4num.
    split; [reflexivity|]. split; [exact Wq|]. lia.
  - right. split; [reflexivity|]. intros Hr. apply beq_neq in E. apply E.
    apply be_num_inj; [exact Wp | repeat constructor | exact Hp |].
    change (be_num v4InV6Prefix) with 65535. lia.
Qed.

Lemma via_to4 : forall x q, to4 x = Some q -> List.length q = 4%nat ->
  is_local x = is_local q /\ is_loopback x = is_loopback q.
Proof.
  intros x q Ht Hq. unfold is_local, is_loopback. rewrite Ht. unfold to4, len_is. rewrite Hq. split; reflexivity.
Qed.

Lemma ula16_num : forall x, wf x -> List.length x = 16%nat ->
  ((252 <=? byte_at x 0) && (byte_at x 0 <=? 253) = true <-> ULA_LO <= be_num x <= ULA_HI).
Proof.
  intros [|b t] Hwf Hlen; [discriminate Hlen|]. injection Hlen as Hlen. inversion Hwf as [|? ? _ Ht]; subst.
  pose proof (be_num_lt t Ht) as Lt. rewrite be_num_cons. rewrite Hlen in *.
  destruct landmarks as (_ & _ & -> & ->). cbn [byte_at nth]. lia.
Qed.

Lemma byte0_lt : forall x, wf x -> byte_at x 0 < 256.
Proof. intros x H. destruct x as [|b x]; cbn; [lia|]. inversion H; assumption. Qed.

Lemma is_local_16 : forall x, wf x -> List.length x = 16%nat ->
  (is_local x = true <-> in_local16 (be_num x)).
Proof.
  intros x Hwf Hlen. unfold in_local16.
  destruct (to4_16_cases x Hwf Hlen) as [(a & b & c & d & Ht & Hw & Hm & Hoff)|[Ht Hn]].
  - rewrite (proj1 (via_to4 x _ Ht eq_refl)), (is_local_4 a b c d Hw), Hoff.
    destruct landmarks as (Elo & Ehi & Eu & _).
    split; [intro H; left; split; assumption|]. intros [[_ H]|H]; [exact H | lia].
  - unfold is_local. rewrite Ht. unfold len_is. rewrite Hlen. cbn [Nat.eqb andb].
    rewrite (land254 _ (byte0_lt x Hwf)), (ula16_num x Hwf Hlen). tauto.
Qed.

Lemma wf_consts : wf IPv6loopback /\ wf IPv6unspecified /\ wf IPv4zero.
Proof. repeat split; repeat constructor. Qed.

Lemma is_loopback_16 : forall x, wf x -> List.length x = 16%nat ->
  (is_loopback x = true <-> (MAPPED_LO <= be_num x <= MAPPED_HI /\ in_loop4 (be_num x - MAPPED_LO)) \/ be_num x = 1).
Proof.
  intros x Hwf Hlen.
  destruct (to4_16_cases x Hwf Hlen) as [(a & b & c & d & Ht & Hw & Hm & Hoff)|[Ht Hn]].
  - rewrite (proj2 (via_to4 x _ Ht eq_refl)), (is_loopback_4 a b c d Hw), Hoff.
    destruct landmarks as (Elo & _).
    split; [intro H; left; split; assumption|]. intros [[_ H]|H]; [exact H | lia].
  - unfold is_loopback. rewrite Ht. unfold ip_equal. rewrite Hlen. cbn [List.length IPv6loopback Nat.eqb].
    rewrite (beq_be_num x _ Hwf (proj1 wf_consts) Hlen). change (be_num IPv6loopback) with 1. tauto.
Qed.

Lemma is_unspecified_16 : forall x, wf x -> List.length x = 16%nat ->
  (is_unspecified x = true <-> be_num x = MAPPED_LO \/ be_num x = 0).
Proof.
  intros x Hwf Hlen. destruct wf_consts as (_ & W0 & W4).
  unfold is_unspecified, ip_equal. rewrite Hlen.
  cbn [List.length IPv4zero IPv6unspecified v4InV6Prefix app Nat.eqb].
  rewrite orb_true_iff, (beq_be_num x _ Hwf W4 Hlen), (beq_be_num x _ Hwf W0 Hlen). reflexivity.
Qed.

Lemma bad_addr_16 : forall x, wf x -> List.length x = 16%nat ->
  (bad_addr x = true <-> bad16 (be_num x)).
Proof.
  intros x Hwf Hlen. unfold bad_addr, bad16, bad4.
  rewrite !orb_true_iff, (is_local_16 x Hwf Hlen), (is_loopback_16 x Hwf Hlen), (is_unspecified_16 x Hwf Hlen).
  unfold in_local16. destruct landmarks as (Elo & Ehi & _).
  assert (Hz : be_num x = MAPPED_LO <-> MAPPED_LO <= be_num x <= MAPPED_HI /\ be_num x - MAPPED_LO = 0) by lia.
  rewrite Hz. tauto.
Qed.

Lemma bad_addr_false_iff : forall ip,
  bad_addr ip = false <-> is_local ip = false /\ is_unspecified ip = false /\ is_loopback ip = false.
Proof. intros ip. unfold bad_addr. rewrite !orb_false_iff. tauto. Qed.

(* spot values: a mapped private address; the first mapped address above 172.16/12; a private address in the low 32
   bits without the ::ffff prefix; the last address of fc00::/7 and the first one above it; the first address above
   100.64/10 and the last one inside it *)
Example bad16_examples :
  bad_addr [0;0;0;0;0;0;0;0;0;0;255;255;10;0;0;1] = true            (* ::ffff:10.0.0.1 *)
  /\ bad_addr [0;0;0;0;0;0;0;0;0;0;255;255;172;32;0;0] = false      (* ::ffff:172.32.0.0 *)
  /\ bad_addr [0;0;0;0;0;0;0;0;0;0;0;0;10;0;0;1] = false            (* ::10.0.0.1 (not mapped) *)
  /\ bad_addr [253;255;255;255;255;255;255;255;255;255;255;255;255;255;255;255] = true
  /\ bad_addr [254;0;0;0;0;0;0;0;0;0;0;0;0;0;0;0] = false           (* fe00:: *)
  /\ bad_addr [100;128;0;0] = false /\ bad_addr [100;127;255;255] = true.
Proof. repeat split; reflexivity. Qed.
