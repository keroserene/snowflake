(* RendezvousObjectProofs.v — one httpRendezvous / ampCacheRendezvous object over all its Exchanges
   (Model/Rendezvous.v, Section RendezvousObject): the configuration is never written, so the request and the
   result of an Exchange at any position of any history are those of a first Exchange on a new object. *)
From Coq Require Import List NArith Lia Arith String.
From Snow Require Import Lib.Wire Model.CacheURL Model.Rendezvous.
From Snow Require Import Proofs.RendezvousProofs.
Import ListNotations.
Open Scope N_scope.

Section Object.
  Variable to_unicode : bytes -> option bytes.
  Variable to_ascii : bytes -> option bytes.
  Variable sha256 : bytes -> bytes.
  Variable h34 : bytes -> bool.
  Variable armor_decode : bytes -> option bytes.

  Notation request_of := (rdv_request to_unicode to_ascii sha256 h34).
  Notation result_of := (rdv_result to_unicode to_ascii sha256 h34 armor_decode).
  Notation step := (rdv_step to_unicode to_ascii sha256 h34 armor_decode).
  Notation run := (rdv_run to_unicode to_ascii sha256 h34 armor_decode).

  (* what one Exchange answers, as a function of the configuration and the event *)
  Definition exchange_of (c : rdv_config) (ev : rdv_event) : option request * option bytes :=
    (request_of c (ev_poll ev) (ev_cb ev), result_of c ev).

  Lemma rdv_step_conf : forall s ev, rs_conf (fst (step s ev)) = rs_conf s.
  Proof. reflexivity. Qed.

  Lemma rdv_step_out : forall s ev, snd (step s ev) = exchange_of (rs_conf s) ev.
  Proof. reflexivity. Qed.

  (* a run only counts: the configuration stays, every output is that of its own event *)
  Lemma rdv_run_eq : forall evs s,
    run s evs = (mk_rdv_state (rs_conf s) (rs_exchanges s + N.of_nat (length evs)), map (exchange_of (rs_conf s)) evs).
  Proof.
    induction evs as [|ev r IH]; intros s.
    - cbn. rewrite N.add_0_r. destruct s; reflexivity.
    - cbn [rdv_run rdv_step]. rewrite IH. cbn [rs_conf rs_exchanges length map]. do 2 f_equal. lia.
  Qed.

  Lemma rdv_run_conf : forall evs s, rs_conf (fst (run s evs)) = rs_conf s.
  Proof. intros. rewrite rdv_run_eq. reflexivity. Qed.

  Lemma rdv_run_count : forall evs s, rs_exchanges (fst (run s evs)) = rs_exchanges s + N.of_nat (length evs).
  Proof. intros. rewrite rdv_run_eq. reflexivity. Qed.

  Lemma rdv_run_map : forall evs s, snd (run s evs) = map (exchange_of (rs_conf s)) evs.
  Proof. intros. rewrite rdv_run_eq. reflexivity. Qed.

  (* the Exchange at any position of any history, from any state of the object *)
  Lemma rdv_run_at : forall s pre ev post,
    nth_error (snd (run s (pre ++ ev :: post))) (length pre) = Some (exchange_of (rs_conf s) ev).
  Proof.
    intros. rewrite rdv_run_map, map_app. cbn [map].
    rewrite nth_error_app2 by (rewrite map_length; lia).
    rewrite map_length, Nat.sub_diag. reflexivity.
  Qed.

  (* ... is the one Exchange of a new object with the same configuration *)
  Lemma rdv_run_at_is_first : forall c pre ev post,
    nth_error (snd (run (rdv_init c) (pre ++ ev :: post))) (length pre) = nth_error (snd (run (rdv_init c) [ev])) 0.
  Proof. intros. rewrite rdv_run_at. reflexivity. Qed.

  Lemma rdv_run_state_irrelevant : forall s1 s2 evs,
    rs_conf s1 = rs_conf s2 -> snd (run s1 evs) = snd (run s2 evs).
  Proof. intros s1 s2 evs H. rewrite !rdv_run_map, H. reflexivity. Qed.

  (* fronting holds for EVERY request a fronted object ever makes: it connects to the front; without an AMP cache the
     Host header names the broker, with one it names the cache subdomain computed for that very poll *)
  Lemma rdv_fronted_every_request : forall c pre ev post q r,
    rc_front c <> [] ->
    nth_error (snd (run (rdv_init c) (pre ++ ev :: post))) (length pre) = Some (Some q, r) ->
    q_connect_host q = rc_front c /\
    match rc_method c with
    | MHttp => q_host_header q = b_host (rc_broker c) /\ q_method q = bs "POST"%string /\ q_body q = Some (ev_poll ev)
    | MAmp None => q_host_header q = b_host (rc_broker c) /\ q_method q = bs "GET"%string /\ q_body q = None
    | MAmp (Some cu) =>
        q_method q = bs "GET"%string /\ q_body q = None /\
        exists u, cache_url to_unicode to_ascii sha256 h34 (amp_pub_url (rc_broker c) (ev_cb ev) (ev_poll ev)) cu (bs "c"%string) = Some u /\
                  q_host_header q = r_host u
    end.
  Proof.
    intros c pre ev post q r Hf H. rewrite rdv_run_at in H. cbn [rdv_init rs_conf] in H.
    unfold exchange_of in H. inversion H as [[Hq Hr]]. clear H Hr.
    unfold rdv_request in Hq. destruct (rc_method c) as [|cache].
    - inversion Hq; subst q.
      destruct (http_fronting (rc_broker c) (rc_front c) (ev_poll ev) Hf) as (A & B & C & D & _).
      repeat split; assumption.
    - destruct (amp_fronting to_unicode to_ascii sha256 h34 _ _ _ _ _ _ Hf Hq) as (A & B & C & D).
      destruct cache as [cu|]; repeat split; assumption.
  Qed.

  (* without a front every request of the object goes to, and names, the same host: the broker's (no cache) *)
  Lemma rdv_unfronted_every_request : forall c pre ev post q r,
    rc_front c = [] -> (rc_method c = MHttp \/ rc_method c = MAmp None) ->
    nth_error (snd (run (rdv_init c) (pre ++ ev :: post))) (length pre) = Some (Some q, r) ->
    q_connect_host q = b_host (rc_broker c) /\ q_host_header q = b_host (rc_broker c).
  Proof.
    intros c pre ev post q r Hf Hm H. rewrite rdv_run_at in H. cbn [rdv_init rs_conf] in H.
    unfold exchange_of in H. inversion H as [[Hq Hr]]. clear H Hr.
    unfold rdv_request in Hq. destruct Hm as [Hm|Hm]; rewrite Hm, Hf in Hq.
    - inversion Hq; subst q. split; reflexivity.
    - unfold amp_request in Hq. inversion Hq; subst q. split; reflexivity.
  Qed.

  (* an error of one Exchange (transport error, non-200, Location, oversize) is the error of that Exchange only *)
  Lemma rdv_errors_do_not_linger : forall c bad good,
    snd (run (rdv_init c) (bad ++ [good])) = snd (run (rdv_init c) bad) ++ [exchange_of c good].
  Proof. intros. rewrite !rdv_run_map, map_app. reflexivity. Qed.
End Object.
