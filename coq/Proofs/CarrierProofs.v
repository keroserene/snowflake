(* CarrierProofs.v — the server carrier layer (Model/CarrierLayer.v). In this order: the list update [kupd] and the
   projections through which the ghost logs are read; one carrier's read loop ([pump_ok], [feed_ok]) and what a step does
   to the one carrier it touches ([kstep], [sstep_carriers]); the invariant [SInv] of the whole state (a packet surfaces
   under the ClientID its carrier presented, nothing happens before token and ClientID, what a carrier was written is
   the framing [wire_of] of packets accepted for its ClientID, which the client's reader decodes back: [wire_decodes]);
   the read loop of the open phase alone, [open_pump], and that neither it nor S_Recv depends on how the bytes are
   split into arrivals ([open_pump_app], [recv_split]).
   [open_carrier] (an open carrier written one frame) is defined with the timed layer, hence Model.CarrierTimed. *)
From Coq Require Import List NArith Bool Arith Lia.
From Snow Require Import Lib.Wire Lib.ListFacts Model.Encap Proofs.EncapProofs Lib.WireFacts Model.CarrierLayer Model.CarrierTimed
  Proofs.CarrierFragProofs.
Import ListNotations.
Open Scope N_scope.

Lemma fold_left_inv {S O} (I : S -> Prop) (f : S -> O -> S) :
  (forall s o, I s -> I (f s o)) -> forall l s, I s -> I (fold_left f l s).
Proof. intros H. induction l as [|o l IH]; intros s Hs; [exact Hs | apply IH, H, Hs]. Qed.

(* the ghost logs are read through projections of this shape *)
Lemma map_filter_snoc {A B} (g : A -> B) (f : A -> bool) l x :
  map g (filter f (l ++ [x])) = map g (filter f l) ++ (if f x then [g x] else []).
Proof. rewrite filter_app, map_app. cbn. destruct (f x); reflexivity. Qed.

Lemma knth_upd_eq f : forall l i x, nth_error l i = Some x -> nth_error (kupd i f l) i = Some (f x).
Proof.
  induction l as [|y l IH]; intros [|i] x; cbn [kupd nth_error]; try discriminate.
  - intros H; injection H as ->. reflexivity.
  - apply IH.
Qed.
Lemma knth_upd_neq f : forall l i j, i <> j -> nth_error (kupd i f l) j = nth_error l j.
Proof.
  induction l as [|y l IH]; intros [|i] [|j] H; cbn [kupd nth_error]; try reflexivity; try congruence.
  apply IH. congruence.
Qed.
Lemma kupd_length f : forall l i, length (kupd i f l) = length l.
Proof. induction l as [|x l IH]; intros [|i]; cbn [kupd length]; try reflexivity. rewrite IH. reflexivity. Qed.
Lemma knth_upd_inv f l i j y : nth_error (kupd i f l) j = Some y ->
  (i = j /\ exists x, nth_error l i = Some x /\ y = f x) \/ (i <> j /\ nth_error l j = Some y).
Proof.
  intros H. destruct (Nat.eq_dec i j) as [->|Hne].
  - left. split; [reflexivity|]. destruct (nth_error l j) as [x|] eqn:E.
    + rewrite (knth_upd_eq f l j x E) in H. injection H as <-. exists x. split; reflexivity.
    + apply nth_error_lt in H. rewrite kupd_length in H. apply nth_error_None in E. lia.
  - right. split; [exact Hne|]. rewrite knth_upd_neq in H by exact Hne. exact H.
Qed.

Lemma kupd_ext f g : forall l i, (forall x, nth_error l i = Some x -> f x = g x) -> kupd i f l = kupd i g l.
Proof.
  induction l as [|y l IH]; intros [|i] H; cbn [kupd]; try reflexivity.
  - rewrite (H y eq_refl). reflexivity.
  - rewrite (IH i H). reflexivity.
Qed.
Lemma kupd_id : forall l i, kupd i (fun x => x) l = l.
Proof. induction l as [|y l IH]; intros [|i]; cbn [kupd]; try reflexivity. rewrite IH. reflexivity. Qed.
Lemma kupd_kupd f g : forall l i, kupd i g (kupd i f l) = kupd i (fun x => g (f x)) l.
Proof. induction l as [|x l IH]; intros [|i]; cbn [kupd]; try reflexivity. rewrite IH. reflexivity. Qed.

(* a clause "for every carrier" after an update: only the updated one needs an argument *)
Lemma kupd_all (P : nat -> carrier -> Prop) f l i :
  (forall j k, j <> i -> nth_error l j = Some k -> P j k) -> (forall x, nth_error l i = Some x -> P i (f x)) ->
  forall j k, nth_error (kupd i f l) j = Some k -> P j k.
Proof. intros Hl Hi j k Hj. destruct (knth_upd_inv _ _ _ _ _ Hj) as [[<- [x [Hx ->]]]|[Hne Hj']]; auto. Qed.

(* a witness among the carriers survives an update that keeps its property *)
Lemma kupd_keeps (P : carrier -> Prop) f l i j :
  (forall x, nth_error l i = Some x -> P x -> P (f x)) ->
  (exists k, nth_error l j = Some k /\ P k) -> exists k, nth_error (kupd i f l) j = Some k /\ P k.
Proof.
  intros Hf [k [Hk Hp]]. destruct (Nat.eq_dec i j) as [<-|Hne].
  - exists (f k). split; [apply knth_upd_eq; exact Hk | apply Hf; assumption].
  - exists k. split; [rewrite knth_upd_neq by exact Hne; exact Hk | exact Hp].
Qed.

Definition pre_open (k : carrier) : Prop := k_state k = K_Token \/ k_state k = K_ClientID.

Lemma pre_open_dec k : {pre_open k} + {~ pre_open k}.
Proof. unfold pre_open. destruct (k_state k); [left; left | left; right | right | right]; try reflexivity; intros [H|H]; discriminate. Qed.
Lemma open_not_pre k : k_state k = K_Open -> ~ pre_open k.
Proof. intros E [H|H]; congruence. Qed.
Lemma dead_not_pre k : k_state k = K_Dead -> ~ pre_open k.
Proof. intros E [H|H]; congruence. Qed.

(* k' is k after its read loop ran (or after it was closed): nothing downstream moved, the packets [ps] were queued, and
   the ClientID is fixed from the moment token and ClientID have been read *)
Record pump_ok (k k' : carrier) (ps : list bytes) : Prop := {
  po_down : k_down k' = k_down k;
  po_wire : k_wire k' = k_wire k;
  po_up : k_up k' = k_up k ++ ps;
  po_cid : ~ pre_open k -> k_cid k' = k_cid k;
  po_pre : pre_open k' -> ps = [] /\ pre_open k;
  po_dead : k_state k = K_Dead -> k_state k' = K_Dead /\ ps = []
}.

Lemma pump_ok_refl k : pump_ok k k [].
Proof. constructor; auto using app_nil_r. Qed.

Lemma pump_ok_kill k : pump_ok k (kill k) [].
Proof. constructor; cbn; auto using app_nil_r. intros H. apply dead_not_pre in H; [destruct H | reflexivity]. Qed.

Lemma pump_ok_trans k k1 k' ps0 ps : pump_ok k k1 ps0 -> (~ pre_open k -> ~ pre_open k1) -> pump_ok k1 k' ps ->
  pump_ok k k' (ps0 ++ ps).
Proof.
  intros [A B C D E F] Hnp [A' B' C' D' E' F']. constructor; try congruence.
  - rewrite C', C, app_assoc. reflexivity.
  - intros H. rewrite D', D; auto.
  - intros H. destruct (E' H) as [-> H1]. destruct (E H1) as [-> H0]. auto.
  - intros H. destruct (F H) as [H1 ->]. destruct (F' H1) as [H2 ->]. auto.
Qed.

Theorem pump_spec : forall fuel k, pump_ok k (fst (pump fuel k)) (snd (pump fuel k)).
Proof.
  induction fuel as [|f IH]; intros k; [apply pump_ok_refl|].
  (* one header or chunk consumed, then the rest of the loop *)
  assert (Hgo : forall k1 ps0, pump_ok k k1 ps0 -> (~ pre_open k -> ~ pre_open k1) ->
            pump_ok k (fst (pump f k1)) (ps0 ++ snd (pump f k1))) by (intros k1 ps0 H1 H2; exact (pump_ok_trans _ _ _ _ _ H1 H2 (IH k1))).
  rewrite pump_S. destruct (k_state k) eqn:Es.
  - destruct (length (k_buf k) <? 8)%nat; [apply pump_ok_refl|].
    assert (Hpre : pre_open k) by (left; exact Es).
    destruct (beq (firstn 8 (k_buf k)) TOKEN).
    + apply (Hgo _ []); [|tauto]. constructor; cbn; auto using app_nil_r; try tauto; congruence.
    + constructor; cbn; auto using app_nil_r; try tauto; congruence.
  - destruct (length (k_buf k) <? 8)%nat; [apply pump_ok_refl|].
    assert (Hpre : pre_open k) by (right; exact Es).
    apply (Hgo _ []); [|tauto]. constructor; cbn; auto using app_nil_r; try tauto; congruence.
  - destruct (parse_one (k_buf k)) as [isd d rest| | |] eqn:Ep; try apply pump_ok_refl.
    + cbn zeta. match goal with |- context [pump f ?K] => specialize (Hgo K (if isd then [d] else [])); destruct (pump f K) as [k2 ps2] end.
      cbn [fst snd] in *. replace (if isd then d :: ps2 else ps2) with ((if isd then [d] else []) ++ ps2) by (destruct isd; reflexivity).
      apply Hgo; [|intros _; apply open_not_pre; reflexivity].
      constructor; cbn; auto; try congruence; [destruct isd; auto using app_nil_r|].
      intros H. apply open_not_pre in H; [destruct H | reflexivity].
    + constructor; cbn; auto using app_nil_r; try congruence. intros H. apply dead_not_pre in H; [destruct H | reflexivity].
  - apply pump_ok_refl.
Qed.

Lemma feed_ok k b : pump_ok k (fst (feed k b)) (snd (feed k b)).
Proof.
  unfold feed. destruct (k_state k) eqn:Es; try (destruct (pump_spec (S (need (more k b))) (more k b)); constructor; assumption).
  apply pump_ok_refl.
Qed.

(* the ClientID and "has presented token and ClientID" are stable, and nothing queued is forgotten *)
Lemma pump_ok_tag k k' ps : pump_ok k k' ps -> ~ pre_open k -> ~ pre_open k' /\ k_cid k' = k_cid k.
Proof. intros H Hnp. split; [intros Hp; apply Hnp, (po_pre _ _ _ H Hp) | apply (po_cid _ _ _ H Hnp)]. Qed.

(* the packets come out under the ClientID the carrier keeps from then on *)
Lemma pump_ok_queued k k' ps : pump_ok k k' ps -> ps <> [] -> ~ pre_open k'.
Proof. intros H Hne Hp. apply Hne, (po_pre _ _ _ H Hp). Qed.

Lemma sstep_recv_feed s i b k : nth_error (carriers s) i = Some k ->
  sstep s (S_Recv i b) =
  {| carriers := kupd i (fun _ => fst (feed k b)) (carriers s);
     recvq := enqueue_all (k_cid (fst (feed k b))) (snd (feed k b)) (recvq s);
     sendqs := sendqs s; accepted := accepted s; delivered := delivered s; consumed := consumed s |}.
Proof.
  intros Hk. cbn [sstep]. rewrite Hk. destruct (k_state k) eqn:Es;
    try (rewrite (recv_is_feed k b) by congruence; destruct (feed k b) as [k' ps]; reflexivity).
  rewrite (feed_dead k b Es). cbn [fst snd enqueue_all].
  rewrite (kupd_ext (fun _ => k) (fun x => x)), kupd_id by congruence. destruct s; reflexivity.
Qed.

Lemma q_lookup_set c' c q l : q_lookup c' (q_set c q l) = if beq c' c then q else q_lookup c' l.
Proof.
  induction l as [|[c2 q2] l IH]; cbn [q_set q_lookup]; [reflexivity|].
  destruct (beq c c2) eqn:E; cbn [q_lookup].
  - apply beq_eq in E. subst c2. destruct (beq c' c); reflexivity.
  - rewrite IH. destruct (beq c' c2) eqn:E2; [|reflexivity].
    apply beq_eq in E2. subst c2. rewrite beq_sym, E. reflexivity.
Qed.

Lemma enqueue_all_in cid : forall ps q x, In x (enqueue_all cid ps q) -> In x q \/ exists p, In p ps /\ x = (p, cid).
Proof.
  induction ps as [|p ps IH]; intros q x H; cbn [enqueue_all] in H; [left; exact H|].
  destruct (IH _ _ H) as [Hq|[p' [Hp' ->]]].
  - destruct (length q <? QUEUE_SIZE)%nat; [|left; exact Hq].
    apply in_app_or in Hq. destruct Hq as [Hq|[Hq|[]]]; [left; exact Hq|].
    right. exists p. split; [left; reflexivity | symmetry; exact Hq].
  - right. exists p'. split; [right; exact Hp' | reflexivity].
Qed.

Lemma enqueue_all_app cid : forall a b q, enqueue_all cid (a ++ b) q = enqueue_all cid b (enqueue_all cid a q).
Proof. induction a as [|p a IH]; intros b q; cbn [app enqueue_all]; [reflexivity | apply IH]. Qed.

(* either the read side moved (or nothing did, or the carrier was closed), or the open carrier was written one frame *)
Definition kstep (k k' : carrier) : Prop :=
  (exists ps, pump_ok k k' ps) \/ (k_state k = K_Open /\ exists p w, k' = open_carrier k p w).

Lemma kstep_refl k : kstep k k.
Proof. left. exists []. apply pump_ok_refl. Qed.

Lemma kstep_tag k k' : kstep k k' -> ~ pre_open k -> ~ pre_open k' /\ k_cid k' = k_cid k /\ incl (k_up k) (k_up k').
Proof.
  intros [[ps H]|[Es [p [w ->]]]] Hnp.
  - destruct (pump_ok_tag _ _ _ H Hnp). rewrite (po_up _ _ _ H). auto using incl_appl, incl_refl.
  - split; [apply open_not_pre; reflexivity | split; [reflexivity | apply incl_refl]].
Qed.

Lemma kstep_dead k k' : kstep k k' -> k_state k = K_Dead ->
  k_state k' = K_Dead /\ k_up k' = k_up k /\ k_down k' = k_down k /\ k_wire k' = k_wire k /\ k_cid k' = k_cid k.
Proof.
  intros [[ps H]|[Es _]] Hd; [|congruence]. destruct (po_dead _ _ _ H Hd) as [Hd' ->].
  rewrite (po_up _ _ _ H), app_nil_r, (po_down _ _ _ H), (po_wire _ _ _ H), (po_cid _ _ _ H (dead_not_pre _ Hd)). auto.
Qed.

(* the one carrier an operation touches, and what it does to it: S_Recv feeds it; every other operation leaves it as
   it is, closes it, or writes the open carrier one frame *)
Definition touched (o : sop) : nat := match o with S_Recv i _ | S_Close i | S_Send i => i | _ => 0%nat end.

Definition kmove (o : sop) (k k' : carrier) : Prop :=
  match o with
  | S_Recv _ b => k' = fst (feed k b)
  | _ => k' = k \/ k' = kill k \/ (k_state k = K_Open /\ exists p w, k' = open_carrier k p w)
  end.

Lemma kmove_kstep o k k' : kmove o k k' -> kstep k k'.
Proof.
  assert (H : k' = k \/ k' = kill k \/ (k_state k = K_Open /\ exists p w, k' = open_carrier k p w) -> kstep k k').
  { intros [->|[->|Hw]]; [apply kstep_refl | left; exists []; apply pump_ok_kill | right; exact Hw]. }
  destruct o; try exact H. intros ->. left. eexists. apply feed_ok.
Qed.

(* every step updates the carrier it touches, by [kmove], and S_New appends a fresh one *)
Lemma sstep_carriers s o : exists f, (forall k, nth_error (carriers s) (touched o) = Some k -> kmove o k (f k)) /\
  carriers (sstep s o) = kupd (touched o) f (carriers s) ++ (match o with S_New => [new_carrier] | _ => [] end).
Proof.
  assert (Same : forall o', (forall b i, o' <> S_Recv i b) ->
            exists f, (forall k, nth_error (carriers s) (touched o') = Some k -> kmove o' k (f k)) /\
                      carriers s = kupd (touched o') f (carriers s) ++ []).
  { intros o' Ho. exists (fun x => x). split; [|rewrite kupd_id, app_nil_r; reflexivity].
    intros k _. destruct o'; try (left; reflexivity). elim (Ho b i eq_refl). }
  destruct o; [|cbn [touched]|cbn [sstep]..].
  - exists (fun x => x). split; [intros k _; left; reflexivity | cbn [sstep carriers]; rewrite kupd_id; reflexivity].
  - exists (fun k => fst (feed k b)). split; [intros k _; reflexivity|]. rewrite app_nil_r.
    destruct (nth_error (carriers s) i) as [k|] eqn:Hk.
    + rewrite (sstep_recv_feed s i b k Hk). cbn [carriers]. apply kupd_ext. congruence.
    + cbn [sstep]. rewrite Hk. rewrite (kupd_ext _ (fun x => x)), kupd_id by congruence. reflexivity.
  - exists kill. split; [intros k _; right; left; reflexivity | symmetry; apply app_nil_r].
  - destruct (_ <? _)%nat; apply (Same (S_WriteTo cid p)); discriminate.
  - assert (Same' := Same (S_Send i) ltac:(discriminate)).
    destruct (nth_error (carriers s) i) as [k|] eqn:Hk; [|exact Same'].
    destruct (k_state k) eqn:Es; try exact Same'. destruct (q_lookup (k_cid k) (sendqs s)) as [|p q']; [exact Same'|].
    destruct (write_data p) as [w|]; cbn [carriers].
    + exists (fun k => open_carrier k p w). split; [|symmetry; apply app_nil_r].
      intros k0 E. cbn [touched] in E. rewrite Hk in E. injection E as <-. right. right. split; [exact Es | eauto].
    + exists kill. split; [intros k0 _; right; left; reflexivity | symmetry; apply app_nil_r].
  - destruct (recvq s); apply (Same S_ReadFrom); discriminate.
Qed.

Lemma sstep_ncarriers s o : length (carriers (sstep s o)) =
  match o with S_New => S (length (carriers s)) | _ => length (carriers s) end.
Proof.
  destruct (sstep_carriers s o) as (f & _ & ->). rewrite app_length, kupd_length. destruct o; cbn; lia.
Qed.

Lemma sstep_kept s o i k : nth_error (carriers s) i = Some k ->
  exists k', nth_error (carriers (sstep s o)) i = Some k' /\ kstep k k'.
Proof.
  intros Hk. destruct (sstep_carriers s o) as (f & Hf & ->).
  rewrite nth_error_app1 by (rewrite kupd_length; eapply nth_error_lt; eauto).
  destruct (Nat.eq_dec (touched o) i) as [E|Hne].
  - exists (f k). rewrite E in *. split; [apply knth_upd_eq; exact Hk | apply (kmove_kstep o), Hf; exact Hk].
  - exists k. split; [rewrite knth_upd_neq by exact Hne; exact Hk | apply kstep_refl].
Qed.

Fixpoint wire_of (ps : list bytes) : option bytes :=
  match ps with
  | [] => Some []
  | p :: ps' => match write_data p, wire_of ps' with
                | Some a, Some b => Some (a ++ b)
                | _, _ => None
                end
  end.

Lemma wire_of_app a p w wa : wire_of a = Some wa -> write_data p = Some w -> wire_of (a ++ [p]) = Some (wa ++ w).
Proof.
  revert wa. induction a as [|x a IH]; intros wa Ha Hp; cbn [app wire_of] in *.
  - injection Ha as <-. rewrite Hp. cbn. rewrite app_nil_r. reflexivity.
  - destruct (write_data x) as [wx|]; [|discriminate]. destruct (wire_of a) as [wr|] eqn:Er; [|discriminate].
    injection Ha as <-. rewrite (IH wr eq_refl Hp). rewrite app_assoc. reflexivity.
Qed.

Record SInv (s : sstate) : Prop := {
  (* every packet handed (or about to be handed) to KCP was extracted from a carrier that presented that ClientID *)
  si_up : forall p a, In (p, a) (delivered s ++ recvq s) ->
          exists i k, nth_error (carriers s) i = Some k /\ k_cid k = a /\ In p (k_up k) /\ ~ pre_open k;
  (* a carrier that has not presented token and ClientID has no effect *)
  si_pre : forall i k, nth_error (carriers s) i = Some k -> pre_open k ->
           k_up k = [] /\ k_down k = [] /\ k_wire k = [];
  (* what a carrier wrote downstream was addressed to its ClientID; the bytes are the framed packets *)
  si_down : forall i k p, nth_error (carriers s) i = Some k -> In p (k_down k) -> In (k_cid k, p) (accepted s);
  si_wire : forall i k, nth_error (carriers s) i = Some k -> wire_of (k_down k) = Some (k_wire k);
  si_queue : forall c p, In p (q_lookup c (sendqs s)) -> In (c, p) (accepted s)
}.

Lemma sinv_init : SInv sinit.
Proof.
  constructor; cbn.
  - intros p a [].
  - intros [|i] k H; discriminate.
  - intros [|i] k p H; discriminate.
  - intros [|i] k H; discriminate.
  - intros c p [].
Qed.

(* the carrier that tags a packet keeps tagging it *)
Lemma tag_kept p a f l i j :
  (forall x, nth_error l i = Some x -> kstep x (f x)) ->
  (exists k, nth_error l j = Some k /\ k_cid k = a /\ In p (k_up k) /\ ~ pre_open k) ->
  exists k, nth_error (kupd i f l) j = Some k /\ k_cid k = a /\ In p (k_up k) /\ ~ pre_open k.
Proof.
  intros Hf. apply kupd_keeps. intros x Hx (Hc & Hu & Hnp).
  destruct (kstep_tag _ _ (Hf x Hx) Hnp) as (A & B & C). split; [congruence | split; [apply C, Hu | exact A]].
Qed.

(* the read side of carrier i moved by f (packets ps, queued under cid), the rest of the state is what it was *)
Lemma sinv_read s i f ps cid cn : SInv s ->
  (forall k, nth_error (carriers s) i = Some k -> pump_ok k (f k) ps /\ (ps <> [] -> cid = k_cid (f k))) ->
  (nth_error (carriers s) i = None -> ps = []) ->
  SInv {| carriers := kupd i f (carriers s); recvq := enqueue_all cid ps (recvq s); sendqs := sendqs s;
          accepted := accepted s; delivered := delivered s; consumed := cn |}.
Proof.
  intros [Iu Ip Id Iw Iq] Hf Hnone. constructor; cbn [carriers recvq sendqs accepted delivered].
  - intros p a Hin.
    assert (Hold : In (p, a) (delivered s ++ recvq s) ->
              exists j k, nth_error (kupd i f (carriers s)) j = Some k /\ k_cid k = a /\ In p (k_up k) /\ ~ pre_open k).
    { intros H. destruct (Iu p a H) as [j Hj]. exists j. apply tag_kept; [|exact Hj].
      intros x Hx. left. exists ps. apply (Hf x Hx). }
    apply in_app_or in Hin. destruct Hin as [Hin|Hin]; [apply Hold, in_or_app; left; exact Hin|].
    apply enqueue_all_in in Hin. destruct Hin as [Hin|[p' [Hp' E]]]; [apply Hold, in_or_app; right; exact Hin|].
    injection E as -> ->. assert (Hne : ps <> []) by (intros ->; destruct Hp').
    destruct (nth_error (carriers s) i) as [k|] eqn:Hk; [|elim (Hne (Hnone eq_refl))].
    destruct (Hf k eq_refl) as [Hok Hc]. exists i, (f k). split; [apply knth_upd_eq; exact Hk|].
    split; [symmetry; exact (Hc Hne)|]. split; [|exact (pump_ok_queued _ _ _ Hok Hne)].
    rewrite (po_up _ _ _ Hok). apply in_or_app. right. exact Hp'.
  - refine (kupd_all _ _ _ _ (fun j kj _ => Ip j kj) _). intros x Hx Hpre. destruct (Hf x Hx) as [Hok _].
    destruct (po_pre _ _ _ Hok Hpre) as [E Hpx]. rewrite (po_down _ _ _ Hok), (po_wire _ _ _ Hok), (po_up _ _ _ Hok), E, app_nil_r.
    exact (Ip i x Hx Hpx).
  - intros j kj p Hj. revert p. revert j kj Hj. refine (kupd_all _ _ _ _ (fun j kj _ Hj p => Id j kj p Hj) _).
    intros x Hx p Hin. destruct (Hf x Hx) as [Hok _]. rewrite (po_down _ _ _ Hok) in Hin.
    destruct (pre_open_dec x) as [Hpx|Hnp].
    + destruct (Ip i x Hx Hpx) as (_ & E & _). rewrite E in Hin. destruct Hin.
    + rewrite (po_cid _ _ _ Hok Hnp). exact (Id i x p Hx Hin).
  - refine (kupd_all _ _ _ _ (fun j kj _ => Iw j kj) _). intros x Hx. destruct (Hf x Hx) as [Hok _].
    rewrite (po_down _ _ _ Hok), (po_wire _ _ _ Hok). exact (Iw i x Hx).
  - exact Iq.
Qed.

Lemma sinv_sendqs s sq cn : SInv s -> (forall c p, In p (q_lookup c sq) -> In (c, p) (accepted s)) ->
  SInv {| carriers := carriers s; recvq := recvq s; sendqs := sq; accepted := accepted s; delivered := delivered s;
          consumed := cn |}.
Proof. intros [Iu Ip Id Iw Iq] H. constructor; assumption. Qed.

(* taking the head off a queue leaves only packets that were queued *)
Lemma q_pop_in c p q' sq : q_lookup c sq = p :: q' ->
  forall c0 p0, In p0 (q_lookup c0 (q_set c q' sq)) -> In p0 (q_lookup c0 sq).
Proof.
  intros Eq c0 p0 Hin. rewrite q_lookup_set in Hin. destruct (beq c0 c) eqn:E; [|exact Hin].
  apply beq_eq in E. subst c0. rewrite Eq. right. exact Hin.
Qed.

(* the write loop of carrier i took the head p of its queue and could not write it: the packet is lost, the carrier
   closed. Reached by S_Send when WriteData refuses the packet and by a failing connection (Model/CarrierFail.v). *)
Definition drop_state (s : sstate) (i : nat) (k : carrier) (p : bytes) (q' : list bytes) : sstate :=
  {| carriers := kupd i kill (carriers s); recvq := recvq s; sendqs := q_set (k_cid k) q' (sendqs s);
     accepted := accepted s; delivered := delivered s; consumed := consumed s ++ [(None, k_cid k, p)] |}.

Lemma sinv_drop s i k p q' : SInv s -> q_lookup (k_cid k) (sendqs s) = p :: q' -> SInv (drop_state s i k p q').
Proof.
  intros I Eq.
  apply (sinv_sendqs _ _ _ (sinv_read s i kill [] [] (consumed s) I
           (fun k _ => conj (pump_ok_kill k) (fun H => False_ind _ (H eq_refl))) (fun _ => eq_refl))).
  intros c p0 Hin. apply (si_queue s I), (q_pop_in _ _ _ _ Eq), Hin.
Qed.

Theorem sstep_inv s o : SInv s -> SInv (sstep s o).
Proof.
  intros I. destruct o.
  - destruct I as [Iu Ip Id Iw Iq]. constructor; cbn.
    + intros p a H. destruct (Iu p a H) as [i [k [Hn R]]]. exists i, k. split; [|exact R].
      rewrite nth_error_app1; [exact Hn | eapply nth_error_lt; eauto].
    + intros i k H Hpre. destruct (nth_error_snoc _ _ _ _ H) as [Ho|[_ ->]]; [eapply Ip; eassumption|]. repeat split.
    + intros i k p H Hin. destruct (nth_error_snoc _ _ _ _ H) as [Ho|[_ ->]]; [eapply Id; eassumption|]. destruct Hin.
    + intros i k H. destruct (nth_error_snoc _ _ _ _ H) as [Ho|[_ ->]]; [eapply Iw; eassumption|]. reflexivity.
    + exact Iq.
  - destruct (nth_error (carriers s) i) as [k|] eqn:Hk; [|cbn [sstep]; rewrite Hk; exact I].
    rewrite (sstep_recv_feed s i b k Hk). apply sinv_read; [exact I| |congruence].
    intros k0 E. rewrite Hk in E. injection E as <-. split; [apply feed_ok | reflexivity].
  - apply (sinv_read s i kill [] [] (consumed s) I); [|reflexivity].
    intros k _. split; [apply pump_ok_kill | congruence].
  - cbn [sstep]. destruct (_ <? _)%nat; [|exact I]. destruct I as [Iu Ip Id Iw Iq]. constructor; cbn.
    + exact Iu.
    + exact Ip.
    + intros i k p0 Hk Hin. apply in_or_app. left. eapply Id; eassumption.
    + exact Iw.
    + intros c p0 Hin. rewrite q_lookup_set in Hin. apply in_or_app. destruct (beq c cid) eqn:E; [|left; apply Iq; exact Hin].
      apply beq_eq in E. subst c. apply in_app_or in Hin.
      destruct Hin as [Hin|[<-|[]]]; [left; apply Iq; exact Hin | right; left; reflexivity].
  - cbn [sstep]. destruct (nth_error (carriers s) i) as [k|] eqn:Hk; [|exact I].
    destruct (k_state k) eqn:Es; try exact I.
    destruct (q_lookup (k_cid k) (sendqs s)) as [|p q'] eqn:Eq; [exact I|].
    destruct (write_data p) as [w|] eqn:Ew; [|exact (sinv_drop s i k p q' I Eq)].
    assert (Hacc : In (k_cid k, p) (accepted s)) by (apply (si_queue s I); rewrite Eq; left; reflexivity).
    pose proof I as [Iu Ip Id Iw Iq]. constructor; cbn [carriers recvq sendqs accepted delivered].
    + intros p0 a H. destruct (Iu p0 a H) as [j Hj]. exists j. apply tag_kept; [|exact Hj].
      intros x Hx. right. split; [congruence | exists p, w; reflexivity].
    + refine (kupd_all _ _ _ _ (fun j kj _ => Ip j kj) _). intros x _ Hpre. apply open_not_pre in Hpre; [destruct Hpre | reflexivity].
    + intros j kj p0 Hj. revert p0. revert j kj Hj. refine (kupd_all _ _ _ _ (fun j kj _ Hj p0 => Id j kj p0 Hj) _).
      intros x Hx p0 Hin. rewrite Hk in Hx. injection Hx as <-. cbn in *. apply in_app_or in Hin.
      destruct Hin as [Hin|[<-|[]]]; [eapply Id; eassumption | exact Hacc].
    + refine (kupd_all _ _ _ _ (fun j kj _ => Iw j kj) _). intros x Hx. cbn. apply wire_of_app; [exact (Iw i x Hx) | exact Ew].
    + intros c p0 Hin. apply Iq, (q_pop_in _ _ _ _ Eq), Hin.
  - cbn [sstep]. destruct (recvq s) as [|x q'] eqn:Er; [exact I|]. destruct I as [Iu Ip Id Iw Iq].
    constructor; cbn; try assumption.
    intros p a Hin. apply Iu. rewrite Er, <- app_assoc in *. exact Hin.
Qed.

Lemma srun_app ops o : srun (ops ++ [o]) = sstep (srun ops) o.
Proof. unfold srun. rewrite fold_left_app. reflexivity. Qed.

Theorem srun_inv : forall ops, SInv (srun ops).
Proof. intros ops. apply (fold_left_inv SInv sstep sstep_inv), sinv_init. Qed.

Lemma wire_of_encode : forall ps, wire_of ps = encode_items (map Data ps).
Proof.
  induction ps as [|p ps IH]; cbn [wire_of map encode_items]; [reflexivity|]. rewrite IH. reflexivity.
Qed.

Lemma wire_of_items_ok : forall ps w, wire_of ps = Some w -> items_ok (map Data ps).
Proof.
  intros ps w H. apply encode_rejects_long. rewrite <- wire_of_encode, H. discriminate.
Qed.

Lemma datas_map_data : forall ps, datas (map Data ps) = ps.
Proof. induction ps as [|p ps IH]; cbn [map datas]; [reflexivity | rewrite IH; reflexivity]. Qed.

Theorem wire_decodes : forall ps w sc, wire_of ps = Some w -> read_stream w sc = (ps, EOF).
Proof.
  intros ps w sc H. replace (ps, EOF) with (datas (map Data ps), EOF) by (rewrite datas_map_data; reflexivity).
  apply roundtrip_any_reader; [eapply wire_of_items_ok; exact H | rewrite <- wire_of_encode; exact H].
Qed.

Lemma dead_stays s i k o : nth_error (carriers s) i = Some k -> k_state k = K_Dead ->
  exists k', nth_error (carriers (sstep s o)) i = Some k' /\ k_state k' = K_Dead /\
             k_up k' = k_up k /\ k_down k' = k_down k /\ k_wire k' = k_wire k /\ k_cid k' = k_cid k.
Proof.
  intros Hk Hd. destruct (sstep_kept s o i k Hk) as [k' [Hk' Hs]]. exists k'. split; [exact Hk' | exact (kstep_dead _ _ Hs Hd)].
Qed.

Fixpoint open_pump (fuel : nat) (buf : bytes) : list bytes * bytes * bool :=
  match fuel with
  | O => ([], buf, false)
  | S f =>
      match parse_one buf with
      | PChunk isd d rest => let '(ps, t, dd) := open_pump f rest in (if isd then d :: ps else ps, t, dd)
      | PLong => ([], [], true)
      | PEnd | PShort => ([], buf, false)
      end
  end.

Lemma open_pump_fuel : forall a b buf, (length buf < a)%nat -> (length buf < b)%nat -> open_pump a buf = open_pump b buf.
Proof.
  induction a as [|a IH]; intros b buf Ha Hb; [lia|]. destruct b as [|b]; [lia|].
  cbn [open_pump]. destruct (parse_one buf) as [isd d rest| | |] eqn:Ep; try reflexivity.
  apply parse_one_shrinks in Ep. rewrite (IH b rest) by lia. reflexivity.
Qed.

Lemma pump_is_open_pump : forall fuel k, k_state k = K_Open ->
  let '(ps, t, dd) := open_pump fuel (k_buf k) in
  exists k', pump fuel k = (k', ps) /\ k_buf k' = t /\ k_state k' = (if dd then K_Dead else K_Open) /\ k_cid k' = k_cid k.
Proof.
  induction fuel as [|f IH]; intros k Hs; cbn [open_pump pump].
  - exists k. repeat split. exact Hs.
  - rewrite Hs. destruct (parse_one (k_buf k)) as [isd d rest| | |] eqn:Ep.
    + match goal with |- context [pump f ?K] => specialize (IH K eq_refl) end. cbn [k_buf] in IH.
      destruct (open_pump f rest) as [[ps t] dd]. destruct IH as [k' [Hp [Hb [Hst Hc]]]].
      rewrite Hp. exists k'. repeat split; assumption.
    + exists k. repeat split. exact Hs.
    + exists k. repeat split. exact Hs.
    + eexists. repeat split.
Qed.

Lemma open_pump_S f buf : open_pump (S f) buf =
  match parse_one buf with
  | PChunk isd d rest => let '(ps, t, dd) := open_pump f rest in (if isd then d :: ps else ps, t, dd)
  | PLong => ([], [], true)
  | PEnd | PShort => ([], buf, false)
  end.
Proof. reflexivity. Qed.

Theorem open_pump_app : forall f1 b1 b2, (length b1 < f1)%nat ->
  open_pump (S (length (b1 ++ b2))) (b1 ++ b2) =
  let '(ps1, t1, d1) := open_pump f1 b1 in
  if d1 then (ps1, [], true)
  else let '(ps2, t2, d2) := open_pump (S (length (t1 ++ b2))) (t1 ++ b2) in (ps1 ++ ps2, t2, d2).
Proof.
  induction f1 as [|f IH]; intros b1 b2 Hf; [lia|].
  rewrite (open_pump_S f b1).
  destruct (parse_one b1) as [isd d rest| | |] eqn:Ep.
  - rewrite (open_pump_S (length (b1 ++ b2)) (b1 ++ b2)).
    rewrite (parse_one_chunk_app b1 b2 isd d rest Ep).
    pose proof (parse_one_shrinks _ _ _ _ Ep) as Hsh.
    rewrite (open_pump_fuel (length (b1 ++ b2)) (S (length (rest ++ b2))) (rest ++ b2))
      by (rewrite !app_length; lia).
    rewrite (IH rest b2) by lia.
    destruct (open_pump f rest) as [[ps1 t1] d1]. destruct d1; [reflexivity|].
    destruct (open_pump (S (length (t1 ++ b2))) (t1 ++ b2)) as [[ps2 t2] d2].
    destruct isd; reflexivity.
  - apply parse_one_end in Ep. subst b1. cbn [app].
    destruct (open_pump (S (length b2)) b2) as [[ps2 t2] d2]. reflexivity.
  - destruct (open_pump (S (length (b1 ++ b2))) (b1 ++ b2)) as [[ps2 t2] d2]. reflexivity.
  - rewrite (open_pump_S (length (b1 ++ b2)) (b1 ++ b2)). rewrite (parse_one_long_app b1 b2 Ep). reflexivity.
Qed.

(* once a carrier has queued a packet its ClientID is fixed *)
Lemma feed_cid k b b2 : snd (feed k b) <> [] -> k_cid (fst (feed (fst (feed k b)) b2)) = k_cid (fst (feed k b)).
Proof. intros Hne. apply (po_cid _ _ _ (feed_ok _ b2)), (pump_ok_queued _ _ _ (feed_ok k b) Hne). Qed.

Theorem recv_split s i b1 b2 :
  sstep (sstep s (S_Recv i b1)) (S_Recv i b2) = sstep s (S_Recv i (b1 ++ b2)).
Proof.
  destruct (nth_error (carriers s) i) as [k|] eqn:Hk.
  2:{ cbn [sstep]. rewrite Hk. cbn [sstep]. rewrite Hk. reflexivity. }
  rewrite (sstep_recv_feed s i b1 k Hk), (sstep_recv_feed s i (b1 ++ b2) k Hk).
  rewrite (sstep_recv_feed _ i b2 (fst (feed k b1))) by (apply knth_upd_eq with (x := k); exact Hk).
  cbn [carriers recvq sendqs accepted delivered consumed]. rewrite kupd_kupd.
  assert (E : feed k (b1 ++ b2) = (fst (feed (fst (feed k b1)) b2), snd (feed k b1) ++ snd (feed (fst (feed k b1)) b2))).
  { destruct (k_state k) eqn:Es; [rewrite feed_app by congruence; destruct (feed k b1) as [k1 ps1]; cbn [fst snd];
      destruct (feed k1 b2); reflexivity ..|].
    rewrite !(feed_dead k) by exact Es. reflexivity. }
  rewrite E. cbn [fst snd]. rewrite enqueue_all_app.
  destruct (snd (feed k b1)) as [|p0 ps1] eqn:E1; [reflexivity|].
  rewrite (feed_cid k b1 b2) by (rewrite E1; discriminate). reflexivity.
Qed.

