(* BrokerBounds.v — C04, per request and under continued arrivals (repaired protocol V1):
   along EVERY run (new proxy polls, client polls, answers and bridge-list installations included) a proxy poll
   takes at most 5 steps of its own threads, a client poll at most 4, and the answer request at position k of its
   entry's queue is served by the (k+1)-th send on that entry; and in every reachable state every incomplete
   request has an enabled step of its own, or waits only for a partner whose own next step is enabled and enables it. *)
From Coq Require Import List NArith ZArith Bool Arith Lia.
From Snow Require Import Lib.ListFacts Model.Broker Proofs.BrokerLocal Proofs.BrokerProofs Proofs.BrokerSteps Proofs.BrokerThms.
Import ListNotations.
Open Scope N_scope.

(* the steps of the poll's own threads (handler + waiter), of the client handler, of the answer handlers of entry p;
   a rendezvous (L_RvOffer) is a step of both partners *)
Definition w_label (l : label) : option nat :=
  match l with L_FireW p | L_WTake p | L_WTimeoutCS p | L_RvOffer p | L_RvForward p => Some p | _ => None end.
Definition c_label (l : label) : option nat :=
  match l with L_RvOffer p | L_FireC p | L_CTake p | L_CCleanup p | L_RvAnswer p | L_CTakeAnswer p => Some p | _ => None end.
Definition a_label (l : label) : option nat :=
  match l with L_AnswerPut p => Some p | _ => None end.

Definition is_some_eq (o : option nat) (p : nat) : bool := match o with Some q => Nat.eqb q p | None => false end.
Definition count_own (lab : label -> option nat) (p : nat) (ls : list label) : nat :=
  length (filter (fun l => is_some_eq (lab l) p) ls).

(* remaining own steps of the poll registered (or to be registered) as entry p / of the client it holds (or will hold) *)
Definition wk (e : entry) : nat := wm (e_w e) (e_wfired e).
Definition ck (e : entry) : nat := match e_cl e with Some c => cm c | None => 4 end.
Definition pm (s : state) (p : nat) : nat := match nth_error (entries s) p with Some e => wk e | None => 5 end.
Definition cmm (s : state) (p : nat) : nat := match nth_error (entries s) p with Some e => ck e | None => 4 end.

Lemma wk_le e : (wk e <= 5)%nat.
Proof. unfold wk, wm. destruct (e_w e); destruct (e_wfired e); lia. Qed.
Lemma ck_le e : (ck e <= 4)%nat.
Proof. unfold ck, cm. destruct (e_cl e) as [c|]; [|lia]. destruct (c_pc c); destruct (c_fired c); lia. Qed.

Lemma is_some_eq_sym p q : is_some_eq (Some p) q = Nat.eqb p q.
Proof. reflexivity. Qed.

Lemma is_some_eq_true o p : is_some_eq o p = true -> o = Some p.
Proof. destruct o as [q|]; cbn; [|discriminate]. intros H. apply Nat.eqb_eq in H. congruence. Qed.

(* a measure of one entry that only the request's own steps consume: remaining own steps of request p (top for a poll
   not yet registered) *)
Definition meas (m : entry -> nat) (top : nat) (s : state) (p : nat) : nat :=
  match nth_error (entries s) p with Some e => m e | None => top end.

Section Measure.
  Variables (v : version) (m : entry -> nat) (lab : label -> option nat) (top : nat).
  Hypothesis lab_target : forall l p, lab l = Some p -> target l = Some p.
  Hypothesis m_new : forall sd n pt cl, m (new_entry sd n pt cl) = top.
  Hypothesis m_estep : forall s l e e', shape_ok e = true -> estep v s l e e' ->
    (m e' + match lab l with Some _ => 1 | None => 0 end <= m e)%nat.

  Lemma step_measure s l s' p : Inv v s -> step v s l = Some s' ->
    ((if is_some_eq (lab l) p then 1 else 0) + meas m top s' p <= meas m top s p)%nat.
  Proof.
    intros I H. unfold meas.
    assert (Own : is_some_eq (lab l) p = true -> target l = Some p /\ touched s l = Some p).
    { intros E. apply is_some_eq_true, lab_target in E. split; [|apply target_touched]; exact E. }
    destruct (nth_error (entries s) p) as [e|] eqn:Hp.
    - destruct (step_entry_fwd v s l s' p e H Hp) as [e1 [-> [[Hn ->]|[_ Hes]]]].
      + destruct (is_some_eq (lab l) p); [elim Hn; apply Own; reflexivity | apply Nat.le_refl].
      + pose proof (m_estep s l e e1 (proj1 (inv_entries v s I p e Hp)) Hes) as D.
        destruct (is_some_eq (lab l) p) eqn:E; [apply is_some_eq_true in E; rewrite E in D | destruct (lab l)]; lia.
    - destruct (nth_error (entries s') p) as [e1|] eqn:H1.
      + destruct (step_entry_bwd v s l s' p e1 H H1) as [[_ (sd & n & pt & cl & -> & ->)]|[e [He _]]]; [|congruence].
        rewrite m_new. destruct (is_some_eq (lab (L_Poll sd n pt cl)) p); [destruct (Own eq_refl); discriminate | apply Nat.le_refl].
      + destruct (is_some_eq (lab l) p); [|apply Nat.le_refl]. destruct (Own eq_refl) as [Hg Ht].
        elim (touched_exists v s l s' p H Ht); [intros sd a ->; discriminate | exact Hp].
  Qed.

  Lemma run_measure : forall ls s s' p, Inv v s -> run v s ls = Some s' ->
    (count_own lab p ls + meas m top s' p <= meas m top s p)%nat.
  Proof.
    intros ls s s' p I H. revert ls s s' H I.
    apply (run_ind v (fun s ls s' => Inv v s -> (count_own lab p ls + meas m top s' p <= meas m top s p)%nat)).
    - intros s _. apply Nat.le_refl.
    - intros s l s1 ls s' Hs _ IH I. specialize (IH (step_preserves_inv v s l s1 I Hs)).
      pose proof (step_measure s l s1 p I Hs). unfold count_own in *. cbn [filter].
      destruct (is_some_eq (lab l) p); cbn [length]; lia.
  Qed.
End Measure.

Lemma estep_wk v s l e e' : estep v s l e e' -> (wk e' + match w_label l with Some _ => 1 | None => 0 end <= wk e)%nat.
Proof.
  intros H. destruct H; unfold wk; cbn; rewrite ?Hw, ?Hf; cbn; try lia.
  - destruct v; cbn; lia.
  - unfold w_receives in Hw. destruct (e_w e); try discriminate; destruct (e_wfired e); cbn; lia.
  - destruct (buf_free e); cbn; lia.
Qed.

Lemma estep_ck v s l e e' : shape_ok e = true -> estep v s l e e' ->
  (ck e' + match c_label l with Some _ => 1 | None => 0 end <= ck e)%nat.
Proof.
  intros S H. destruct H; unfold ck, cm; cbn; rewrite ?Hc; cbn; rewrite ?Hpc, ?Hf; try lia.
  - (* the entry a client pops holds no client yet *)
    apply eligible_inheap in Hel. destruct (shape_inheap e S (proj1 Hel)) as [-> _]. apply Nat.le_refl.
  - destruct (c_fired c); lia.
  - destruct (c_fired c); lia.
  - destruct (buf_free e); cbn; lia.
  - destruct (c_fired c); lia.
Qed.

Lemma w_label_target l p : w_label l = Some p -> target l = Some p.
Proof. destruct l; try discriminate; intros H; exact H. Qed.
Lemma c_label_target l p : c_label l = Some p -> target l = Some p.
Proof. destruct l; try discriminate; intros H; exact H. Qed.

Theorem poll_done_iff s p e : nth_error (entries s) p = Some e -> (e_w e <> W_Stuck) ->
  (pm s p = 0%nat <-> exists r, e_w e = W_Done r).
Proof.
  intros Hp Hst. unfold pm, wk, wm. rewrite Hp. split.
  - intros H. destruct (e_w e) as [| | | |f|r].
    + destruct (e_wfired e); discriminate.
    + discriminate.
    + discriminate.
    + elim Hst. reflexivity.
    + discriminate.
    + exists r. reflexivity.
  - intros [r ->]. reflexivity.
Qed.

Theorem client_done_iff s p e c : nth_error (entries s) p = Some e -> e_cl e = Some c ->
  (cmm s p = 0%nat <-> exists r, c_pc c = C_Done r).
Proof.
  intros Hp Hc. unfold cmm, ck, cm. rewrite Hp, Hc. split.
  - intros H. destruct (c_pc c) as [| |r|r].
    + discriminate.
    + destruct (c_fired c); discriminate.
    + discriminate.
    + exists r. reflexivity.
  - intros [r ->]. reflexivity.
Qed.

(* answer requests: the queue of sends in flight on entry p *)
Definition senders_at (s : state) (p : nat) : list (nat * answer) :=
  match nth_error (entries s) p with Some e => e_senders e | None => [] end.

Lemma estep_senders s l e e' : estep V1 s l e e' ->
  exists extra, e_senders e' = skipn (match a_label l with Some _ => 1 | None => 0 end) (e_senders e) ++ extra /\
    (a_label l <> None -> e_senders e <> []).
Proof.
  intros H. destruct H; try discriminate Hv; cbn; try (exists []; rewrite app_nil_r; split; [reflexivity | intros X; elim X; reflexivity]).
  - eexists. split; [reflexivity | intros X; elim X; reflexivity].
  - exists []. rewrite app_nil_r, Hs. split; [destruct (buf_free e); reflexivity | discriminate].
Qed.

Lemma senders_step s l s' p : step V1 s l = Some s' -> nth_error (entries s) p <> None ->
  exists extra, senders_at s' p = skipn (if is_some_eq (a_label l) p then 1 else 0) (senders_at s p) ++ extra /\
    (is_some_eq (a_label l) p = true -> senders_at s p <> []).
Proof.
  intros H Hp. unfold senders_at. destruct (nth_error (entries s) p) as [e|] eqn:He; [clear Hp | elim Hp; reflexivity].
  destruct (step_entry_fwd V1 s l s' p e H He) as [e1 [-> [[Hn ->]|[Ht Hes]]]].
  - replace (is_some_eq (a_label l) p) with false; [exists []; rewrite app_nil_r; split; [reflexivity | discriminate]|].
    destruct (is_some_eq (a_label l) p) eqn:E; [|reflexivity]. apply is_some_eq_true in E. elim Hn. destruct l; try discriminate. exact E.
  - replace (is_some_eq (a_label l) p) with (match a_label l with Some _ => true | None => false end).
    + destruct (estep_senders s l e e1 Hes) as [x [E N]]. exists x. split; [rewrite E; destruct (a_label l); reflexivity|].
      intros X. apply N. destruct (a_label l); discriminate.
    + destruct l; try reflexivity. injection Ht as ->. symmetry. apply Nat.eqb_refl.
Qed.

Lemma skipn_app_ne {A} (l x : list A) b : (b = 1%nat -> l <> []) -> (b <= 1)%nat -> skipn b l ++ x = skipn b (l ++ x).
Proof.
  intros Hne Hb. destruct b as [|[|b]]; [reflexivity | | lia].
  destruct l as [|a l]; [elim (Hne eq_refl); reflexivity | reflexivity].
Qed.

(* along any run the queue of entry p is the old queue plus the arrivals, minus as many heads as sends were done on p *)
Theorem answer_queue : forall ls s s' p, run V1 s ls = Some s' -> nth_error (entries s) p <> None ->
  exists extra, senders_at s' p = skipn (count_own a_label p ls) (senders_at s p ++ extra).
Proof.
  intros ls s s' p. apply (run_ind V1 (fun s ls s' => nth_error (entries s) p <> None ->
    exists extra, senders_at s' p = skipn (count_own a_label p ls) (senders_at s p ++ extra))).
  - intros s0 _. exists []. rewrite app_nil_r. reflexivity.
  - intros s0 l s1 ls0 s2 Hs _ IH Hp.
    destruct (senders_step s0 l s1 p Hs Hp) as [x1 [H1 Hne]].
    assert (Hp1 : nth_error (entries s1) p <> None).
    { apply nth_error_Some. apply nth_error_Some in Hp. pose proof (step_len V1 s0 l s1 Hs). lia. }
    destruct (IH Hp1) as [x2 H2].
    exists (x1 ++ x2). rewrite H2, H1. unfold count_own. cbn [filter].
    destruct (is_some_eq (a_label l) p) eqn:El; cbn [length].
    + rewrite <- app_assoc. rewrite (skipn_app_ne _ (x1 ++ x2) 1); [|intros _; apply Hne; reflexivity | apply Nat.le_refl].
      rewrite skipn_add. reflexivity.
    + cbn [skipn]. rewrite <- app_assoc. reflexivity.
Qed.

Lemma nth_error_skipn_add {A} : forall n (l : list A) i, nth_error (skipn n l) i = nth_error l (n + i).
Proof. induction n as [|n IH]; intros [|a l] i; cbn; try reflexivity; [destruct i; reflexivity | apply IH]. Qed.

Theorem no_request_blocked br s p e :
  reachable V1 br s -> nth_error (entries s) p = Some e ->
  (* the proxy poll: its own next step is enabled *)
  ((forall r, e_w e <> W_Done r) -> exists l, w_label l = Some p /\ step V1 s l <> None) /\
  (* the client it holds: its own next step is enabled, or it waits for the poll's waiter to leave its timeout
     critical section, which is enabled and after which the hand-over of the offer is enabled *)
  (forall c, e_cl e = Some c -> (forall r, c_pc c <> C_Done r) ->
     (exists l, c_label l = Some p /\ step V1 s l <> None) \/
     (c_pc c = C_Send /\ e_w e = W_TimedOut /\
      exists s1, step V1 s (L_WTimeoutCS p) = Some s1 /\ step V1 s1 (L_RvOffer p) <> None)) /\
  (* answer requests in flight on it: the head's send is enabled (it never blocks), the others wait only for it *)
  (e_senders e <> [] -> step V1 s (L_AnswerPut p) <> None).
Proof.
  intros R Hp. pose proof (reachable_inv V1 br s R) as I.
  destruct (inv_entries V1 s I p e Hp) as [Hs [_ [_ [_ Hst]]]]. cbn [no_stuck] in Hst.
  (* a label aimed at p whose guard the entry passes is enabled *)
  pose proof (fun l e' => step_enabled V1 s l p e e' Hp) as En.
  split; [|split].
  - intros Hnd. destruct (e_w e) as [| | | |f|r] eqn:Ew.
    + destruct (e_wfired e) eqn:Ef; [exists (L_WTake p) | exists (L_FireW p)];
        (split; [reflexivity | eapply En; [reflexivity | constructor; assumption]]).
    + exists (L_WTimeoutCS p). split; [reflexivity|].
      destruct (e_inheap e) eqn:Eh; (eapply En; [reflexivity|]); [apply E_WExpire | apply E_WLate]; assumption.
    + (* W_Late: the client that claimed the poll is still waiting to hand its offer over *)
      unfold shape_ok in Hs. rewrite Ew in Hs. destruct (e_cl e) as [c|] eqn:Hc; [|discriminate].
      destruct (shape_client e c ltac:(unfold shape_ok; rewrite Ew, Hc; exact Hs) Hc) as [_ X].
      destruct (c_pc c) eqn:Hpc; try (rewrite Ew in X; destruct X; discriminate).
      exists (L_RvOffer p). split; [reflexivity|]. eapply En; [reflexivity|]. apply (E_RvOffer V1 s p e c Hc Hpc). rewrite Ew. reflexivity.
    + congruence.
    + exists (L_RvForward p). split; [reflexivity|]. eapply En; [reflexivity | apply E_RvForward; exact Ew].
    + elim (Hnd r). reflexivity.
  - intros c Hc Hnd. destruct (shape_client e c Hs Hc) as [Hh X]. destruct (c_pc c) eqn:Hpc.
    + destruct X as [_ Hw]. destruct (e_w e) as [| | | |f|r] eqn:Ew; try discriminate.
      * left. exists (L_RvOffer p). split; [reflexivity|]. eapply En; [reflexivity|]. apply (E_RvOffer V1 s p e c Hc Hpc). rewrite Ew. reflexivity.
      * right. split; [reflexivity|]. split; [reflexivity|].
        eexists. split; [cbn [step]; rewrite Hp, Ew, Hh; reflexivity|].
        eapply step_enabled; [apply nth_upd_eq; exact Hp | reflexivity | apply (E_RvOffer V1 _ p _ c); [exact Hc | exact Hpc | reflexivity]].
      * left. exists (L_RvOffer p). split; [reflexivity|]. eapply En; [reflexivity|]. apply (E_RvOffer V1 s p e c Hc Hpc). rewrite Ew. reflexivity.
      * congruence.
    + left. destruct (c_fired c) eqn:Hf; [exists (L_CTake p) | exists (L_FireC p)];
        (split; [reflexivity | eapply En; [reflexivity | econstructor; eassumption]]).
    + left. exists (L_CCleanup p). split; [reflexivity|]. eapply En; [reflexivity | econstructor; eassumption].
    + elim (Hnd r). reflexivity.
  - intros Hne. destruct (e_senders e) as [|[aid a] rest] eqn:Hsn; [elim Hne; reflexivity|].
    eapply En; [reflexivity | eapply E_AnswerPut; [reflexivity | exact Hsn]].
Qed.

(* every pending request of the repaired broker has an enabled step of its own threads
   (a timer firing counts: it fires at the latest 10 s after it was armed) *)
Theorem progress_v1 br s p e :
  reachable V1 br s -> nth_error (entries s) p = Some e -> entry_pending e = true ->
  exists l, internal l = true /\ target l = Some p /\ step V1 s l <> None.
Proof.
  intros R Hp Hpend. destruct (no_request_blocked br s p e R Hp) as [A [B C]].
  assert (W : forall l, w_label l = Some p -> internal l = true /\ target l = Some p).
  { intros l Hl. split; [destruct l; try discriminate; reflexivity | apply w_label_target; exact Hl]. }
  assert (K : forall l, c_label l = Some p -> internal l = true /\ target l = Some p).
  { intros l Hl. split; [destruct l; try discriminate; reflexivity | apply c_label_target; exact Hl]. }
  assert (Wait : (forall r, e_w e <> W_Done r) -> exists l, internal l = true /\ target l = Some p /\ step V1 s l <> None).
  { intros Hnd. destruct (A Hnd) as [l [Hl Hs]]. exists l. destruct (W l Hl). auto. }
  unfold entry_pending in Hpend. destruct (e_w e) as [| | | |f|r] eqn:Ew; try (apply Wait; discriminate).
  cbn in Hpend. destruct (e_cl e) as [c|] eqn:Hc.
  - destruct (c_pc c) eqn:Hpc;
      try (destruct (B c eq_refl ltac:(rewrite Hpc; discriminate)) as [[l [Hl Hs]]|[_ [X _]]]; [exists l; destruct (K l Hl); auto | discriminate]).
    cbn in Hpend. exists (L_AnswerPut p). split; [reflexivity|]. split; [reflexivity|]. apply C. destruct (e_senders e); discriminate.
  - cbn in Hpend. exists (L_AnswerPut p). split; [reflexivity|]. split; [reflexivity|]. apply C. destruct (e_senders e); discriminate.
Qed.
