(* CacheURLProofs.v — amp.CacheURL (Model/CacheURL.v): the domain prefix is one dot-free label (base32 fallback), its
   hyphen test on runes is the AMP specification's on characters (with the UTF-8 facts for that), CacheURL as a chain of
   refusals; then paths as lists of segments ([nonempty], [normal_seg], [abs_path], [middle]) with path.Join's buffer and
   PathEscape on them, which RendezvousPathProofs, RendezvousProofs and C11 build on. *)
From Coq Require Import List NArith Lia Bool Arith String.
From Coq Require Import ZifyN ZifyBool.
From Snow Require Import Lib.Wire Lib.WireFacts Model.CacheURL.
Import ListNotations.
Open Scope N_scope.

Lemma replace_byte_not_in : forall old new s, ~ In old new -> ~ In old (replace_byte old new s).
Proof.
  intros old new s Hn H. unfold replace_byte in H. apply in_flat_map in H. destruct H as [c [_ Hc]].
  destruct (c =? old) eqn:E; [auto|]. apply N.eqb_neq in E. destruct Hc as [Hc|[]]. congruence.
Qed.

Lemma steps234_dotfree : forall h34 u, ~ In DOTC (steps234 h34 u).
Proof.
  intros h34 u. unfold steps234.
  set (p := replace_byte DOTC [HYPHEN] (replace_byte HYPHEN [HYPHEN; HYPHEN] u)).
  assert (Hp : ~ In DOTC p).
  { apply replace_byte_not_in. intros [H|[]]. discriminate. }
  destruct (h34 p); [|assumption].
  intros H. cbn in H. destruct H as [H|[H|H]]; try discriminate.
  apply in_app_or in H. destruct H as [H|H]; [auto|].
  destruct H as [H|[H|[]]]; discriminate.
Qed.

(* the alphabet of the fallback label: a-z2-7 *)
Definition b32_alpha (c : N) : Prop := (97 <= c /\ c <= 122) \/ (50 <= c /\ c <= 55).

Lemma b32_char_alpha : forall v, b32_alpha (b32_char v).
Proof.
  intros v. unfold b32_char, b32_alpha. cbv zeta.
  assert (H : v mod 32 < 32) by (apply N.mod_lt; discriminate).
  generalize dependent (v mod 32). intros w H. destruct (w <? 26) eqn:E; lia.
Qed.

Lemma b32_encode_alpha : forall h, Forall b32_alpha (b32_encode h).
Proof.
  fix IH 1. intros [|a [|b [|c [|d [|e r]]]]]; cbn [b32_encode];
    repeat (apply Forall_cons; [apply b32_char_alpha|]); [apply Forall_nil..|apply IH].
Qed.

(* 8 characters for every 5 bytes, rounded up *)
Lemma b32_encode_length : forall h, length (b32_encode h) = ((8 * length h + 4) / 5)%nat.
Proof.
  fix IH 1. intros [|a [|b [|c [|d [|e r]]]]]; try reflexivity. cbn [b32_encode length]. rewrite IH.
  replace (8 * S (S (S (S (S (length r)))))  + 4)%nat with (8 * length r + 4 + 8 * 5)%nat by lia.
  rewrite Nat.div_add by discriminate. lia.
Qed.

Lemma b32_alpha_not_dot : forall l, Forall b32_alpha l -> ~ In DOTC l.
Proof.
  intros l F H. rewrite Forall_forall in F. apply F in H. unfold b32_alpha, DOTC in H. lia.
Qed.

Lemma b32_of_32_bytes : forall h, length h = 32%nat ->
  length (b32_encode h) = 52%nat /\ Forall b32_alpha (b32_encode h).
Proof. intros h H. split; [rewrite b32_encode_length, H; reflexivity|apply b32_encode_alpha]. Qed.

Section PrefixLabel.
  Variable to_unicode : bytes -> option bytes.
  Variable to_ascii : bytes -> option bytes.
  Variable sha256 : bytes -> bytes.
  Variable h34 : bytes -> bool.
  (* what is assumed of the libraries *)
  Hypothesis to_ascii_dotfree : forall s r, to_ascii s = Some r -> ~ In DOTC s -> ~ In DOTC r.
  Hypothesis sha256_len : forall d, length (sha256 d) = 32%nat.

  Lemma fallback_label : forall d,
    length (domain_prefix_fallback sha256 d) = 52%nat /\ Forall b32_alpha (domain_prefix_fallback sha256 d).
  Proof. intros d. apply b32_of_32_bytes. apply sha256_len. Qed.

  Lemma prefix_label : forall d,
    let p := domain_prefix to_unicode to_ascii sha256 h34 d in
    ~ In DOTC p /\ (length p <= 63)%nat /\
    (domain_prefix_basic to_unicode to_ascii h34 d = Some p \/
     (p = domain_prefix_fallback sha256 d /\ length p = 52%nat /\ Forall b32_alpha p /\
      (domain_prefix_basic to_unicode to_ascii h34 d = None \/
       exists q, domain_prefix_basic to_unicode to_ascii h34 d = Some q /\ (63 < length q)%nat))).
  Proof.
    intros d p. subst p. unfold domain_prefix.
    destruct (fallback_label d) as [FL FA].
    destruct (domain_prefix_basic to_unicode to_ascii h34 d) as [q|] eqn:E.
    - destruct (length q <=? 63)%nat eqn:L.
      + apply Nat.leb_le in L. repeat split; auto.
        unfold domain_prefix_basic in E. destruct (to_unicode d) as [u|]; [|discriminate].
        eapply to_ascii_dotfree; [exact E|apply steps234_dotfree].
      + apply Nat.leb_gt in L. split; [apply b32_alpha_not_dot; assumption|]. split; [lia|].
        right. repeat split; auto. right. exists q. split; auto.
    - split; [apply b32_alpha_not_dot; assumption|]. split; [lia|]. right. repeat split; auto.
  Qed.
End PrefixLabel.

Lemma in_rng_true : forall lo hi c, lo <= c <= hi -> in_rng lo hi c = true.
Proof. intros. unfold in_rng. lia. Qed.

Lemma in_rng_false : forall lo hi c, c < lo \/ hi < c -> in_rng lo hi c = false.
Proof. intros. unfold in_rng. lia. Qed.

(* Go's DecodeRune accepts a sequence of two, three, four bytes *)
Lemma rune_len2 : forall b0 c1 r, 194 <= b0 <= 223 -> 128 <= c1 <= 191 -> rune_len (b0 :: c1 :: r) = 2%nat.
Proof.
  intros b0 c1 r H0 H1. cbn [rune_len]. change is_cont with (in_rng 128 191).
  replace (b0 <? 128) with false by lia. rewrite !in_rng_true by assumption. reflexivity.
Qed.

Lemma rune_len3 : forall b0 c1 c2 r, 224 <= b0 <= 239 ->
  (if b0 =? 224 then 160 else 128) <= c1 <= (if b0 =? 237 then 159 else 191) -> 128 <= c2 <= 191 ->
  rune_len (b0 :: c1 :: c2 :: r) = 3%nat.
Proof.
  intros b0 c1 c2 r H0 H1 H2. cbn [rune_len]. cbv zeta. change is_cont with (in_rng 128 191).
  replace (b0 <? 128) with false by lia. rewrite (in_rng_false 194 223) by lia.
  rewrite !in_rng_true by assumption. reflexivity.
Qed.

Lemma rune_len4 : forall b0 c1 c2 c3 r, 240 <= b0 <= 244 ->
  (if b0 =? 240 then 144 else 128) <= c1 <= (if b0 =? 244 then 143 else 191) -> 128 <= c2 <= 191 -> 128 <= c3 <= 191 ->
  rune_len (b0 :: c1 :: c2 :: c3 :: r) = 4%nat.
Proof.
  intros b0 c1 c2 c3 r H0 H1 H2 H3. cbn [rune_len]. cbv zeta. change is_cont with (in_rng 128 191).
  replace (b0 <? 128) with false by lia. rewrite (in_rng_false 194 223), (in_rng_false 224 239) by lia.
  rewrite !in_rng_true by assumption. reflexivity.
Qed.

(* division with remainder, quotient and remainder as variables: what is left is linear *)
Lemma div_mod_ind : forall a b (P : N -> N -> Prop), b <> 0 ->
  (forall q r, a = b * q + r -> r < b -> P q r) -> P (a / b) (a mod b).
Proof. intros a b P Hb H. apply H; [apply N.div_mod|apply N.mod_lt]; exact Hb. Qed.

(* EncodeRune's output meets those conditions *)
Lemma utf8_cp_cases : forall c, valid_cp c = true ->
  match utf8_cp c with
  | [b0] => b0 < 128
  | [b0; c1] => 128 <= c1 <= 191 /\ 194 <= b0 <= 223
  | [b0; c1; c2] => 128 <= c2 <= 191 /\
                    224 <= b0 <= 239 /\ (if b0 =? 224 then 160 else 128) <= c1 <= (if b0 =? 237 then 159 else 191)
  | [b0; c1; c2; c3] => 128 <= c3 <= 191 /\ 128 <= c2 <= 191 /\
                        240 <= b0 <= 244 /\ (if b0 =? 240 then 144 else 128) <= c1 <= (if b0 =? 244 then 143 else 191)
  | _ => False
  end.
Proof.
  intros c V. unfold valid_cp in V. unfold utf8_cp.
  assert (M : forall x, 128 <= 128 + x mod 64 <= 191)
    by (intros x; pattern (x / 64), (x mod 64); apply div_mod_ind; [discriminate|intros; lia]).
  destruct (c <? 128) eqn:E1; [lia|]. destruct (c <? 2048) eqn:E2.
  { split; [apply M|]. pattern (c / 64), (c mod 64). apply div_mod_ind; [discriminate|intros; lia]. }
  destruct (c <? 65536) eqn:E3; repeat (split; [apply M|]).
  - change 4096 with (64 * 64). rewrite <- N.div_div by discriminate.
    pattern (c / 64 / 64), ((c / 64) mod 64). apply div_mod_ind; [discriminate|]. intros q r.
    pattern (c / 64), (c mod 64). apply div_mod_ind; [discriminate|]. intros y r' D' L' D L.
    destruct (N.eqb_spec (224 + q) 224), (N.eqb_spec (224 + q) 237); lia.
  - change 262144 with (4096 * 64). rewrite <- N.div_div by discriminate.
    pattern (c / 4096 / 64), ((c / 4096) mod 64). apply div_mod_ind; [discriminate|]. intros q r.
    pattern (c / 4096), (c mod 4096). apply div_mod_ind; [discriminate|]. intros y r' D' L' D L.
    destruct (N.eqb_spec (240 + q) 240), (N.eqb_spec (240 + q) 244); lia.
Qed.

Lemma rune_len_utf8_cp : forall c rest, valid_cp c = true ->
  rune_len (utf8_cp c ++ rest) = length (utf8_cp c).
Proof.
  intros c rest V. pose proof (utf8_cp_cases c V) as H.
  destruct (utf8_cp c) as [|b0 [|c1 [|c2 [|c3 [|]]]]]; try contradiction; cbn [app length].
  - cbn [rune_len]. replace (b0 <? 128) with true by lia. reflexivity.
  - apply rune_len2; tauto.
  - apply rune_len3; tauto.
  - apply rune_len4; tauto.
Qed.

Lemma utf8_cp_nonempty_len : forall c, (1 <= length (utf8_cp c))%nat.
Proof. intros c. unfold utf8_cp. destruct (c <? 128), (c <? 2048), (c <? 65536); cbn; lia. Qed.

Lemma drop_rune_utf8 : forall c rest, valid_cp c = true -> drop_rune (utf8_cp c ++ rest) = rest.
Proof.
  intros c rest V. unfold drop_rune. rewrite rune_len_utf8_cp by assumption.
  rewrite skipn_app. rewrite skipn_all. rewrite Nat.sub_diag. reflexivity.
Qed.

Lemma utf8_cp_ascii : forall c, c < 128 -> utf8_cp c = [c].
Proof. intros c H. unfold utf8_cp. destruct (c <? 128) eqn:E; [reflexivity|lia]. Qed.

Lemma utf8_cp_high : forall c, 128 <= c -> Forall (fun b => 128 <= b) (utf8_cp c).
Proof.
  intros c H. unfold utf8_cp. destruct (c <? 128) eqn:E; [lia|].
  destruct (c <? 2048), (c <? 65536); repeat constructor; lia.
Qed.

Lemma utf8_encode_app : forall a b, utf8_encode (a ++ b) = utf8_encode a ++ utf8_encode b.
Proof. intros. unfold utf8_encode. apply flat_map_app. Qed.

Lemma utf8_encode_ascii : forall l, Forall (fun c => c < 128) l -> utf8_encode l = l.
Proof.
  induction l as [|c l IH]; intros F; [reflexivity|]. inversion F; subst.
  unfold utf8_encode in *. cbn [flat_map]. rewrite utf8_cp_ascii by assumption. cbn. f_equal. auto.
Qed.

Lemma replace_byte_app : forall old new a b,
  replace_byte old new (a ++ b) = replace_byte old new a ++ replace_byte old new b.
Proof. intros. unfold replace_byte. apply flat_map_app. Qed.

Lemma replace_byte_id : forall old new l, Forall (fun b => b <> old) l -> replace_byte old new l = l.
Proof.
  induction l as [|c l IH]; intros F; [reflexivity|]. inversion F; subst.
  unfold replace_byte in *. cbn [flat_map]. destruct (c =? old) eqn:E; [apply N.eqb_eq in E; congruence|].
  cbn. f_equal. auto.
Qed.

(* replacing an ASCII character by ASCII characters commutes with UTF-8 encoding:
   strings.Replace on the bytes of a Go string is a replacement of characters *)
Lemma replace_utf8 : forall old new cps, old < 128 -> Forall (fun c => c < 128) new ->
  replace_byte old new (utf8_encode cps) = utf8_encode (replace_byte old new cps).
Proof.
  intros old new cps Ho Hn. induction cps as [|c cps IH]; [reflexivity|].
  change (utf8_encode (c :: cps)) with (utf8_cp c ++ utf8_encode cps).
  rewrite replace_byte_app, IH.
  change (replace_byte old new (c :: cps)) with ((if c =? old then new else [c]) ++ replace_byte old new cps).
  rewrite utf8_encode_app. f_equal.
  destruct (c =? old) eqn:E.
  - apply N.eqb_eq in E. subst c. rewrite utf8_cp_ascii by assumption.
    rewrite utf8_encode_ascii by assumption. unfold replace_byte. cbn. rewrite N.eqb_refl. apply app_nil_r.
  - apply N.eqb_neq in E. change (utf8_encode [c]) with (utf8_cp c ++ []). rewrite app_nil_r.
    destruct (c <? 128) eqn:Ec.
    + rewrite utf8_cp_ascii by lia. unfold replace_byte. cbn. apply N.eqb_neq in E. rewrite E. reflexivity.
    + apply replace_byte_id. eapply Forall_impl; [|apply utf8_cp_high; lia]. cbn. intros. lia.
Qed.

Definition valid_str (cps : list N) : Prop := Forall (fun c => valid_cp c = true) cps.

Lemma replace_byte_Forall : forall (P : N -> Prop) old new l,
  Forall P new -> Forall P l -> Forall P (replace_byte old new l).
Proof.
  intros P old new l Fn F. unfold replace_byte. rewrite Forall_forall in *. intros x Hx.
  apply in_flat_map in Hx. destruct Hx as [c [Hc Hx]]. destruct (c =? old); [auto|].
  destruct Hx as [Hx|[]]. subst. auto.
Qed.

Definition hd_hyphen (l : list N) : bool := match l with b :: _ => b =? HYPHEN | [] => false end.

Lemma hd_hyphen_utf8 : forall cps, hd_hyphen (utf8_encode cps) = hd_hyphen cps.
Proof.
  intros [|c cps]; [reflexivity|]. change (utf8_encode (c :: cps)) with (utf8_cp c ++ utf8_encode cps).
  destruct (N.ltb_spec c 128) as [L|L]; [rewrite utf8_cp_ascii by exact L; reflexivity|].
  pose proof (utf8_cp_high c L) as F. pose proof (utf8_cp_nonempty_len c) as Nn.
  destruct (utf8_cp c) as [|b r]; [cbn in Nn; lia|]. inversion F; subst.
  unfold hd_hyphen, HYPHEN. cbn [app]. lia.
Qed.

Lemma tl_utf8_hyphen : forall cps, hd_hyphen cps = true -> tl (utf8_encode cps) = utf8_encode (tl cps).
Proof.
  intros [|c cps] H; [discriminate|]. cbn in H. apply N.eqb_eq in H. subst c. reflexivity.
Qed.

Lemma h34_as_hd : forall l : list N,
  match l with c2 :: c3 :: _ => (c2 =? HYPHEN) && (c3 =? HYPHEN) | _ => false end
  = hd_hyphen l && hd_hyphen (tl l).
Proof.
  intros [|a [|b l]]; cbn; try reflexivity. rewrite andb_false_r. reflexivity.
Qed.

(* the rune-indexed test on the UTF-8 bytes is the specification's test on characters *)
Lemma h34_runes_is_spec : forall cps, valid_str cps -> h34_runes (utf8_encode cps) = h34_spec cps.
Proof.
  intros cps V. unfold h34_runes, h34_spec.
  destruct cps as [|a [|b rest]].
  - reflexivity.
  - change (utf8_encode [a]) with (utf8_cp a ++ []). inversion V; subst.
    rewrite drop_rune_utf8 by assumption. reflexivity.
  - change (utf8_encode (a :: b :: rest)) with (utf8_cp a ++ utf8_cp b ++ utf8_encode rest).
    inversion V as [|? ? Va V']; subst. inversion V' as [|? ? Vb V'']; subst.
    rewrite drop_rune_utf8 by assumption. rewrite drop_rune_utf8 by assumption.
    rewrite h34_as_hd. rewrite (h34_as_hd rest). rewrite hd_hyphen_utf8.
    destruct (hd_hyphen rest) eqn:E; [|reflexivity]. cbn [andb].
    rewrite tl_utf8_hyphen by assumption. apply hd_hyphen_utf8.
Qed.

(* steps 2-4 with the rune-indexed test = the specification's steps on characters *)
Lemma steps234_runes_is_spec : forall cps, valid_str cps ->
  steps234 h34_runes (utf8_encode cps) = utf8_encode (steps234_spec cps).
Proof.
  intros cps V. unfold steps234, steps234_spec.
  assert (A1 : HYPHEN < 128) by (unfold HYPHEN; lia).
  assert (A2 : DOTC < 128) by (unfold DOTC; lia).
  assert (F1 : Forall (fun c => c < 128) [HYPHEN; HYPHEN]) by (repeat constructor; unfold HYPHEN; lia).
  assert (F2 : Forall (fun c => c < 128) [HYPHEN]) by (repeat constructor; unfold HYPHEN; lia).
  rewrite (replace_utf8 HYPHEN [HYPHEN; HYPHEN] cps A1 F1).
  rewrite (replace_utf8 DOTC [HYPHEN] _ A2 F2).
  set (p := replace_byte DOTC [HYPHEN] (replace_byte HYPHEN [HYPHEN; HYPHEN] cps)).
  assert (Vp : valid_str p).
  { apply replace_byte_Forall; [repeat constructor|]. apply replace_byte_Forall; [repeat constructor|assumption]. }
  rewrite h34_runes_is_spec by assumption.
  destruct (h34_spec p); [|reflexivity].
  rewrite !utf8_encode_app. reflexivity.
Qed.

(* for ASCII strings the byte-indexed test of the pinned code is the specification's too *)
Lemma steps234_bytes_is_spec_ascii : forall cps, Forall (fun c => c < 128) cps ->
  steps234 h34_bytes (utf8_encode cps) = utf8_encode (steps234_spec cps).
Proof.
  intros cps F. rewrite utf8_encode_ascii by assumption.
  assert (G : Forall (fun c => c < 128) (steps234_spec cps)).
  { assert (H : forall l, Forall (fun c => c = HYPHEN \/ c = 48) l -> Forall (fun c => c < 128) l)
      by (intros l; apply Forall_impl; unfold HYPHEN; lia).
    unfold steps234_spec.
    set (p := replace_byte DOTC [HYPHEN] (replace_byte HYPHEN [HYPHEN; HYPHEN] cps)).
    assert (Fp : Forall (fun c => c < 128) p)
      by (apply replace_byte_Forall; [|apply replace_byte_Forall; [|assumption]]; apply H; repeat apply Forall_cons; auto).
    destruct (h34_spec p); [|assumption].
    repeat (apply Forall_app; split); try assumption; apply H; repeat apply Forall_cons; auto. }
  rewrite utf8_encode_ascii by assumption. reflexivity.
Qed.

(* the full basic algorithm: with the rune-indexed test it is the specification's, given
   ToUnicode's answer as a string of characters *)
Section BasicIsSpec.
  Variable to_unicode : bytes -> option bytes.
  Variable to_ascii : bytes -> option bytes.

  Lemma basic_is_spec : forall d cps,
    to_unicode d = Some (utf8_encode cps) -> valid_str cps ->
    domain_prefix_basic to_unicode to_ascii h34_runes d = to_ascii (utf8_encode (steps234_spec cps)).
  Proof.
    intros d cps Hu V. unfold domain_prefix_basic. rewrite Hu. rewrite steps234_runes_is_spec by assumption. reflexivity.
  Qed.

  Lemma basic_v0_is_spec_ascii : forall d cps,
    to_unicode d = Some (utf8_encode cps) -> Forall (fun c => c < 128) cps ->
    domain_prefix_basic to_unicode to_ascii h34_bytes d = to_ascii (utf8_encode (steps234_spec cps)).
  Proof.
    intros d cps Hu V. unfold domain_prefix_basic. rewrite Hu. rewrite steps234_bytes_is_spec_ascii by assumption. reflexivity.
  Qed.
End BasicIsSpec.

(* cache_url is a chain of refusals: one step of it *)
Lemma refuse_iff : forall A (b : bool) (x : option A) r (P Q : Prop),
  (b = false <-> P) -> (x = Some r <-> Q) -> ((if b then None else x) = Some r <-> P /\ Q).
Proof. intros A [|] x r P Q HP HQ; [intuition discriminate|tauto]. Qed.

Section CacheUrlShape.
  Variable to_unicode : bytes -> option bytes.
  Variable to_ascii : bytes -> option bytes.
  Variable sha256 : bytes -> bytes.
  Variable h34 : bytes -> bool.

  Definition port_default (pu : pub_url) : Prop :=
    p_port pu = [] \/ (p_scheme pu = S_HTTP /\ p_port pu = bs "80"%string) \/
    (p_scheme pu = S_HTTPS /\ p_port pu = bs "443"%string).

  Lemma port_ok_iff : forall pu, port_ok pu = true <-> port_default pu.
  Proof.
    intros pu. unfold port_ok, port_default. rewrite !orb_true_iff, !andb_true_iff, !beq_eq. tauto.
  Qed.

  Definition result_host (pu : pub_url) (cu : cache_url_t) : bytes :=
    let h := domain_prefix to_unicode to_ascii sha256 h34 (p_hostname pu) ++ DOTC :: c_hostname cu in
    if beq (c_port cu) [] then h else join_host_port h (c_port cu).

  Lemma cache_url_some : forall pu cu ct r,
    cache_url to_unicode to_ascii sha256 h34 pu cu ct = Some r <->
    ct <> [] /\ (p_scheme pu = S_HTTP \/ p_scheme pu = S_HTTPS) /\ p_user pu = false /\
    port_default pu /\ p_hostname pu <> [] /\
    valid_escapes (path_join (path_components pu cu ct)) = true /\
    c_rawquery cu = [] /\ c_fragment cu = [] /\
    r = {| r_scheme := c_scheme cu; r_user := c_user cu; r_host := result_host pu cu;
           r_rawpath := path_join (path_components pu cu ct);
           r_rawquery := p_rawquery pu; r_fragment := p_fragment pu |}.
  Proof.
    intros pu cu ct r. unfold cache_url. fold (result_host pu cu). cbv zeta.
    apply refuse_iff; [apply beq_neq|].
    apply refuse_iff; [rewrite negb_false_iff, orb_true_iff, !beq_eq; reflexivity|].
    apply refuse_iff; [reflexivity|].
    apply refuse_iff; [rewrite negb_false_iff; apply port_ok_iff|].
    apply refuse_iff; [apply beq_neq|].
    apply refuse_iff; [apply negb_false_iff|].
    apply refuse_iff; [rewrite negb_false_iff; apply beq_eq|].
    apply refuse_iff; [rewrite negb_false_iff; apply beq_eq|].
    split; [intros [= <-]|intros ->]; reflexivity.
  Qed.
End CacheUrlShape.

Definition nonempty (s : bytes) : bool := negb (beq s []).
Definition normal_seg (s : bytes) : Prop :=
  s <> [] /\ ~ In SLASHC s /\ s <> [DOTC] /\ s <> [DOTC; DOTC].
(* "/s1/s2/.../sn", the empty string for no segments *)
Definition abs_path (ss : list bytes) : bytes := flat_map (fun s => SLASHC :: s) ss.

Lemma abs_path_app : forall a b, abs_path (a ++ b) = abs_path a ++ abs_path b.
Proof. intros. apply flat_map_app. Qed.

Lemma nonempty_normal : forall s, normal_seg s -> nonempty s = true.
Proof. intros s [H _]. unfold nonempty. rewrite beq_nil_false by assumption. reflexivity. Qed.

Lemma filter_nonempty_normal : forall ms, Forall normal_seg ms -> filter nonempty ms = ms.
Proof.
  induction 1 as [|s l Hs F IH]; [reflexivity|]. cbn [filter]. rewrite nonempty_normal, IH by assumption. reflexivity.
Qed.

(* a literal is checked by evaluation *)
Definition normal_segb (s : bytes) : bool :=
  nonempty s && negb (existsb (N.eqb SLASHC) s) && negb (is_dot s) && negb (is_dotdot s).

Lemma normal_segb_ok : forall s, normal_segb s = true -> normal_seg s.
Proof.
  intros s H. unfold normal_segb, nonempty, is_dot, is_dotdot in H.
  rewrite !andb_true_iff, !negb_true_iff, !beq_neq in H. destruct H as [[[H0 H1] H2] H3].
  repeat split; try assumption. intros X. enough (existsb (N.eqb SLASHC) s = true) by congruence.
  apply existsb_exists. exists SLASHC. split; [exact X|apply N.eqb_refl].
Qed.

Lemma slash_join_abs : forall ss, ss <> [] -> SLASHC :: join [SLASHC] ss = abs_path ss.
Proof.
  induction ss as [|s ss IH]; intros H; [congruence|].
  destruct ss as [|s' ss'].
  - cbn. rewrite app_nil_r. reflexivity.
  - change (join [SLASHC] (s :: s' :: ss')) with (s ++ [SLASHC] ++ join [SLASHC] (s' :: ss')).
    change (abs_path (s :: s' :: ss')) with (SLASHC :: s ++ abs_path (s' :: ss')).
    rewrite <- IH by discriminate. reflexivity.
Qed.

Lemma join_buf_nonempty : forall elems buf, buf <> [] -> join_buf elems buf = buf ++ abs_path elems.
Proof.
  induction elems as [|e elems IH]; intros buf H.
  - cbn. rewrite app_nil_r. reflexivity.
  - cbn [join_buf abs_path flat_map]. destruct buf as [|b buf]; [congruence|].
    rewrite IH by (destruct buf; discriminate). rewrite <- app_assoc. reflexivity.
Qed.

Lemma upper_hex_not_slash : forall n, upper_hex n <> SLASHC.
Proof. intros n. unfold upper_hex, SLASHC. destruct (n <? 10) eqn:E; lia. Qed.

Lemma path_escape_no_slash : forall s, ~ In SLASHC (path_escape s).
Proof.
  intros s H. unfold path_escape in H. apply in_flat_map in H. destruct H as [c [_ H]].
  destruct (seg_unescaped c) eqn:E.
  - destruct H as [H|[]]. subst c. vm_compute in E. discriminate.
  - destruct H as [H|[H|[H|[]]]]; [discriminate| |]; eapply upper_hex_not_slash; eauto.
Qed.

(* every escape starts with '%': a result without one is the argument itself *)
Lemma path_escape_plain : forall s l, path_escape s = l -> ~ In 37 l -> s = l.
Proof.
  induction s as [|c s IH]; intros l H Hn; [exact H|].
  unfold path_escape in H. cbn [flat_map] in H. destruct (seg_unescaped c); subst l; cbn [app] in *.
  - f_equal. apply IH; [reflexivity|]. intros X. apply Hn. right. exact X.
  - destruct Hn. left. reflexivity.
Qed.

Lemma path_escape_normal : forall h, h <> [] -> h <> [DOTC] -> h <> [DOTC; DOTC] -> normal_seg (path_escape h).
Proof.
  intros h H0 H1 H2.
  repeat split; [|apply path_escape_no_slash| |]; intros X; apply path_escape_plain in X; try congruence;
    vm_compute; intuition discriminate.
Qed.

(* the middle components: content type "c", "s" for https, the escaped host *)
Definition middle (pu : pub_url) : list bytes :=
  [bs "c"%string] ++ (if beq (p_scheme pu) S_HTTPS then [bs "s"%string] else []) ++ [path_escape (p_hostname pu)].

Lemma middle_normal : forall pu, p_hostname pu <> [] -> p_hostname pu <> [DOTC] -> p_hostname pu <> [DOTC; DOTC] ->
  Forall normal_seg (middle pu).
Proof.
  intros pu H0 H1 H2. unfold middle. apply Forall_cons; [apply normal_segb_ok; reflexivity|].
  apply Forall_app. split; [|apply Forall_cons; [apply path_escape_normal; assumption|apply Forall_nil]].
  destruct (beq (p_scheme pu) S_HTTPS); [apply Forall_cons; [apply normal_segb_ok; reflexivity|]|]; apply Forall_nil.
Qed.

Lemma middle_cons : forall pu, exists m, middle pu = bs "c"%string :: m.
Proof. intros. eexists. reflexivity. Qed.

Lemma path_components_middle : forall pu cu,
  path_components pu cu (bs "c"%string) = c_epath cu :: middle pu ++ [p_epath pu].
Proof. intros. unfold path_components, middle. cbn [app]. rewrite <- app_assoc. reflexivity. Qed.
