(* Round8Proofs.v — binCount and roundedCounter (Model/Round8.v).  [bin n] is the least multiple of 8 that is >= n
   ([bin_spec], from the one division fact [bin_char]); n sequential Incs leave the counter at (n, bin n)
   ([inc_seq_from_zero]); for the threads of the Inc that holds a mutex (machine [stepr]) the invariant [Inv] records
   what the holder has done so far, so that under every schedule the published value is the bin of the completed
   Incs or of one more ([inv_pc_value]). *)
From Coq Require Import List NArith Lia Arith.
From Coq Require Import ZifyN ZifyBool.
From Snow Require Import Model.Round8.
Import ListNotations.
Open Scope N_scope.

(* the one fact about the division in [bin]; everything below is linear arithmetic over it *)
Lemma bin_char : forall n, exists q, bin n = 8 * q /\ n <= 8 * q < n + 8.
Proof.
  intro n. exists ((n + 7) / 8). unfold bin.
  pose proof (N.div_mod (n + 7) 8). pose proof (N.mod_lt (n + 7) 8). lia.
Qed.

Lemma bin_spec : forall n, n <= bin n /\ bin n < n + 8 /\ N.divide 8 (bin n).
Proof. intro n. destruct (bin_char n) as [q [-> H]]. split; [|split]; [lia | lia | exists q; lia]. Qed.

Lemma bin_succ : forall t, bin (t + 1) = if bin t <? t + 1 then bin t + 8 else bin t.
Proof.
  intro t. destruct (bin_char t) as [q [-> H]]. destruct (bin_char (t + 1)) as [q' [-> H']].
  destruct (8 * q <? t + 1) eqn:E; lia.
Qed.

Lemma bin_mono : forall a b, a <= b -> bin a <= bin b.
Proof. intros a b H. destruct (bin_char a) as [q [-> Ha]]. destruct (bin_char b) as [q' [-> Hb]]. lia. Qed.

Definition rc_ok (c : rc) : Prop := snd c = bin (fst c).

Lemma inc_seq_ok : forall c, rc_ok c -> rc_ok (inc_seq c) /\ fst (inc_seq c) = fst c + 1.
Proof.
  intros [t v] H. unfold rc_ok in *. cbn [fst snd] in H. subst v.
  unfold inc_seq. cbn [fst snd]. cbv zeta. pose proof (bin_succ t) as HB.
  destruct (bin t <? t + 1); cbn [fst snd]; auto.
Qed.

Lemma incs_spec : forall n c, rc_ok c -> incs n c = (fst c + N.of_nat n, bin (fst c + N.of_nat n)).
Proof.
  induction n as [|n IH]; intros c H.
  - cbn [incs]. destruct c as [t v]. unfold rc_ok in H. cbn [fst snd] in *. subst v.
    replace (t + N.of_nat 0) with t by lia. reflexivity.
  - cbn [incs]. destruct (inc_seq_ok c H) as [H1 H2]. rewrite (IH _ H1), H2.
    replace (fst c + 1 + N.of_nat n) with (fst c + N.of_nat (S n)) by lia. reflexivity.
Qed.

Lemma inc_seq_from_zero : forall n, incs n rc0 = (N.of_nat n, bin (N.of_nat n)).
Proof.
  intro n. rewrite incs_spec by reflexivity. cbn [fst rc0]. rewrite N.add_0_l. reflexivity.
Qed.

Lemma incsN_spec : forall n, incsN n rc0 = (n, bin n).
Proof.
  intro n. unfold incsN. induction n as [|n IH] using N.peano_ind.
  - reflexivity.
  - rewrite N.iter_succ, IH. unfold inc_seq. cbn [fst snd]. cbv zeta.
    replace (N.succ n) with (n + 1) by lia. rewrite bin_succ.
    destruct (bin n <? n + 1); reflexivity.
Qed.

(* what the thread inside Inc has done so far: total t, value v, d Incs completed *)
Definition inv_pc (t v : N) (d : nat) (p : pcr) : Prop :=
  match p with
  | IR => False
  | LR => v = bin t /\ t = N.of_nat d
  | CR => v = bin (N.of_nat d) /\ t = N.of_nat d + 1
  | DR => v = bin (N.of_nat d) /\ t = N.of_nat d + 1 /\ v < t
  | UR => v = bin t /\ t = N.of_nat d + 1
  end.

Definition Inv (s : str) : Prop :=
  match lockr s with
  | None => (forall j, pcsr s j = IR) /\ valuer s = bin (totalr s) /\ totalr s = N.of_nat (doner s) /\ startedr s = doner s
  | Some i => (forall j, j <> i -> pcsr s j = IR) /\ startedr s = S (doner s) /\
              inv_pc (totalr s) (valuer s) (doner s) (pcsr s i)
  end.

Lemma upd_same : forall A (f : nat -> A) i x, upd f i x i = x.
Proof. intros. unfold upd. rewrite Nat.eqb_refl. reflexivity. Qed.
Lemma upd_other : forall A (f : nat -> A) i j x, j <> i -> upd f i x j = f j.
Proof. intros. unfold upd. destruct (Nat.eqb j i) eqn:E; [apply Nat.eqb_eq in E; contradiction | reflexivity]. Qed.

Lemma Inv_init : Inv initr.
Proof. unfold Inv, initr. cbn. repeat split. Qed.

(* the thread h that holds the mutex moves to p; nobody else does *)
Lemma Inv_holder : forall pcs h t v d p,
  (forall j, j <> h -> pcs j = IR) -> inv_pc t v d p ->
  Inv {| totalr := t; valuer := v; lockr := Some h; pcsr := upd pcs h p; doner := d; startedr := S d |}.
Proof.
  intros pcs h t v d p Hoth Hp. unfold Inv. cbn [lockr pcsr totalr valuer doner startedr]. rewrite upd_same. split; [|split; [reflexivity | exact Hp]].
  intros j Hj. rewrite upd_other by exact Hj. apply Hoth, Hj.
Qed.

Lemma Inv_step : forall s i s', Inv s -> stepr s i = Some s' -> Inv s'.
Proof.
  intros s i s' HI Hs. unfold stepr in Hs. unfold Inv in HI.
  destruct (lockr s) as [h|] eqn:EL.
  - (* mutex held by h; any other thread is idle, hence blocked *)
    destruct HI as [Hoth [Hst Hpc]].
    destruct (Nat.eq_dec i h) as [->|Hne]; [|rewrite (Hoth i Hne) in Hs; discriminate].
    destruct (pcsr s h); cbn [inv_pc] in Hpc; [contradiction|..]; injection Hs as <-; rewrite Hst.
    + (* LR -> CR *) apply Inv_holder; [exact Hoth|]. cbn [inv_pc]. destruct Hpc as [-> ->]. auto.
    + (* CR -> DR / UR *)
      apply Inv_holder; [exact Hoth|]. destruct Hpc as [Hv Ht].
      pose proof (bin_succ (N.of_nat (doner s))) as HB. rewrite <- Hv, <- Ht in HB.
      destruct (valuer s <? totalr s) eqn:EC; cbn [inv_pc]; [lia | split; congruence].
    + (* DR -> UR *)
      apply Inv_holder; [exact Hoth|]. cbn [inv_pc]. destruct Hpc as [Hv [Ht Hlt]].
      pose proof (bin_succ (N.of_nat (doner s))) as HB. rewrite <- Hv, <- Ht in HB.
      apply N.ltb_lt in Hlt. rewrite Hlt in HB. split; congruence.
    + (* UR -> IR, unlock *)
      unfold Inv. cbn [lockr pcsr totalr valuer doner startedr]. destruct Hpc as [Hv Ht]. split; [|split; [exact Hv | split; [lia | reflexivity]]].
      intro j. destruct (Nat.eq_dec j h) as [->|Hj]; [apply upd_same | rewrite upd_other by exact Hj; apply Hoth, Hj].
  - (* mutex free: every thread idle; i takes the mutex *)
    destruct HI as [Hidle [Hv [Ht Hst]]]. rewrite (Hidle i) in Hs. injection Hs as <-. rewrite Hst.
    apply Inv_holder; [intros j _; apply Hidle | split; assumption].
Qed.

Lemma Inv_run : forall sched s, Inv s -> Inv (runr sched s).
Proof.
  induction sched as [|i sched IH]; intros s HI; cbn [runr fold_left].
  - exact HI.
  - apply IH. unfold stepr_skip. destruct (stepr s i) eqn:E; [eapply Inv_step; eassumption | exact HI].
Qed.

Lemma Inv_reach : forall sched, Inv (runr sched initr).
Proof. intro sched. apply Inv_run, Inv_init. Qed.

Lemma bin_between : forall a b x, a <= x <= b -> a <= bin x <= bin b /\ N.divide 8 (bin x).
Proof.
  intros a b x H. pose proof (bin_spec x) as [L [_ D]]. pose proof (bin_mono x b). split; [lia | exact D].
Qed.

(* while an Inc is in flight the published value is the bin of the completed Incs or of one more *)
Lemma inv_pc_value : forall t v d p, inv_pc t v d p ->
  N.of_nat d <= v <= bin (N.of_nat (S d)) /\ N.divide 8 v.
Proof.
  intros t v d p H. destruct p; cbn [inv_pc] in H; [contradiction|..];
    destruct H as [-> H]; apply bin_between; lia.
Qed.

(* the runner's per-step states are exactly the states of [runr] on the prefixes of the schedule *)
Lemma runr_trace_nth : forall sched s n, (n < List.length sched)%nat ->
  nth_error (runr_trace sched s) n = Some (runr (firstn (S n) sched) s).
Proof.
  induction sched as [|i sched IH]; intros s n Hn; cbn [List.length] in Hn; [lia|].
  destruct n as [|n]; cbn [runr_trace nth_error firstn].
  - unfold runr. destruct sched; reflexivity.
  - rewrite IH by lia. unfold runr. cbn [fold_left firstn]. reflexivity.
Qed.

Lemma runr_trace_length : forall sched s, List.length (runr_trace sched s) = List.length sched.
Proof. induction sched as [|i sched IH]; intro s; cbn [runr_trace List.length]; [reflexivity | rewrite IH; reflexivity]. Qed.
