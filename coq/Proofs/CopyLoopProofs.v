(* CopyLoopProofs.v — the proxy's relay step (Model/CopyLoop.v = proxy/lib/snowflake.go copyLoop + io.Copy) relays each
   direction as an in-order byte prefix, closes each conn exactly once, and is inert after it returned: for ALL read
   and write scripts of the two conns and ALL schedules of the two copiers, copyLoop's own goroutine, the shutdown
   channel and outside closes. Invariant + induction over the schedule. *)
From Coq Require Import List NArith Bool Arith Lia.
From Snow Require Import Lib.Wire Model.CopyLoop.
Import ListNotations.
Open Scope nat_scope.

Opaque CL_BUF.
#[local] Arguments closedb : simpl never.

Lemma closedb_S c e : closedb (S c) e = true.
Proof. unfold closedb. destruct e; reflexivity. Qed.
Lemma closedb_ext c : closedb c true = true.
Proof. reflexivity. Qed.
Lemma closedb_0 : closedb 0 false = false.
Proof. reflexivity. Qed.

(* direction d: what side (1-d) accepted against what side d handed out *)
Definition relay_ok (d : bool) (st : cl_state) : Prop :=
  let out := s_out (get_side d st) in
  let inn := s_in (get_side (negb d) st) in
  match get_dir d st with
  | AtRead => inn = out
  | AtWrite c _ => inn ++ c = out
  | Exited => exists t, out = inn ++ t
  end.

(* a copier is never parked on a closed conn *)
Definition parked_ok (d : bool) (st : cl_state) : Prop :=
  match get_dir d st with
  | AtRead => closed (get_side d st) = false
  | AtWrite _ _ => closed (get_side (negb d) st) = false
  | Exited => True
  end.

Definition closes_ok (st : cl_state) : Prop :=
  s_closes (side0 st) = (match mn st with Closing2 | Returned => 1 | _ => 0 end) /\
  s_closes (side1 st) = (match mn st with Returned => 1 | _ => 0 end).

Definition cause_ok (st : cl_state) : Prop :=
  mn st <> Waiting -> dir0 st = Exited \/ dir1 st = Exited \/ shut st = true.

Definition ret_ok (st : cl_state) : Prop :=
  match mn st with
  | Returned => at_ret st = Some (length (s_in (side0 st)), length (s_in (side1 st)))
  | _ => at_ret st = None
  end.

Definition script_ok (D : bytes) (x : cl_side) : Prop := s_out x ++ script_data (s_reads x) = D.

Lemma gs_ss_eq s x st : get_side s (set_side s x st) = x.
Proof. destruct s; reflexivity. Qed.
Lemma gs_ss_neq s x st : get_side (negb s) (set_side s x st) = get_side (negb s) st.
Proof. destruct s; reflexivity. Qed.
Lemma gs_ss_neq' s x st : get_side s (set_side (negb s) x st) = get_side s st.
Proof. destruct s; reflexivity. Qed.
Lemma gd_ss d s x st : get_dir d (set_side s x st) = get_dir d st.
Proof. destruct d, s; reflexivity. Qed.
Lemma mn_ss s x st : mn (set_side s x st) = mn st.
Proof. destruct s; reflexivity. Qed.
Lemma shut_ss s x st : shut (set_side s x st) = shut st.
Proof. destruct s; reflexivity. Qed.
Lemma ar_ss s x st : at_ret (set_side s x st) = at_ret st.
Proof. destruct s; reflexivity. Qed.

Lemma gd_sd_eq d x st : get_dir d (set_dir d x st) = x.
Proof. destruct d; reflexivity. Qed.
Lemma gd_sd_neq d x st : get_dir (negb d) (set_dir d x st) = get_dir (negb d) st.
Proof. destruct d; reflexivity. Qed.
Lemma gd_sd_neq' d x st : get_dir d (set_dir (negb d) x st) = get_dir d st.
Proof. destruct d; reflexivity. Qed.
Lemma gs_sd s d x st : get_side s (set_dir d x st) = get_side s st.
Proof. destruct d, s; reflexivity. Qed.
Lemma mn_sd d x st : mn (set_dir d x st) = mn st.
Proof. destruct d; reflexivity. Qed.
Lemma shut_sd d x st : shut (set_dir d x st) = shut st.
Proof. destruct d; reflexivity. Qed.
Lemma ar_sd d x st : at_ret (set_dir d x st) = at_ret st.
Proof. destruct d; reflexivity. Qed.

Lemma gs_sm s m st : get_side s (set_mn m st) = get_side s st.
Proof. destruct s; reflexivity. Qed.
Lemma gd_sm d m st : get_dir d (set_mn m st) = get_dir d st.
Proof. destruct d; reflexivity. Qed.
Lemma gs_ssh s b st : get_side s (set_shut b st) = get_side s st.
Proof. destruct s; reflexivity. Qed.
Lemma gd_ssh d b st : get_dir d (set_shut b st) = get_dir d st.
Proof. destruct d; reflexivity. Qed.
Lemma gs_sar s r st : get_side s (set_at_ret r st) = get_side s st.
Proof. destruct s; reflexivity. Qed.
Lemma gd_sar d r st : get_dir d (set_at_ret r st) = get_dir d st.
Proof. destruct d; reflexivity. Qed.

Definition woken (m : cl_mstate) : cl_mstate := match m with Waiting => Closing1 | _ => m end.

Lemma gs_fin s d st : get_side s (finish d st) = get_side s st.
Proof. unfold finish. destruct (mn (set_dir d Exited st)); rewrite ?gs_sm, gs_sd; reflexivity. Qed.
Lemma gd_fin_eq d st : get_dir d (finish d st) = Exited.
Proof. unfold finish. destruct (mn (set_dir d Exited st)); rewrite ?gd_sm, gd_sd_eq; reflexivity. Qed.
Lemma gd_fin_neq d st : get_dir (negb d) (finish d st) = get_dir (negb d) st.
Proof. unfold finish. destruct (mn (set_dir d Exited st)); rewrite ?gd_sm, gd_sd_neq; reflexivity. Qed.
Lemma gd_fin_neq' d st : get_dir d (finish (negb d) st) = get_dir d st.
Proof. unfold finish. destruct (mn (set_dir (negb d) Exited st)); rewrite ?gd_sm, gd_sd_neq'; reflexivity. Qed.
Lemma mn_fin d st : mn (finish d st) = woken (mn st).
Proof. unfold finish. rewrite mn_sd. destruct (mn st) eqn:E; cbn; rewrite ?mn_sd, ?E; reflexivity. Qed.
Lemma shut_fin d st : shut (finish d st) = shut st.
Proof. unfold finish. rewrite mn_sd. destruct (mn st); cbn; rewrite shut_sd; reflexivity. Qed.
Lemma ar_fin d st : at_ret (finish d st) = at_ret st.
Proof. unfold finish. rewrite mn_sd. destruct (mn st); cbn; rewrite ar_sd; reflexivity. Qed.

Global Hint Rewrite gs_ss_eq gs_ss_neq gs_ss_neq' gd_ss mn_ss shut_ss ar_ss gd_sd_eq gd_sd_neq gd_sd_neq' gs_sd mn_sd shut_sd
  ar_sd gs_sm gd_sm gs_ssh gd_ssh gs_sar gd_sar gs_fin gd_fin_eq gd_fin_neq gd_fin_neq' mn_fin shut_fin ar_fin
  negb_involutive : cl.

Lemma bool_cases (a b : bool) : a = b \/ a = negb b.
Proof. destruct a, b; auto. Qed.

Definition expected_closes (s : bool) (m : cl_mstate) : nat :=
  match m with Returned => 1 | Closing2 => if s then 0 else 1 | _ => 0 end.

Definition ret_ok' (st : cl_state) : Prop :=
  at_ret st = match mn st with
              | Returned => Some (length (s_in (get_side false st)), length (s_in (get_side true st)))
              | _ => None
              end.

Record cl_inv (D : bool -> bytes) (st : cl_state) : Prop := mk_inv {
  i_relay : forall d, relay_ok d st;
  i_parked : forall d, parked_ok d st;
  i_closes : forall s, s_closes (get_side s st) = expected_closes s (mn st);
  i_cause : mn st <> Waiting -> (exists d, get_dir d st = Exited) \/ shut st = true;
  i_ret : ret_ok' st;
  i_script : forall s, script_ok (D s) (get_side s st)
}.

Lemma relay_ok_ext d st st' :
  get_dir d st' = get_dir d st -> s_out (get_side d st') = s_out (get_side d st) ->
  s_in (get_side (negb d) st') = s_in (get_side (negb d) st) -> relay_ok d st -> relay_ok d st'.
Proof. unfold relay_ok. intros -> -> ->. auto. Qed.

Lemma parked_ok_ext d st st' :
  get_dir d st' = get_dir d st -> (forall s, closed (get_side s st') = closed (get_side s st)) ->
  parked_ok d st -> parked_ok d st'.
Proof. unfold parked_ok. intros -> H. rewrite !H. auto. Qed.

Lemma woken_not_returned m : m <> Returned -> woken m <> Returned.
Proof. destruct m; cbn; congruence. Qed.
Lemma woken_not_waiting m : woken m <> Waiting.
Proof. destruct m; cbn; congruence. Qed.
Lemma expected_woken s m : expected_closes s (woken m) = expected_closes s m.
Proof. destruct m; reflexivity. Qed.

(* a copier that is parked is parked on an open conn, so once copyLoop has closed both, both copiers are gone *)
Lemma returned_exited D st : cl_inv D st -> mn st = Returned -> forall d, get_dir d st = Exited.
Proof.
  intros Hi Hm d. pose proof (i_parked D st Hi d) as Hp. unfold parked_ok, closed in Hp.
  destruct (get_dir d st); [| |reflexivity]; rewrite (i_closes D st Hi), Hm in Hp; cbn in Hp; rewrite closedb_S in Hp; discriminate.
Qed.

(* what it leaves alone: the other copier, what its source accepted and its destination handed out, every Close count and
   outside-close flag, the shutdown flag; copyLoop itself at most leaves its select, and then because d has finished *)
Record dir_frame (d : bool) (st st' : cl_state) : Prop := {
  df_dir : get_dir (negb d) st' = get_dir (negb d) st;
  df_in : s_in (get_side d st') = s_in (get_side d st);
  df_out : s_out (get_side (negb d) st') = s_out (get_side (negb d) st);
  df_reads : s_reads (get_side (negb d) st') = s_reads (get_side (negb d) st);
  df_closes : forall s, s_closes (get_side s st') = s_closes (get_side s st);
  df_ext : forall s, s_ext (get_side s st') = s_ext (get_side s st);
  df_shut : shut st' = shut st;
  df_ar : at_ret st' = at_ret st;
  df_mn : mn st' = mn st \/ (mn st' = woken (mn st) /\ get_dir d st' = Exited)
}.

(* the step first moves bytes: nothing, a Read on side d, or a Write on the other side ... *)
Definition moved (d : bool) (st X : cl_state) : Prop :=
  X = st \/ (exists r c, X = set_side d (side_read (get_side d st) r c) st) \/
  (exists a, X = set_side (negb d) (side_write (get_side (negb d) st) a) st).

(* ... and then either leaves io.Copy or parks at its next call. A Read changes [s_out] and [s_reads] of side d only, a
   Write [s_in] and [s_writes] of the other side only; [set_dir d] changes copier d only, and [finish d] is
   [set_dir d Exited] followed, when copyLoop is still in its select, by mn := Closing1 = [woken Waiting]. No field that
   [dir_frame d] speaks of is among these (checked by cases on d and on mn). *)
Lemma moved_frame d st X : moved d st X -> dir_frame d st (finish d X) /\ forall x, dir_frame d st (set_dir d x X).
Proof.
  intros H. destruct st as [s0 s1 d0 d1 m sh ar].
  destruct H as [->|[[r [c ->]]|[a ->]]]; (split; [|intros x]); destruct d, m; constructor; cbn; try (intros []); auto.
Qed.

Lemma frame_fin d st X : moved d st X -> dir_frame d st (finish d X).
Proof. intros H. apply (moved_frame d st X H). Qed.
Lemma frame_park d st X x : moved d st X -> dir_frame d st (set_dir d x X).
Proof. intros H. apply (moved_frame d st X H). Qed.

(* after the bytes have moved the copier makes its next call or gives up: it parks, or it has left io.Copy *)
Lemma next_call_shape d X Y :
  Y = to_read d X \/ (exists c er, Y = to_write d c er X) \/ Y = finish d X ->
  Y = finish d X \/ exists x, Y = set_dir d x X.
Proof.
  unfold to_read, to_write. intros [->|[[c [er ->]]| ->]]; [destruct (closed _); eauto | destruct (closed _); eauto | auto].
Qed.

Lemma rel_shape d st : exists X, moved d st X /\
  (cl_do st (Rel d) = st \/ cl_do st (Rel d) = finish d X \/ exists x, cl_do st (Rel d) = set_dir d x X).
Proof.
  assert (Hst : moved d st st) by (left; reflexivity).
  cbn [cl_do]. destruct (get_dir d st) as [|c er|]; [| |exists st; auto].
  - (* the parked Read: fails on a closed conn, stays parked on an empty script, else hands out a chunk *)
    unfold do_read. destruct (closed (get_side d st)); [exists st; auto|].
    destruct (s_reads (get_side d st)) as [|it rest]; [exists st; auto|]. cbn zeta.
    set (X := set_side d (side_read _ _ _) st). exists X. split; [right; left; unfold X; eauto|].
    right. apply next_call_shape.
    destruct (if Nat.ltb CL_BUF (length (r_data it)) then firstn CL_BUF (r_data it) else r_data it);
      [destruct (if Nat.ltb CL_BUF (length (r_data it)) then CNone else r_err it)|]; eauto.
  - (* the parked Write: fails on a closed conn, else the destination accepts (part of) the chunk *)
    unfold do_write. destruct (closed (get_side (negb d) st)); [exists st; auto|]. cbn zeta.
    set (X := set_side (negb d) (side_write _ _) st). exists X. split; [right; right; unfold X; eauto|].
    right. apply next_call_shape. destruct (_ || _); [|destruct er]; eauto.
Qed.

Lemma rel_frame d st : dir_frame d st (cl_do st (Rel d)).
Proof.
  destruct (rel_shape d st) as [X [HX [E|[E|[x E]]]]]; rewrite E.
  - constructor; auto.
  - apply (moved_frame d st X HX).
  - apply (moved_frame d st X HX).
Qed.

Lemma inv_dir_step D d st st' :
  cl_inv D st -> mn st <> Returned -> get_dir d st <> Exited -> dir_frame d st st' ->
  relay_ok d st' -> parked_ok d st' -> script_ok (D d) (get_side d st') ->
  cl_inv D st'.
Proof.
  intros Hi Hnr Hne [Hdir Hin Hout Hrd Hcl Hext Hsh Har Hmn] Hrel Hpk Hsc.
  assert (Hclosed : forall s, closed (get_side s st') = closed (get_side s st)) by (intros s; unfold closed; rewrite Hcl, Hext; reflexivity).
  constructor.
  - intros d'. destruct (bool_cases d' d) as [->| ->]; [exact Hrel|].
    apply (relay_ok_ext _ st); rewrite ?negb_involutive; auto. apply (i_relay D st Hi).
  - intros d'. destruct (bool_cases d' d) as [->| ->]; [exact Hpk|].
    apply (parked_ok_ext _ st); auto. apply (i_parked D st Hi).
  - intros s. rewrite Hcl, (i_closes D st Hi). destruct Hmn as [-> |[-> _]]; rewrite ?expected_woken; reflexivity.
  - intros Hw. destruct Hmn as [Hm|[Hm Hex]]; [|left; exists d; exact Hex].
    rewrite Hm in Hw. destruct (i_cause D st Hi Hw) as [[d' Hd']|Hs]; [|right; congruence].
    left. exists d'. destruct (bool_cases d' d) as [->| ->]; [contradiction | congruence].
  - unfold ret_ok'. rewrite Har. pose proof (i_ret D st Hi) as Hr. unfold ret_ok' in Hr.
    assert (Hn : mn st' <> Returned) by (destruct Hmn as [-> |[-> _]]; auto using woken_not_returned).
    destruct (mn st'); try congruence; destruct (mn st); congruence.
  - intros s. destruct (bool_cases s d) as [->| ->]; [exact Hsc|].
    pose proof (i_script D st Hi (negb d)) as H. unfold script_ok in *. rewrite Hout, Hrd. exact H.
Qed.

Lemma read_split it rest :
  let big := Nat.ltb CL_BUF (length (r_data it)) in
  (if big then firstn CL_BUF (r_data it) else r_data it)
    ++ script_data (if big then mk_ritem (skipn CL_BUF (r_data it)) (r_err it) :: rest else rest)
  = script_data (it :: rest).
Proof.
  cbn zeta. destruct (Nat.ltb CL_BUF (length (r_data it))); unfold script_data; cbn [map concat r_data].
  - rewrite app_assoc, firstn_skipn. reflexivity.
  - reflexivity.
Qed.

Lemma closed_side_read x rest c : closed (side_read x rest c) = closed x.
Proof. reflexivity. Qed.
Lemma closed_side_write x a : closed (side_write x a) = closed x.
Proof. reflexivity. Qed.

Lemma do_read_inv D d st : cl_inv D st -> get_dir d st = AtRead -> cl_inv D (do_read d st).
Proof.
  intros Hi Hd.
  assert (Hnr : mn st <> Returned) by (intros Hm; rewrite (returned_exited D st Hi Hm d) in Hd; discriminate).
  assert (Hne : get_dir d st <> Exited) by (rewrite Hd; discriminate).
  pose proof (i_relay D st Hi d) as Hrel. unfold relay_ok in Hrel. rewrite Hd in Hrel.
  pose proof (i_script D st Hi d) as Hsc. unfold script_ok in Hsc.
  unfold do_read. destruct (closed (get_side d st)) eqn:Ecl.
  { (* Read on a closed conn *)
    apply (inv_dir_step D d st _ Hi Hnr Hne); [apply frame_fin; left; reflexivity| | |].
    - unfold relay_ok. autorewrite with cl. exists []. rewrite app_nil_r. auto.
    - unfold parked_ok. autorewrite with cl. trivial.
    - autorewrite with cl. apply (i_script D st Hi). }
  destruct (s_reads (get_side d st)) as [|it rest] eqn:Ers; [exact Hi|].
  pose proof (read_split it rest) as Hsplit. cbn zeta in Hsplit.
  set (big := Nat.ltb CL_BUF (length (r_data it))) in *.
  set (chunk := if big then firstn CL_BUF (r_data it) else r_data it) in *.
  set (er := if big then CNone else r_err it).
  set (rest' := if big then mk_ritem (skipn CL_BUF (r_data it)) (r_err it) :: rest else rest) in *.
  assert (Hsc1 : script_ok (D d) (side_read (get_side d st) rest' chunk)).
  { unfold script_ok. cbn [side_read s_out s_reads]. rewrite <- app_assoc, Hsplit. exact Hsc. }
  assert (Hfin : (exists t, s_out (get_side d st) ++ chunk = s_in (get_side (negb d) st) ++ t) ->
                 cl_inv D (finish d (set_side d (side_read (get_side d st) rest' chunk) st))).
  { intros Ht. apply (inv_dir_step D d st _ Hi Hnr Hne); [apply frame_fin; right; left; eauto| | |].
    - unfold relay_ok. autorewrite with cl. exact Ht.
    - unfold parked_ok. autorewrite with cl. trivial.
    - autorewrite with cl. exact Hsc1. }
  destruct chunk as [|b chunk'] eqn:Ech.
  - destruct er.
    + unfold to_read. autorewrite with cl. rewrite closed_side_read, Ecl.
      apply (inv_dir_step D d st _ Hi Hnr Hne); [apply frame_park; right; left; eauto| | |].
      * unfold relay_ok. autorewrite with cl. cbn [side_read s_out]. rewrite app_nil_r. exact Hrel.
      * unfold parked_ok. autorewrite with cl. rewrite closed_side_read. exact Ecl.
      * autorewrite with cl. exact Hsc1.
    + apply Hfin. exists []. rewrite !app_nil_r. auto.
    + apply Hfin. exists []. rewrite !app_nil_r. auto.
  - unfold to_write. autorewrite with cl. destruct (closed (get_side (negb d) st)) eqn:Ecl2.
    + apply Hfin. exists (b :: chunk'). rewrite Hrel. reflexivity.
    + apply (inv_dir_step D d st _ Hi Hnr Hne); [apply frame_park; right; left; eauto| | |].
      * unfold relay_ok. autorewrite with cl. cbn [side_read s_out]. rewrite Hrel. reflexivity.
      * unfold parked_ok. autorewrite with cl. exact Ecl2.
      * autorewrite with cl. exact Hsc1.
Qed.

Lemma do_write_inv D d c er st : cl_inv D st -> get_dir d st = AtWrite c er -> cl_inv D (do_write d c er st).
Proof.
  intros Hi Hd.
  assert (Hnr : mn st <> Returned) by (intros Hm; rewrite (returned_exited D st Hi Hm d) in Hd; discriminate).
  assert (Hne : get_dir d st <> Exited) by (rewrite Hd; discriminate).
  pose proof (i_relay D st Hi d) as Hrel. unfold relay_ok in Hrel. rewrite Hd in Hrel.
  pose proof (i_script D st Hi d) as Hsc.
  unfold do_write. destruct (closed (get_side (negb d) st)) eqn:Ecl.
  { (* the destination was closed: the chunk is dropped *)
    apply (inv_dir_step D d st _ Hi Hnr Hne); [apply frame_fin; left; reflexivity| | |].
    - unfold relay_ok. autorewrite with cl. exists c. auto.
    - unfold parked_ok. autorewrite with cl. trivial.
    - autorewrite with cl. exact Hsc. }
  set (w := match s_writes (get_side (negb d) st) with [] => w_ok | w :: _ => w end).
  set (n := match w_limit w with None => length c | Some l => Nat.min l (length c) end).
  assert (Hfin : cl_inv D (finish d (set_side (negb d) (side_write (get_side (negb d) st) (firstn n c)) st))).
  { apply (inv_dir_step D d st _ Hi Hnr Hne); [apply frame_fin; right; right; eauto| | |].
    - unfold relay_ok. autorewrite with cl. cbn [side_write s_in]. exists (skipn n c).
      rewrite <- app_assoc, firstn_skipn. auto.
    - unfold parked_ok. autorewrite with cl. trivial.
    - autorewrite with cl. exact Hsc. }
  destruct (w_err w || Nat.ltb n (length c)) eqn:Ew; [exact Hfin|].
  apply orb_false_iff in Ew. destruct Ew as [_ Hn].
  destruct er; [|exact Hfin|exact Hfin].
  unfold to_read. autorewrite with cl. destruct (closed (get_side d st)) eqn:Ecl2; [exact Hfin|].
  apply (inv_dir_step D d st _ Hi Hnr Hne); [apply frame_park; right; right; eauto| | |].
  - unfold relay_ok. autorewrite with cl. cbn [side_write s_in]. rewrite firstn_all2 by (apply Nat.ltb_ge, Hn). exact Hrel.
  - unfold parked_ok. autorewrite with cl. exact Ecl2.
  - autorewrite with cl. exact Hsc.
Qed.

Definition wake_read (x : cl_dstate) : cl_dstate := match x with AtRead => Exited | _ => x end.
Definition wake_write (x : cl_dstate) : cl_dstate := match x with AtWrite _ _ => Exited | _ => x end.

Lemma wake_facts s st :
  (forall t, get_side t (wake s st) = get_side t st) /\ shut (wake s st) = shut st /\ at_ret (wake s st) = at_ret st /\
  get_dir s (wake s st) = wake_read (get_dir s st) /\
  get_dir (negb s) (wake s st) = wake_write (get_dir (negb s) st) /\
  (mn (wake s st) = mn st \/ mn (wake s st) = woken (mn st) /\ exists d, get_dir d (wake s st) = Exited).
Proof.
  unfold wake.
  set (st1 := match get_dir s st with AtRead => finish s st | _ => st end).
  assert (H1 : (forall t, get_side t st1 = get_side t st) /\ shut st1 = shut st /\ at_ret st1 = at_ret st /\
               get_dir s st1 = wake_read (get_dir s st) /\ get_dir (negb s) st1 = get_dir (negb s) st /\
               (mn st1 = mn st \/ mn st1 = woken (mn st) /\ get_dir s st1 = Exited)).
  { unfold st1. destruct (get_dir s st) eqn:E; cbn [wake_read]; autorewrite with cl; repeat split; auto; intros; autorewrite with cl; auto. }
  destruct H1 as (Hs & Hsh & Har & Hds & Hdn & Hm).
  destruct (get_dir (negb s) st1) eqn:E.
  - repeat split; auto. + rewrite E, <- Hdn. reflexivity. + destruct Hm as [Hm|[Hm He]]; [auto | right; split; eauto].
  - repeat split; intros; autorewrite with cl; auto.
    + rewrite <- Hdn. reflexivity.
    + destruct Hm as [Hm|[Hm He]].
      * right. split; [congruence|]. exists (negb s). autorewrite with cl. reflexivity.
      * right. split; [rewrite Hm; destruct (mn st); reflexivity|]. exists (negb s). autorewrite with cl. reflexivity.
  - repeat split; auto. + rewrite E, <- Hdn. reflexivity. + destruct Hm as [Hm|[Hm He]]; [auto | right; split; eauto].
Qed.

Lemma relay_ok_exit d st st' :
  relay_ok d st -> s_out (get_side d st') = s_out (get_side d st) ->
  s_in (get_side (negb d) st') = s_in (get_side (negb d) st) ->
  get_dir d st' = get_dir d st \/ get_dir d st' = Exited -> relay_ok d st'.
Proof.
  unfold relay_ok. intros H -> -> [-> | ->]; [exact H|].
  destruct (get_dir d st).
  - exists []. rewrite app_nil_r. auto.
  - exists chunk. auto.
  - exact H.
Qed.

Lemma wake_dir_cases s st d :
  get_dir d (wake s st) = get_dir d st \/ get_dir d (wake s st) = Exited.
Proof.
  destruct (wake_facts s st) as (_ & _ & _ & Hs & Hn & _).
  destruct (bool_cases d s) as [->| ->].
  - rewrite Hs. destruct (get_dir s st); cbn; auto.
  - rewrite Hn. destruct (get_dir (negb s) st); cbn; auto.
Qed.

(* st0 satisfies the invariant; st1 is st0 with side s closed (and copyLoop possibly moved on); then the parked
   operations are woken *)
Lemma inv_wake D s st0 st1 :
  cl_inv D st0 ->
  (forall d, get_dir d st1 = get_dir d st0) ->
  (forall t, s_in (get_side t st1) = s_in (get_side t st0)) ->
  (forall t, s_out (get_side t st1) = s_out (get_side t st0)) ->
  (forall t, s_reads (get_side t st1) = s_reads (get_side t st0)) ->
  closed (get_side (negb s) st1) = closed (get_side (negb s) st0) ->
  shut st1 = shut st0 ->
  (forall t, s_closes (get_side t st1) = expected_closes t (mn st1)) ->
  (mn st1 <> Waiting -> mn st0 <> Waiting) ->
  ret_ok' st1 ->
  cl_inv D (wake s st1).
Proof.
  intros Hi Hdir Hin Hout Hrd Hcn Hsh Hcl Hmn Hret.
  destruct (wake_facts s st1) as (Ws & Wsh & War & Wds & Wdn & Wm).
  constructor.
  - intros d. apply (relay_ok_exit d st0); rewrite ?Ws; auto. + apply (i_relay D st0 Hi).
    + rewrite <- Hdir. apply wake_dir_cases.
  - intros d. pose proof (i_parked D st0 Hi d) as Hp. unfold parked_ok in *. rewrite !Ws.
    destruct (bool_cases d s) as [->| ->].
    + rewrite Wds, Hdir. destruct (get_dir s st0); cbn; auto. congruence.
    + rewrite Wdn, Hdir, negb_involutive in *. destruct (get_dir (negb s) st0); cbn; auto. congruence.
  - intros t. rewrite Ws, Hcl. destruct Wm as [->|[-> _]]; rewrite ?expected_woken; reflexivity.
  - intros Hw. destruct Wm as [Wm|[_ He]]; [|left; exact He].
    rewrite Wm in Hw. destruct (i_cause D st0 Hi (Hmn Hw)) as [[d Hd]|Hs].
    + left. exists d. destruct (wake_dir_cases s st1 d) as [H|H]; [rewrite H, Hdir; exact Hd | exact H].
    + right. congruence.
  - unfold ret_ok' in *. rewrite War, !Ws, Hret.
    destruct Wm as [->|[-> _]]; [reflexivity|]. destruct (mn st1); reflexivity.
  - intros t. pose proof (i_script D st0 Hi t) as H. unfold script_ok in *. rewrite Ws, Hout, Hrd. exact H.
Qed.

Lemma do_ext_inv D s st : cl_inv D st -> cl_inv D (do_ext s st).
Proof.
  intros Hi. unfold do_ext. apply (inv_wake D s st _ Hi).
  - intros d. autorewrite with cl. reflexivity.
  - intros t. destruct (bool_cases t s) as [->| ->]; autorewrite with cl; reflexivity.
  - intros t. destruct (bool_cases t s) as [->| ->]; autorewrite with cl; reflexivity.
  - intros t. destruct (bool_cases t s) as [->| ->]; autorewrite with cl; reflexivity.
  - autorewrite with cl. reflexivity.
  - autorewrite with cl. reflexivity.
  - intros t. rewrite mn_ss, <- (i_closes D st Hi). destruct (bool_cases t s) as [->| ->]; autorewrite with cl; reflexivity.
  - rewrite mn_ss. auto.
  - pose proof (i_ret D st Hi) as H. unfold ret_ok' in *. rewrite mn_ss, ar_ss, H.
    replace (s_in (get_side false (set_side s (side_ext (get_side s st)) st))) with (s_in (get_side false st))
      by (destruct s; reflexivity).
    replace (s_in (get_side true (set_side s (side_ext (get_side s st)) st))) with (s_in (get_side true st))
      by (destruct s; reflexivity).
    reflexivity.
Qed.

(* copyLoop's deferred Close of side s: that side is closed once more, copyLoop moves on to [m] (recording the counters
   [r] at its return), and the operations parked on the side are woken *)
Lemma inv_close D s m r st : cl_inv D st -> mn st <> Waiting ->
  let st1 := set_at_ret r (set_side s (side_close (get_side s st)) (set_mn m st)) in
  (forall t, s_closes (get_side t st1) = expected_closes t m) -> ret_ok' st1 -> cl_inv D (wake s st1).
Proof.
  intros Hi Hnw st1 Hc Hr. apply (inv_wake D s st st1 Hi).
  - intros d. destruct s, d; reflexivity.
  - intros t. destruct s, t; reflexivity.
  - intros t. destruct s, t; reflexivity.
  - intros t. destruct s, t; reflexivity.
  - destruct s; reflexivity.
  - destruct s; reflexivity.
  - destruct s; exact Hc.
  - intros _. exact Hnw.
  - exact Hr.
Qed.

Lemma do_main_inv D st : cl_inv D st -> cl_inv D (do_main st).
Proof.
  intros Hi. unfold do_main. destruct (mn st) eqn:Em; [exact Hi| | |exact Hi].
  - (* the deferred c1.Close() *)
    pose proof (i_closes D st Hi) as Hc. rewrite Em in Hc.
    pose proof (i_ret D st Hi) as Hr. unfold ret_ok' in Hr. rewrite Em in Hr.
    apply (inv_close D false Closing2 (at_ret st) st Hi); [congruence| |unfold ret_ok'; cbn; exact Hr].
    pose proof (Hc false) as Hc0. pose proof (Hc true) as Hc1. cbn in Hc0, Hc1.
    intros []; cbn; [exact Hc1 | rewrite Hc0; reflexivity].
  - (* the deferred c2.Close() *)
    pose proof (i_closes D st Hi) as Hc. rewrite Em in Hc.
    apply (inv_close D true Returned _ st Hi); [congruence| |reflexivity].
    pose proof (Hc false) as Hc0. pose proof (Hc true) as Hc1. cbn in Hc0, Hc1.
    intros []; cbn; [rewrite Hc1; reflexivity | exact Hc0].
Qed.

Lemma do_shutdown_eq st : do_shutdown st = set_mn (woken (mn st)) (set_shut true st).
Proof. unfold do_shutdown. destruct st as [? ? ? ? m ? ?]. destruct m; reflexivity. Qed.

Lemma do_shutdown_inv D st : cl_inv D st -> cl_inv D (do_shutdown st).
Proof.
  intros Hi. rewrite do_shutdown_eq. constructor.
  - intros d. apply (relay_ok_ext d st); [destruct d; reflexivity ..|]. apply (i_relay D st Hi).
  - intros d. apply (parked_ok_ext d st); [destruct d; reflexivity | intros []; reflexivity |]. apply (i_parked D st Hi).
  - intros t. replace (get_side t (set_mn (woken (mn st)) (set_shut true st))) with (get_side t st) by (destruct t; reflexivity).
    cbn [mn set_mn]. rewrite expected_woken. apply (i_closes D st Hi).
  - intros _. right. reflexivity.
  - pose proof (i_ret D st Hi) as H. unfold ret_ok' in *. cbn. rewrite H. destruct (mn st); reflexivity.
  - intros []; apply (i_script D st Hi).
Qed.

Theorem cl_step_inv D st x : cl_inv D st -> cl_inv D (cl_do st x).
Proof.
  intros Hi. destruct x as [d| | |s]; cbn [cl_do].
  - destruct (get_dir d st) eqn:Ed.
    + apply do_read_inv; assumption.
    + apply do_write_inv; assumption.
    + exact Hi.
  - apply do_main_inv; assumption.
  - apply do_shutdown_inv; assumption.
  - apply do_ext_inv; assumption.
Qed.

Lemma cl_run_inv D sched : forall st, cl_inv D st -> cl_inv D (cl_run sched st).
Proof. induction sched as [|x l IH]; intros st Hi; [exact Hi|]. apply IH, cl_step_inv, Hi. Qed.

Definition script_of (r0 r1 : list cl_ritem) (s : bool) : bytes := script_data (if s then r1 else r0).

Lemma init_inv r0 w0 r1 w1 : cl_inv (script_of r0 r1) (cl_init r0 w0 r1 w1).
Proof.
  constructor.
  - intros []; reflexivity.
  - intros []; reflexivity.
  - intros []; reflexivity.
  - intros H. exfalso. apply H. reflexivity.
  - reflexivity.
  - intros []; reflexivity.
Qed.

Lemma reach_inv r0 w0 r1 w1 sched : cl_inv (script_of r0 r1) (cl_run sched (cl_init r0 w0 r1 w1)).
Proof. apply cl_run_inv, init_inv. Qed.

Lemma prefix_firstn {A} (a t : list A) : a = firstn (length a) (a ++ t).
Proof. rewrite firstn_app, Nat.sub_diag, firstn_all. cbn. rewrite app_nil_r. reflexivity. Qed.

Section Reach.
  Variables (r0 r1 : list cl_ritem) (w0 w1 : list cl_witem) (sched : list cl_step).
  Let st := cl_run sched (cl_init r0 w0 r1 w1).

  (* what side (1-d) accepted is a prefix of what side d handed out: nothing inserted, nothing reordered, nothing
     skipped in the middle *)
  Theorem relay_prefix : forall d, exists n, s_in (get_side (negb d) st) = firstn n (s_out (get_side d st)).
  Proof.
    intros d. pose proof (i_relay _ _ (reach_inv r0 w0 r1 w1 sched) d) as H. fold st in H. unfold relay_ok in H.
    destruct (get_dir d st).
    - exists (length (s_out (get_side d st))). rewrite firstn_all. exact H.
    - exists (length (s_in (get_side (negb d) st))). rewrite <- H. apply prefix_firstn.
    - destruct H as [t H]. exists (length (s_in (get_side (negb d) st))). rewrite H. apply prefix_firstn.
  Qed.

  (* a copier parked at a Read has delivered everything it read; parked at a Write, everything but the chunk it holds *)
  Theorem relay_exact_at_read : forall d, get_dir d st = AtRead -> s_in (get_side (negb d) st) = s_out (get_side d st).
  Proof.
    intros d Hd. pose proof (i_relay _ _ (reach_inv r0 w0 r1 w1 sched) d) as H. fold st in H. unfold relay_ok in H.
    rewrite Hd in H. exact H.
  Qed.

  Theorem relay_at_write : forall d c er, get_dir d st = AtWrite c er ->
    s_in (get_side (negb d) st) ++ c = s_out (get_side d st).
  Proof.
    intros d c er Hd. pose proof (i_relay _ _ (reach_inv r0 w0 r1 w1 sched) d) as H. fold st in H. unfold relay_ok in H.
    rewrite Hd in H. exact H.
  Qed.

  (* what a side has handed out, followed by what its script still holds, is the script's data *)
  Theorem consumed_prefix : forall s,
    s_out (get_side s st) ++ script_data (s_reads (get_side s st)) = script_data (if s then r1 else r0).
  Proof. intros s. exact (i_script _ _ (reach_inv r0 w0 r1 w1 sched) s). Qed.

  (* if all a side will ever hand out is a prefix of str, what the other side accepts is a prefix of str *)
  Theorem relay_prefix_of : forall (d : bool) (str : bytes), (exists t, str = script_data (if d then r1 else r0) ++ t) ->
    exists k, s_in (get_side (negb d) st) = firstn k str.
  Proof.
    intros d str [t HS]. destruct (relay_prefix d) as [n Hn]. pose proof (consumed_prefix d) as Hc.
    exists (Nat.min n (length (s_out (get_side d st)))).
    rewrite Hn, HS, <- Hc, <- app_assoc, <- firstn_firstn.
    rewrite (firstn_app (length (s_out (get_side d st)))), Nat.sub_diag, firstn_all. cbn [firstn]. rewrite app_nil_r.
    reflexivity.
  Qed.

  Theorem closes_exact : forall s, s_closes (get_side s st) = expected_closes s (mn st).
  Proof. exact (i_closes _ _ (reach_inv r0 w0 r1 w1 sched)). Qed.

  Theorem closes_at_most_once : forall s, s_closes (get_side s st) <= 1.
  Proof. intros s. rewrite closes_exact. destruct s, (mn st); cbn; lia. Qed.

  Theorem closes_once_when_returned : mn st = Returned -> forall s, s_closes (get_side s st) = 1.
  Proof. intros H s. rewrite closes_exact, H. reflexivity. Qed.

  (* c1 is closed before c2 (the defers run last-in first-out) *)
  Theorem closes_in_order : s_closes (side1 st) <= s_closes (side0 st).
  Proof.
    pose proof (closes_exact false) as H0. pose proof (closes_exact true) as H1. cbn [get_side] in H0, H1.
    rewrite H0, H1. destruct (mn st); cbn; lia.
  Qed.
End Reach.

Definition is_shutdown (x : cl_step) : bool := match x with Shutdown => true | _ => false end.

Lemma shut_wake s st : shut (wake s st) = shut st.
Proof. apply wake_facts. Qed.

Lemma shut_step st x : shut (cl_do st x) = shut st || is_shutdown x.
Proof.
  destruct x as [d| | |s]; cbn [is_shutdown]; rewrite ?orb_false_r, ?orb_true_r.
  - apply (df_shut d st _ (rel_frame d st)).
  - cbn [cl_do]. unfold do_main. destruct (mn st); rewrite ?shut_wake; reflexivity.
  - cbn [cl_do]. rewrite do_shutdown_eq. reflexivity.
  - cbn [cl_do]. unfold do_ext. rewrite shut_wake, shut_ss. reflexivity.
Qed.

Lemma shut_run sched : forall st, shut (cl_run sched st) = shut st || existsb is_shutdown sched.
Proof.
  induction sched as [|x l IH]; intros st; cbn [cl_run fold_left existsb]; [rewrite orb_false_r; reflexivity|].
  change (fold_left cl_do l (cl_do st x)) with (cl_run l (cl_do st x)). rewrite IH, shut_step, orb_assoc. reflexivity.
Qed.

Lemma wake_id s st : (forall d, get_dir d st = Exited) -> wake s st = st.
Proof. intros H. unfold wake. rewrite (H s), (H (negb s)). reflexivity. Qed.

Lemma returned_step_view D st x : cl_inv D st -> mn st = Returned -> view (cl_do st x) = view st.
Proof.
  intros Hi Hm. pose proof (returned_exited D st Hi Hm) as He.
  destruct x as [d| | |s]; cbn [cl_do].
  - rewrite (He d). reflexivity.
  - unfold do_main. rewrite Hm. reflexivity.
  - rewrite do_shutdown_eq. unfold view. cbn. rewrite Hm. reflexivity.
  - unfold do_ext. rewrite wake_id by (intros d; rewrite gd_ss; apply He). destruct s; reflexivity.
Qed.

Lemma view_mn st st' : view st' = view st -> mn st' = mn st.
Proof. unfold view. intros H. injection H. auto. Qed.

Lemma returned_run_view D more : forall st, cl_inv D st -> mn st = Returned -> view (cl_run more st) = view st.
Proof.
  induction more as [|x l IH]; intros st Hi Hm; [reflexivity|].
  cbn [cl_run fold_left]. change (fold_left cl_do l (cl_do st x)) with (cl_run l (cl_do st x)).
  pose proof (returned_step_view D st x Hi Hm) as Hv.
  rewrite IH; [exact Hv | apply cl_step_inv; exact Hi | rewrite (view_mn _ _ Hv); exact Hm].
Qed.

Lemma cl_run_app a b st : cl_run (a ++ b) st = cl_run b (cl_run a st).
Proof. apply fold_left_app. Qed.
