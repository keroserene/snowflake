(* Base64Proofs.v — round trip of the std base64 model; [enc_full], the encoder on whole quanta with the
   bytes left over, over a concatenation. *)
From Coq Require Import List NArith Lia Bool ZifyN ZifyBool.
From Snow Require Import Lib.ListFacts Model.Base64.
Import ListNotations.
Open Scope N_scope.

Lemma dec6_enc6 : forall n, n < 64 -> dec6 (enc6 n) = Some n.
Proof.
  intros n H. unfold enc6, dec6.
  destruct (n <? 26) eqn:E1.
  { destruct ((65 <=? 65 + n) && (65 + n <=? 90)) eqn:E2; [f_equal; lia | lia]. }
  destruct (n <? 52) eqn:E3.
  { destruct ((65 <=? 97 + (n - 26)) && (97 + (n - 26) <=? 90)) eqn:E4; [lia|].
    destruct ((97 <=? 97 + (n - 26)) && (97 + (n - 26) <=? 122)) eqn:E5; [f_equal; lia | lia]. }
  destruct (n <? 62) eqn:E6.
  { destruct ((65 <=? 48 + (n - 52)) && (48 + (n - 52) <=? 90)) eqn:E4; [lia|].
    destruct ((97 <=? 48 + (n - 52)) && (48 + (n - 52) <=? 122)) eqn:E5; [lia|].
    destruct ((48 <=? 48 + (n - 52)) && (48 + (n - 52) <=? 57)) eqn:E7; [f_equal; lia | lia]. }
  destruct (n =? 62) eqn:E8.
  { cbn. f_equal. lia. }
  cbn. f_equal. lia.
Qed.

(* every output character of the encoder, for ANY input value, is an alphabet character:
   not '=' , not ASCII whitespace, not '<' *)
Lemma enc6_range : forall n, let c := enc6 n in
  (65 <= c <= 90) \/ (97 <= c <= 122) \/ (48 <= c <= 57) \/ c = 43 \/ c = 47.
Proof.
  intros n. unfold enc6. cbv zeta.
  destruct (n <? 26) eqn:E1; [lia|].
  destruct (n <? 52) eqn:E2; [lia|].
  destruct (n <? 62) eqn:E3; [lia|].
  destruct (n =? 62) eqn:E4; lia.
Qed.

Lemma dec6_pad : dec6 PAD = None.
Proof. reflexivity. Qed.

Lemma quantum3 : forall a b c, a < 256 -> b < 256 -> c < 256 ->
  a / 4 < 64 /\ (a mod 4) * 16 + b / 16 < 64 /\ (b mod 16) * 4 + c / 64 < 64 /\ c mod 64 < 64 /\
  dec4 (a / 4) ((a mod 4) * 16 + b / 16) ((b mod 16) * 4 + c / 64) (c mod 64) = [a; b; c].
Proof.
  intros a b c Ha Hb Hc. unfold dec4. repeat split; try lia.
  f_equal; [lia|]. f_equal; [lia|]. f_equal. lia.
Qed.

Lemma bytes_ok_cons a l : bytes_ok (a :: l) = true <-> a < 256 /\ bytes_ok l = true.
Proof. unfold bytes_ok, byte_ok. cbn [forallb]. rewrite andb_true_iff, N.ltb_lt. reflexivity. Qed.

Lemma b64_roundtrip_seq : forall p, bytes_ok p = true -> b64_decode_seq (b64_encode p) = (p, B64Clean).
Proof.
  intros p. induction p as [ | a | a b | a b c p IHp] using list_ind3; intros Hok.
  - reflexivity.
  - apply bytes_ok_cons in Hok as [Ha _].
    cbn [b64_encode enc_tail b64_decode_seq].
    rewrite !dec6_enc6 by lia. rewrite dec6_pad. rewrite !N.eqb_refl. cbn [andb].
    f_equal. f_equal. lia.
  - apply bytes_ok_cons in Hok as [Ha Hok]. apply bytes_ok_cons in Hok as [Hb _].
    cbn [b64_encode enc_tail b64_decode_seq].
    rewrite !dec6_enc6 by lia. rewrite dec6_pad. rewrite !N.eqb_refl. cbn [andb].
    f_equal. f_equal; [lia|]. f_equal. lia.
  - apply bytes_ok_cons in Hok as [Ha Hok]. apply bytes_ok_cons in Hok as [Hb Hok].
    apply bytes_ok_cons in Hok as [Hc Hr].
    destruct (quantum3 a b c Ha Hb Hc) as (Q0 & Q1 & Q2 & Q3 & Q4).
    cbn [b64_encode enc3 app b64_decode_seq].
    rewrite !dec6_enc6 by assumption.
    rewrite (IHp Hr). rewrite Q4. reflexivity.
Qed.

Lemma enc_full_encode : forall l, b64_encode l = fst (enc_full l) ++ enc_tail (snd (enc_full l)).
Proof.
  intros l. induction l as [ | a | a b | a b c l IHl] using list_ind3; try reflexivity.
  cbn [b64_encode enc_full]. destruct (enc_full l) as [o r] eqn:E. cbn [fst snd] in *.
  rewrite IHl. rewrite app_assoc. reflexivity.
Qed.

Lemma enc_full_rem_short : forall l, (List.length (snd (enc_full l)) < 3)%nat.
Proof.
  intros l. induction l as [ | a | a b | a b c l IHl] using list_ind3; cbn; try lia.
  destruct (enc_full l) as [o r]. cbn in *. lia.
Qed.

Lemma enc_full_app : forall x y,
  enc_full (x ++ y) = (fst (enc_full x) ++ fst (enc_full (snd (enc_full x) ++ y)),
                       snd (enc_full (snd (enc_full x) ++ y))).
Proof.
  intros x. induction x as [ | a | a b | a b c x IHx] using list_ind3; intros y.
  - cbn. destruct (enc_full y); reflexivity.
  - change (enc_full [a]) with (@nil N, [a]). cbn [fst snd app].
    destruct (enc_full (a :: y)); reflexivity.
  - change (enc_full [a; b]) with (@nil N, [a; b]). cbn [fst snd app].
    destruct (enc_full (a :: b :: y)); reflexivity.
  - cbn [app enc_full]. rewrite IHx.
    destruct (enc_full x) as [o r]. cbn [fst snd].
    destruct (enc_full (r ++ y)) as [o2 r2]. cbn [fst snd].
    rewrite app_assoc. reflexivity.
Qed.
