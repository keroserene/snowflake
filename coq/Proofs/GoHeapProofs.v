(* GoHeapProofs.v — Go's container/heap (Model/GoHeap.v) on a list: Push, Pop, Remove, Fix and Init keep
   the heap order and permute the elements; a client state related to the list by a relation that its
   Less and Swap respect stays related under up, down and Fix. *)
From Coq Require Import List Arith Bool Lia Permutation.
From Snow Require Import Lib.ListFacts Model.GoHeap.
Import ListNotations.

Definition child (p c : nat) : Prop := c = 2*p+1 \/ c = 2*p+2.

Lemma parent_child : forall j, 0 < j -> child ((j-1)/2) j.
Proof.
  intros j H. unfold child.
  pose proof (Nat.div_mod (j-1) 2).
  pose proof (Nat.mod_upper_bound (j-1) 2). lia.
Qed.

Lemma parent_zero : (0-1)/2 = 0.
Proof. reflexivity. Qed.

Lemma parent_lt : forall j, 0 < j -> (j-1)/2 < j.
Proof. intros j H. pose proof (parent_child j H). unfold child in *. lia. Qed.

Lemma parent_fix : forall j, (j-1)/2 = j -> j = 0.
Proof.
  intros j H. destruct (Nat.eq_dec j 0); auto.
  pose proof (parent_lt j). lia.
Qed.

Lemma parent_le : forall j, (j-1)/2 <= j.
Proof.
  intros j. destruct (Nat.eq_dec j 0) as [->|N]; [rewrite parent_zero; lia|].
  pose proof (parent_lt j). lia.
Qed.

Lemma half_bound : forall n, n <= 2*(n/2)+1.
Proof.
  intros n. pose proof (Nat.div_mod n 2).
  pose proof (Nat.mod_upper_bound n 2). lia.
Qed.

Section GenericLoops.
  Variable St : Type.
  Variable less : St -> nat -> nat -> bool.
  Variable swap : St -> nat -> nat -> St.

  Lemma up_aux_S : forall f s j,
    up_aux St less swap (S f) s j =
    if ((j-1)/2 =? j) || negb (less s j ((j-1)/2)) then s
    else up_aux St less swap f (swap s ((j-1)/2) j) ((j-1)/2).
  Proof. reflexivity. Qed.

  Definition pick (s : St) (i n : nat) : nat :=
    if (2*i+1+1 <? n) && less s (2*i+1+1) (2*i+1) then 2*i+1+1 else 2*i+1.

  Lemma down_aux_S : forall f s i n,
    down_aux St less swap (S f) s i n =
    if n <=? 2*i+1 then (s, i)
    else if negb (less s (pick s i n) i) then (s, i)
         else down_aux St less swap f (swap s i (pick s i n)) (pick s i n) n.
  Proof. reflexivity. Qed.

  Lemma pick_cases : forall s i n, pick s i n = 2*i+1 \/ pick s i n = 2*i+2.
  Proof. intros. unfold pick. destruct (_ && _); lia. Qed.

  Lemma pick_lt : forall s i n, 2*i+1 < n -> pick s i n < n.
  Proof.
    intros s i n H. unfold pick.
    destruct (2*i+1+1 <? n) eqn:E; cbn [andb]; [|lia].
    apply Nat.ltb_lt in E. destruct (less s (2*i+1+1) (2*i+1)); lia.
  Qed.

  (* what every swap the loop can make preserves, the loop preserves: up from j swaps positions
     i <= j' <= j, down from i inside n swaps positions i <= i' < j' < n *)
  Lemma up_aux_inv : forall (P : St -> Prop) j0,
    (forall s i j, i <= j -> j <= j0 -> P s -> P (swap s i j)) ->
    forall f s j, j <= j0 -> P s -> P (up_aux St less swap f s j).
  Proof.
    intros P j0 H. induction f; intros s j Hj HP; [exact HP|].
    rewrite up_aux_S. destruct (_ || _); [exact HP|].
    pose proof (parent_le j). apply IHf; [lia | apply H; auto].
  Qed.

  Lemma down_aux_inv : forall (P : St -> Prop) i0 n,
    (forall s i j, i0 <= i -> i < j -> j < n -> P s -> P (swap s i j)) ->
    forall f s i, i0 <= i -> P s -> P (fst (down_aux St less swap f s i n)).
  Proof.
    intros P i0 n H. induction f; intros s i Hi HP; [exact HP|].
    rewrite down_aux_S. destruct (n <=? 2*i+1) eqn:E; [exact HP|].
    destruct (negb _); [exact HP|]. apply Nat.leb_gt in E.
    pose proof (pick_cases s i n). pose proof (pick_lt s i n E).
    apply IHf; [lia | apply H; auto; lia].
  Qed.

  Lemma up_aux_fuel : forall f1 f2 s j, j < f1 -> j < f2 ->
    up_aux St less swap f1 s j = up_aux St less swap f2 s j.
  Proof.
    induction f1; intros f2 s j H1 H2; [lia|].
    destruct f2; [lia|].
    rewrite !up_aux_S.
    destruct ((j-1)/2 =? j) eqn:E; cbn [orb negb]; auto.
    destruct (less s j ((j-1)/2)); cbn [orb negb]; auto.
    apply Nat.eqb_neq in E.
    assert (0 < j) by (destruct j; [rewrite parent_zero in E; lia | lia]).
    pose proof (parent_lt j H).
    apply IHf1; lia.
  Qed.

  Lemma down_aux_fuel : forall f1 f2 s i n, n - i <= f1 -> n - i <= f2 ->
    down_aux St less swap f1 s i n = down_aux St less swap f2 s i n.
  Proof.
    induction f1; intros f2 s i n H1 H2.
    - destruct f2; auto. rewrite down_aux_S.
      destruct (n <=? 2*i+1) eqn:E; auto. apply Nat.leb_gt in E. lia.
    - destruct f2.
      + rewrite down_aux_S.
        destruct (n <=? 2*i+1) eqn:E; auto. apply Nat.leb_gt in E. lia.
      + rewrite !down_aux_S.
        destruct (n <=? 2*i+1) eqn:E; auto. apply Nat.leb_gt in E.
        destruct (negb _); auto.
        pose proof (pick_cases s i n).
        apply IHf1; lia.
  Qed.
End GenericLoops.

Section ListLemmas.
  Variable A : Type.

  Lemma set_nth_length : forall i (x : A) l, length (set_nth i x l) = length l.
  Proof.
    intros i x l. revert i. induction l; intros [|i]; simpl; auto.
  Qed.

  Lemma nth_error_set_nth_eq : forall l i (x : A), i < length l ->
    nth_error (set_nth i x l) i = Some x.
  Proof.
    induction l; intros [|i] x H; simpl in *; try lia; auto.
    apply IHl. lia.
  Qed.

  Lemma nth_error_set_nth_neq : forall l i k (x : A), k <> i ->
    nth_error (set_nth i x l) k = nth_error l k.
  Proof.
    induction l; intros [|i] [|k] x H; simpl; auto; try lia.
  Qed.

  Lemma lswap_length : forall (l : list A) i j, length (lswap l i j) = length l.
  Proof.
    intros. unfold lswap.
    destruct (nth_error l i); auto. destruct (nth_error l j); auto.
    rewrite !set_nth_length. auto.
  Qed.

  Lemma nth_error_lswap_l : forall (l : list A) i j, i < length l -> j < length l ->
    nth_error (lswap l i j) i = nth_error l j.
  Proof.
    intros l i j Hi Hj. unfold lswap.
    destruct (nth_error l i) as [a|] eqn:Ea; [|apply nth_error_None in Ea; lia].
    destruct (nth_error l j) as [b|] eqn:Eb; [|apply nth_error_None in Eb; lia].
    destruct (Nat.eq_dec i j) as [->|N].
    - rewrite nth_error_set_nth_eq by (rewrite set_nth_length; auto). congruence.
    - rewrite nth_error_set_nth_neq by auto.
      rewrite nth_error_set_nth_eq by auto. auto.
  Qed.

  Lemma nth_error_lswap_r : forall (l : list A) i j, i < length l -> j < length l ->
    nth_error (lswap l i j) j = nth_error l i.
  Proof.
    intros l i j Hi Hj. unfold lswap.
    destruct (nth_error l i) as [a|] eqn:Ea; [|apply nth_error_None in Ea; lia].
    destruct (nth_error l j) as [b|] eqn:Eb; [|apply nth_error_None in Eb; lia].
    rewrite nth_error_set_nth_eq by (rewrite set_nth_length; auto). auto.
  Qed.

  Lemma nth_error_lswap_other : forall (l : list A) i j k, k <> i -> k <> j ->
    nth_error (lswap l i j) k = nth_error l k.
  Proof.
    intros l i j k Hi Hj. unfold lswap.
    destruct (nth_error l i) as [a|]; auto.
    destruct (nth_error l j) as [b|]; auto.
    rewrite !nth_error_set_nth_neq by auto. auto.
  Qed.

  Lemma lswap_perm : forall (l : list A) i j, Permutation (lswap l i j) l.
  Proof.
    intros l i j.
    destruct (lt_dec i (length l)) as [Hi|Hi].
    2:{ unfold lswap. assert (E : nth_error l i = None) by (apply nth_error_None; lia).
        rewrite E. apply Permutation_refl. }
    destruct (lt_dec j (length l)) as [Hj|Hj].
    2:{ unfold lswap. assert (E : nth_error l j = None) by (apply nth_error_None; lia).
        rewrite E. destruct (nth_error l i); apply Permutation_refl. }
    apply Permutation_sym. apply Permutation_nth_error. split.
    - rewrite lswap_length. auto.
    - exists (fun k => if k =? i then j else if k =? j then i else k). split.
      + intros x y.
        destruct (Nat.eqb_spec x i), (Nat.eqb_spec x j), (Nat.eqb_spec y i), (Nat.eqb_spec y j); lia.
      + intros k. destruct (Nat.eqb_spec k i) as [->|Hki]; [apply nth_error_lswap_l; auto|].
        destruct (Nat.eqb_spec k j) as [->|Hkj]; [apply nth_error_lswap_r; auto|].
        apply nth_error_lswap_other; auto.
  Qed.

  (* removelast through the view of a non-empty list as l' ++ [x] *)
  Lemma nth_error_removelast : forall (l : list A) k a,
    nth_error (removelast l) k = Some a -> nth_error l k = Some a /\ S k < length l.
  Proof.
    intros l k a. destruct l as [|x l' _] using rev_ind; [destruct k; discriminate|].
    rewrite removelast_last, app_length. intros H. pose proof (nth_error_lt _ _ _ H).
    rewrite nth_error_app1 by assumption. simpl. split; [exact H | lia].
  Qed.

  Lemma removelast_length : forall (l : list A), length (removelast l) = length l - 1.
  Proof.
    intros l. destruct l as [|x l' _] using rev_ind; [reflexivity|].
    rewrite removelast_last, app_length. simpl. lia.
  Qed.

  Lemma removelast_snoc : forall (l : list A) x,
    nth_error l (length l - 1) = Some x -> l = removelast l ++ [x].
  Proof.
    intros l x. destruct l as [|y l' _] using rev_ind; [discriminate|].
    rewrite removelast_last, app_length, nth_error_app2 by (simpl; lia).
    replace (length l' + length [y] - 1 - length l') with 0 by (simpl; lia).
    intros [= ->]. reflexivity.
  Qed.
End ListLemmas.

Section ListHeapProofs.
  Variable A : Type.
  Variable lessA : A -> A -> bool.
  Hypothesis less_irrefl : forall a, lessA a a = false.
  Hypothesis less_trans : forall a b c, lessA a b = true -> lessA b c = true -> lessA a c = true.
  Hypothesis less_negtrans : forall a b c, lessA a b = false -> lessA b c = false -> lessA a c = false.

  Definition heap_ok (l : list A) : Prop :=
    forall p c a b, (c = 2*p+1 \/ c = 2*p+2) ->
      nth_error l p = Some a -> nth_error l c = Some b -> lessA b a = false.

  Notation upa := (up_aux (list A) (lless lessA) lswap).
  Notation dna := (down_aux (list A) (lless lessA) lswap).
  Notation lpick := (pick (list A) (lless lessA)).

  Lemma less_asym : forall a b, lessA a b = true -> lessA b a = false.
  Proof.
    intros a b H. destruct (lessA b a) eqn:E; auto.
    pose proof (less_trans _ _ _ H E) as T.
    pose proof (less_irrefl a). congruence.
  Qed.

  Lemma lless_some : forall (l : list A) i j a b,
    nth_error l i = Some a -> nth_error l j = Some b -> lless lessA l i j = lessA a b.
  Proof. intros l i j a b Hi Hj. unfold lless. rewrite Hi, Hj. auto. Qed.

  Lemma nth_error_some_lt : forall (l : list A) k, k < length l -> exists a, nth_error l k = Some a.
  Proof.
    intros l k H. destruct (nth_error l k) eqn:E; eauto.
    apply nth_error_None in E. lia.
  Qed.

  Lemma up_aux_length : forall f l j, length (upa f l j) = length l.
  Proof.
    intros f l j. apply (up_aux_inv _ _ _ (fun s => length s = length l) j); auto.
    intros s i' j' _ _ <-. apply lswap_length.
  Qed.

  Lemma down_aux_length : forall f l i n, length (fst (dna f l i n)) = length l.
  Proof.
    intros f l i n. apply (down_aux_inv _ _ _ (fun s => length s = length l) i); auto.
    intros s i' j' _ _ _ <-. apply lswap_length.
  Qed.

  Lemma lup_length : forall l j, length (lup lessA l j) = length l.
  Proof. intros. unfold lup, up. apply up_aux_length. Qed.

  Lemma ldown_length : forall l i n, length (fst (ldown lessA l i n)) = length l.
  Proof. intros. unfold ldown, down. apply down_aux_length. Qed.

  Lemma up_aux_perm : forall f l j, Permutation (upa f l j) l.
  Proof.
    intros f l j. apply (up_aux_inv _ _ _ (fun s => Permutation s l) j); auto.
    intros s i' j' _ _ HP. eapply Permutation_trans; [apply lswap_perm | exact HP].
  Qed.

  Lemma down_aux_perm : forall f l i n, Permutation (fst (dna f l i n)) l.
  Proof.
    intros f l i n. apply (down_aux_inv _ _ _ (fun s => Permutation s l) i); auto.
    intros s i' j' _ _ _ HP. eapply Permutation_trans; [apply lswap_perm | exact HP].
  Qed.

  Lemma lup_perm : forall l j, Permutation (lup lessA l j) l.
  Proof. intros. unfold lup, up. apply up_aux_perm. Qed.

  Lemma ldown_perm : forall l i n, Permutation (fst (ldown lessA l i n)) l.
  Proof. intros. unfold ldown, down. apply down_aux_perm. Qed.

  Lemma up_fuel_enough : forall f l j, j < f -> upa f l j = upa (S j) l j.
  Proof. intros. apply up_aux_fuel; lia. Qed.

  Lemma down_fuel_enough : forall f l i n, n - i <= f -> dna f l i n = dna (n - i) l i n.
  Proof. intros. apply down_aux_fuel; lia. Qed.

  Lemma down_aux_nth_ge : forall f l i n k, n <= k ->
    nth_error (fst (dna f l i n)) k = nth_error l k.
  Proof.
    intros f l i n k Hk. apply (down_aux_inv _ _ _ (fun s => nth_error s k = nth_error l k) i); auto.
    intros s i' j' _ Hij Hjn <-. apply nth_error_lswap_other; lia.
  Qed.

  Lemma up_aux_nth_gt : forall f l j k, j < k ->
    nth_error (upa f l j) k = nth_error l k.
  Proof.
    intros f l j k Hk. apply (up_aux_inv _ _ _ (fun s => nth_error s k = nth_error l k) j); auto.
    intros s i' j' Hij Hj <-. apply nth_error_lswap_other; lia.
  Qed.

  Definition ok_edge (l : list A) (p c : nat) : Prop :=
    forall a b, nth_error l p = Some a -> nth_error l c = Some b -> lessA b a = false.
  (* heap order on the prefix of length n, for edges whose parent is >= k *)
  Definition heap_pre (l : list A) (n k : nat) : Prop :=
    forall p c, child p c -> c < n -> k <= p -> ok_edge l p c.
  (* the element at i is out of place: the order holds on the edges that do not touch i, and between
     i's parent and i's children *)
  Definition hole (l : list A) (n k i : nat) : Prop :=
    (forall p c, child p c -> c < n -> k <= p -> c <> i -> p <> i -> ok_edge l p c) /\
    (forall p c, child p i -> child i c -> c < n -> k <= p -> ok_edge l p c).
  Definition up_ok (l : list A) (k i : nat) : Prop :=
    forall p, child p i -> k <= p -> ok_edge l p i.
  Definition dn_ok (l : list A) (n i : nat) : Prop :=
    forall c, child i c -> c < n -> ok_edge l i c.

  Lemma hole_heap : forall l n k i,
    hole l n k i -> up_ok l k i -> dn_ok l n i -> heap_pre l n k.
  Proof.
    intros l n k i [H1 H2] Hu Hd p c Hpc Hcn Hk.
    destruct (Nat.eq_dec c i) as [->|Hci]; [apply Hu; auto|].
    destruct (Nat.eq_dec p i) as [->|Hpi]; [apply Hd; auto|].
    apply H1; auto.
  Qed.

  Lemma heap_ok_pre : forall l n, heap_ok l -> heap_pre l n 0.
  Proof. intros l n H p c Hpc _ _ a b Ha Hb. exact (H p c a b Hpc Ha Hb). Qed.

  Lemma pre_heap_ok : forall l n, n = length l -> heap_pre l n 0 -> heap_ok l.
  Proof.
    intros l n Hn H p c a b Hpc Ha Hb.
    apply (H p c Hpc); auto; try lia.
    subst n. apply nth_error_Some. congruence.
  Qed.

  Lemma heap_removelast : forall l, heap_pre l (length l - 1) 0 -> heap_ok (removelast l).
  Proof.
    intros l H p c a b Hpc Ha Hb.
    apply nth_error_removelast in Ha. apply nth_error_removelast in Hb.
    destruct Ha as [Ha _]. destruct Hb as [Hb Hc].
    apply (H p c Hpc); auto; lia.
  Qed.

  Lemma hole_of_heap : forall l0 l n i, heap_ok l0 ->
    (forall m, m < n -> m <> i -> nth_error l m = nth_error l0 m) ->
    (i < length l0 \/ n <= 2*i+1) -> hole l n 0 i.
  Proof.
    intros l0 l n i H0 Hsame Hi. split.
    - intros p c Hpc Hcn _ Hci Hpi a b Ha Hb.
      rewrite Hsame in Ha by (unfold child in *; lia).
      rewrite Hsame in Hb by auto.
      exact (H0 p c a b Hpc Ha Hb).
    - intros p c Hpi Hic Hcn _ a b Ha Hb.
      destruct Hi as [Hi|Hi]; [|unfold child in *; lia].
      destruct (nth_error_some_lt l0 i Hi) as [z Hz].
      rewrite Hsame in Ha by (unfold child in *; lia).
      rewrite Hsame in Hb by (unfold child in *; lia).
      apply (less_negtrans b z a).
      + exact (H0 i c z b Hic Hz Hb).
      + exact (H0 p i a z Hpi Ha Hz).
  Qed.

  (* one step of up / down, stated on the effect of the swap *)

  Lemma up_step : forall l l' n i j a b,
    child i j ->
    nth_error l i = Some a -> lessA b a = true ->
    nth_error l' i = Some b -> nth_error l' j = Some a ->
    (forall m, m <> i -> m <> j -> nth_error l' m = nth_error l m) ->
    hole l n 0 j -> hole l' n 0 i /\ dn_ok l' n i.
  Proof.
    intros l l' n i j a b Hch Ha Hlt Hi' Hj' Ho [H1 H2].
    split; [split|].
    - intros p c Hpc Hcn Hk Hci Hpi x y Hx Hy.
      destruct (Nat.eq_dec p j) as [->|Hpj].
      + rewrite Hj' in Hx. inversion Hx; subst x.
        rewrite Ho in Hy by (unfold child in *; lia).
        exact (H2 i c Hch Hpc Hcn (Nat.le_0_l _) a y Ha Hy).
      + assert (c <> j) by (unfold child in *; lia).
        rewrite Ho in Hx by auto. rewrite Ho in Hy by auto.
        exact (H1 p c Hpc Hcn Hk H Hpj x y Hx Hy).
    - intros p c Hpi Hic Hcn Hk x y Hx Hy.
      rewrite Ho in Hx by (unfold child in *; lia).
      assert (Hax : lessA a x = false).
      { apply (H1 p i Hpi); auto; unfold child in *; lia. }
      destruct (Nat.eq_dec c j) as [->|Hcj].
      + rewrite Hj' in Hy. inversion Hy; subst y. exact Hax.
      + rewrite Ho in Hy by (unfold child in *; lia).
        assert (Hya : lessA y a = false).
        { apply (H1 i c Hic Hcn); auto; unfold child in *; lia. }
        exact (less_negtrans y a x Hya Hax).
    - intros c Hic Hcn x y Hx Hy.
      rewrite Hi' in Hx. inversion Hx; subst x.
      destruct (Nat.eq_dec c j) as [->|Hcj].
      + rewrite Hj' in Hy. inversion Hy; subst y. apply less_asym; auto.
      + rewrite Ho in Hy by (unfold child in *; lia).
        assert (Hya : lessA y a = false).
        { apply (H1 i c Hic Hcn); auto; unfold child in *; lia. }
        destruct (lessA y b) eqn:E; auto.
        pose proof (less_trans _ _ _ E Hlt). congruence.
  Qed.

  Lemma down_step : forall l l' n k i j a b,
    child i j -> j < n ->
    nth_error l j = Some b -> lessA b a = true ->
    nth_error l' i = Some b -> nth_error l' j = Some a ->
    (forall m, m <> i -> m <> j -> nth_error l' m = nth_error l m) ->
    (forall s x, child i s -> s <> j -> s < n -> nth_error l s = Some x -> lessA x b = false) ->
    hole l n k i -> hole l' n k j /\ up_ok l' k j.
  Proof.
    intros l l' n k i j a b Hch Hjn Hb Hlt Hi' Hj' Ho Hsib [H1 H2].
    split; [split|].
    - intros p c Hpc Hcn Hkp Hcj Hpj x y Hx Hy.
      destruct (Nat.eq_dec c i) as [->|Hci].
      + rewrite Hi' in Hy. inversion Hy; subst y.
        rewrite Ho in Hx by (unfold child in *; lia).
        exact (H2 p j Hpc Hch Hjn Hkp x b Hx Hb).
      + destruct (Nat.eq_dec p i) as [->|Hpi].
        * rewrite Hi' in Hx. inversion Hx; subst x.
          rewrite Ho in Hy by auto.
          exact (Hsib c y Hpc Hcj Hcn Hy).
        * rewrite Ho in Hx by auto. rewrite Ho in Hy by auto.
          exact (H1 p c Hpc Hcn Hkp Hci Hpi x y Hx Hy).
    - intros p c Hpj Hjc Hcn Hkp x y Hx Hy.
      assert (p = i) by (unfold child in *; lia). subst p.
      rewrite Hi' in Hx. inversion Hx; subst x.
      rewrite Ho in Hy by (unfold child in *; lia).
      apply (H1 j c Hjc Hcn); auto; unfold child in *; lia.
    - intros p Hpj Hkp x y Hx Hy.
      assert (p = i) by (unfold child in *; lia). subst p.
      rewrite Hi' in Hx. rewrite Hj' in Hy.
      inversion Hx; inversion Hy; subst. apply less_asym; auto.
  Qed.

  Lemma pick_sibling : forall l i n j s x b,
    lpick l i n = j -> child i s -> s <> j -> s < n ->
    nth_error l s = Some x -> nth_error l j = Some b -> lessA x b = false.
  Proof.
    intros l i n j s x b Hj Hs Hsj Hsn Hx Hb.
    unfold pick in Hj.
    destruct (2*i+1+1 <? n) eqn:E2; cbn [andb] in Hj.
    - destruct (lless lessA l (2*i+1+1) (2*i+1)) eqn:E3.
      + subst j. assert (s = 2*i+1) by (unfold child in *; lia). subst s.
        rewrite (lless_some _ _ _ _ _ Hb Hx) in E3. apply less_asym; auto.
      + subst j. assert (s = 2*i+1+1) by (unfold child in *; lia). subst s.
        rewrite (lless_some _ _ _ _ _ Hx Hb) in E3. auto.
    - apply Nat.ltb_ge in E2. subst j. unfold child in *; lia.
  Qed.

  Lemma up_aux_heap : forall f l j n,
    j < f -> j < n -> n <= length l ->
    hole l n 0 j -> dn_ok l n j -> heap_pre (upa f l j) n 0.
  Proof.
    induction f; intros l j n Hf Hjn Hn Hh Hd; [lia|].
    rewrite up_aux_S.
    destruct (Nat.eq_dec j 0) as [->|Hj0].
    - rewrite parent_zero. rewrite Nat.eqb_refl. cbn [orb].
      apply (hole_heap l n 0 0); auto.
      intros p Hp. unfold child in Hp. lia.
    - assert (Hj : 0 < j) by lia.
      pose proof (parent_child j Hj) as Hch.
      pose proof (parent_lt j Hj) as Hlt.
      set (i := (j-1)/2) in *.
      destruct (i =? j) eqn:E; [apply Nat.eqb_eq in E; lia|]. cbn [orb].
      destruct (nth_error_some_lt l i) as [a Ha]; [lia|].
      destruct (nth_error_some_lt l j) as [b Hb]; [lia|].
      rewrite (lless_some _ _ _ _ _ Hb Ha).
      destruct (lessA b a) eqn:Hba; cbn [negb].
      + destruct (up_step l (lswap l i j) n i j a b) as [Hh' Hd']; auto.
        * rewrite nth_error_lswap_l by lia. auto.
        * rewrite nth_error_lswap_r by lia. auto.
        * intros m Hmi Hmj. apply nth_error_lswap_other; auto.
        * apply IHf; auto; try lia. rewrite lswap_length. lia.
      + apply (hole_heap l n 0 j); auto.
        intros p Hp _ x y Hx Hy.
        assert (p = i) by (unfold child in *; lia). subst p.
        congruence.
  Qed.

  (* Sifting the hole down from i ends at i' >= i with the hole's two children in order below it;
     the edge above i' is in order if it was above i, or if the hole moved (its parent is then
     the smaller child that was swapped up). *)
  Lemma down_aux_hole : forall f l i n k l' i',
    n <= length l -> n - i <= f -> hole l n k i -> dna f l i n = (l', i') ->
    i <= i' /\ hole l' n k i' /\ dn_ok l' n i' /\ (up_ok l k i \/ i < i' -> up_ok l' k i').
  Proof.
    assert (Stop : forall l i n k, hole l n k i -> dn_ok l n i ->
      i <= i /\ hole l n k i /\ dn_ok l n i /\ (up_ok l k i \/ i < i -> up_ok l k i)).
    { intros l i n k Hh Hd. repeat split; auto; try apply Hh. intros [H|H]; [auto|lia]. }
    induction f; intros l i n k l' i' Hn Hf Hh E.
    - injection E as <- <-. apply Stop; auto.
      intros c Hc Hcn. unfold child in Hc. lia.
    - rewrite down_aux_S in E.
      destruct (n <=? 2*i+1) eqn:En.
      + apply Nat.leb_le in En. injection E as <- <-. apply Stop; auto.
        intros c Hc Hcn. unfold child in Hc. lia.
      + apply Nat.leb_gt in En.
        pose proof (pick_lt _ (lless lessA) l i n En) as Hjn.
        pose proof (pick_cases _ (lless lessA) l i n) as Hjc.
        remember (lpick l i n) as j eqn:Ej. symmetry in Ej.
        assert (Hch : child i j) by (unfold child; lia).
        destruct (nth_error_some_lt l i) as [a Ha]; [lia|].
        destruct (nth_error_some_lt l j) as [b Hb]; [lia|].
        rewrite (lless_some _ _ _ _ _ Hb Ha) in E.
        destruct (lessA b a) eqn:Hba; cbn [negb] in E.
        * destruct (down_step l (lswap l i j) n k i j a b) as [Hh' Hu']; auto.
          -- rewrite nth_error_lswap_l by lia. auto.
          -- rewrite nth_error_lswap_r by lia. auto.
          -- intros m Hmi Hmj. apply nth_error_lswap_other; auto.
          -- intros s x Hs Hsj Hsn Hx.
             exact (pick_sibling l i n j s x b Ej Hs Hsj Hsn Hx Hb).
          -- apply (IHf _ _ _ k) in E as (R0 & R1 & R2 & R3); auto; try lia.
             ++ repeat split; auto; try apply R1; lia.
             ++ rewrite lswap_length. auto.
        * injection E as <- <-. apply Stop; auto.
          intros c Hc Hcn x y Hx Hy.
          rewrite Ha in Hx. inversion Hx; subst x.
          destruct (Nat.eq_dec c j) as [->|Hcj]; [congruence|].
          pose proof (pick_sibling l i n j c y b Ej Hc Hcj Hcn Hy Hb) as Hyb.
          exact (less_negtrans y b a Hyb Hba).
  Qed.

  Lemma down_heap : forall l i n k, n <= length l -> hole l n k i -> up_ok l k i ->
    heap_pre (fst (dna n l i n)) n k.
  Proof.
    intros l i n k Hn Hh Hu. destruct (dna n l i n) as [l' i'] eqn:E.
    apply (down_aux_hole _ _ _ _ k) in E as (_ & R1 & R2 & R3); auto; [|lia].
    apply (hole_heap l' n k i'); auto.
  Qed.

  (* Fix, and the middle of Remove: sift down, and up if that did not move the element *)
  Definition fixup (l : list A) (i n : nat) : list A :=
    let '(l', i') := down (list A) (lless lessA) lswap l i n in
    if i <? i' then l' else up (list A) (lless lessA) lswap l' i.

  Lemma fixup_length : forall l i n, length (fixup l i n) = length l.
  Proof.
    intros l i n. unfold fixup, down. pose proof (down_aux_length n l i n) as H.
    destruct (dna n l i n) as [l' i']. destruct (i <? i'); [exact H|].
    unfold up. rewrite up_aux_length. exact H.
  Qed.

  Lemma fixup_perm : forall l i n, Permutation (fixup l i n) l.
  Proof.
    intros l i n. unfold fixup, down. pose proof (down_aux_perm n l i n) as H.
    destruct (dna n l i n) as [l' i']. destruct (i <? i'); [exact H|].
    eapply Permutation_trans; [apply up_aux_perm | exact H].
  Qed.

  Lemma fixup_nth_ge : forall l i n m, i < n -> n <= m -> nth_error (fixup l i n) m = nth_error l m.
  Proof.
    intros l i n m Hi Hm. unfold fixup, down. pose proof (down_aux_nth_ge n l i n m Hm) as H.
    destruct (dna n l i n) as [l' i']. destruct (i <? i'); [exact H|].
    unfold up. rewrite up_aux_nth_gt by lia. exact H.
  Qed.

  Lemma fixup_heap : forall l i n, n <= length l -> i < n -> hole l n 0 i -> heap_pre (fixup l i n) n 0.
  Proof.
    intros l i n Hn Hi Hh. unfold fixup, down. pose proof (down_aux_length n l i n) as HL.
    destruct (dna n l i n) as [l' i'] eqn:E. cbn [fst] in HL.
    apply (down_aux_hole _ _ _ _ 0) in E as (R0 & R1 & R2 & R3); auto; try lia.
    destruct (Nat.ltb_spec i i') as [Hlt|Hge].
    - apply (hole_heap l' n 0 i'); auto.
    - assert (i' = i) by lia. subst i'. unfold up. apply up_aux_heap; auto; lia.
  Qed.

  Lemma heap_ok_root_min : forall l m, heap_ok l -> nth_error l 0 = Some m ->
    forall y, In y l -> lessA y m = false.
  Proof.
    intros l m H Hm.
    assert (Hk : forall k y, nth_error l k = Some y -> lessA y m = false).
    { induction k as [k IH] using lt_wf_ind. intros y Hy.
      destruct (Nat.eq_dec k 0) as [->|Hk0].
      - rewrite Hm in Hy. inversion Hy; subst. apply less_irrefl.
      - assert (Hk : 0 < k) by lia.
        pose proof (parent_child k Hk) as Hch.
        pose proof (parent_lt k Hk) as Hlt.
        set (p := (k-1)/2) in *.
        assert (Hkl : k < length l) by (apply nth_error_Some; congruence).
        destruct (nth_error_some_lt l p) as [z Hz]; [lia|].
        apply (less_negtrans y z m).
        + exact (H p k z y Hch Hz Hy).
        + exact (IH p Hlt z Hz). }
    intros y Hy. apply In_nth_error in Hy. destruct Hy as [k Hy]. eauto.
  Qed.

  Lemma lpush_eq : forall l x, lpush lessA x l = upa (S (length l)) (l ++ [x]) (length l).
  Proof.
    intros l x. unfold lpush, heap_push, lpush_method, up.
    rewrite app_length. simpl length.
    replace (length l + 1 - 1) with (length l) by lia. reflexivity.
  Qed.

  Theorem lpush_heap_ok : forall l x, heap_ok l -> heap_ok (lpush lessA x l).
  Proof.
    intros l x H. rewrite lpush_eq.
    apply (pre_heap_ok _ (length l + 1)).
    - rewrite up_aux_length, app_length. simpl. lia.
    - apply up_aux_heap; try lia.
      + rewrite app_length. simpl. lia.
      + apply (hole_of_heap l); auto.
        * intros m Hm Hml. apply nth_error_app1. lia.
        * right. lia.
      + intros c Hc Hcn. unfold child in Hc. lia.
  Qed.

  Theorem lpush_perm : forall l x, Permutation (lpush lessA x l) (x :: l).
  Proof.
    intros l x. rewrite lpush_eq.
    eapply Permutation_trans; [apply up_aux_perm|].
    apply Permutation_sym. apply Permutation_cons_append.
  Qed.

  Lemma pop_method_spec : forall l0 l x, Permutation l l0 -> nth_error l (length l - 1) = Some x ->
    heap_pre l (length l - 1) 0 ->
    lpop_method l = (removelast l, Some x) /\ heap_ok (removelast l) /\
    Permutation l0 (x :: removelast l).
  Proof.
    intros l0 l x HP Hx Hp. unfold lpop_method. rewrite Hx. split; [auto|]. split.
    - apply heap_removelast; auto.
    - apply Permutation_sym in HP. eapply Permutation_trans; [exact HP|].
      rewrite (removelast_snoc A l x Hx) at 1. apply Permutation_sym, Permutation_cons_append.
  Qed.

  Lemma lremove_eq : forall l i, lremove lessA l i =
    lpop_method (if length l - 1 =? i then l else fixup (lswap l i (length l - 1)) i (length l - 1)).
  Proof.
    intros l i. unfold lremove, heap_remove, fixup. destruct (_ =? _); [reflexivity|].
    destruct (down _ _ _ _ _ _). reflexivity.
  Qed.

  Theorem lremove_spec : forall l i x, heap_ok l -> nth_error l i = Some x ->
    exists l', lremove lessA l i = (l', Some x) /\ heap_ok l' /\ Permutation l (x :: l').
  Proof.
    intros l i x H Hx.
    assert (Hi : i < length l) by (apply nth_error_Some; congruence).
    rewrite lremove_eq.
    set (n := length l - 1).
    destruct (Nat.eqb_spec n i) as [E|E].
    - exists (removelast l). apply pop_method_spec; [apply Permutation_refl | |apply heap_ok_pre; auto].
      fold n. rewrite E. auto.
    - set (l1 := lswap l i n). set (l3 := fixup l1 i n).
      assert (HL : length l3 - 1 = n) by (unfold l3, l1; rewrite fixup_length, lswap_length; reflexivity).
      exists (removelast l3). apply pop_method_spec; rewrite ?HL.
      + eapply Permutation_trans; [apply fixup_perm | apply lswap_perm].
      + unfold l3. rewrite fixup_nth_ge by lia. unfold l1. rewrite nth_error_lswap_r by lia. auto.
      + apply fixup_heap; [unfold l1; rewrite lswap_length; lia | lia |].
        apply (hole_of_heap l); auto.
        intros k Hk Hki. apply nth_error_lswap_other; lia.
  Qed.

  (* up at the root does nothing, so Pop is Remove at 0 *)
  Lemma lpop_remove : forall l, lpop lessA l = lremove lessA l 0.
  Proof.
    intros [|m [|m' t]]; [reflexivity..|].
    unfold lpop, lremove, heap_pop, heap_remove. cbn [length Nat.sub Nat.eqb].
    destruct (down _ _ _ _ _ _) as [l2 i']. destruct (0 <? i'); reflexivity.
  Qed.

  Theorem lpop_spec : forall l m, heap_ok l -> nth_error l 0 = Some m ->
    exists l', lpop lessA l = (l', Some m) /\ heap_ok l' /\ Permutation l (m :: l') /\
               (forall y, In y l -> lessA y m = false).
  Proof.
    intros l m H Hm. destruct (lremove_spec l 0 m H Hm) as (l' & E & Hok & HP).
    exists l'. rewrite lpop_remove. repeat split; auto. apply heap_ok_root_min; auto.
  Qed.

  Theorem lfix_spec : forall l i x, heap_ok l -> i < length l ->
    heap_ok (lfix lessA (set_nth i x l) i) /\
    Permutation (lfix lessA (set_nth i x l) i) (set_nth i x l).
  Proof.
    intros l0 i x H Hi. set (l := set_nth i x l0).
    assert (Hl : length l = length l0) by apply set_nth_length.
    change (lfix lessA l i) with (fixup l i (length l)). split; [|apply fixup_perm].
    apply (pre_heap_ok _ (length l)); [rewrite fixup_length; auto|].
    apply fixup_heap; auto; [lia|].
    apply (hole_of_heap l0); auto.
    intros k Hk Hki. apply nth_error_set_nth_neq; auto.
  Qed.

  Lemma init_aux_spec : forall k l n, n = length l -> heap_pre l n k ->
    heap_pre (init_aux (list A) (lless lessA) lswap k l n) n 0 /\
    Permutation (init_aux (list A) (lless lessA) lswap k l n) l /\
    length (init_aux (list A) (lless lessA) lswap k l n) = length l.
  Proof.
    induction k; intros l n Hn Hp.
    - simpl. split; auto.
    - cbn [init_aux]. unfold down.
      assert (Hh : hole l n k k).
      { split.
        - intros p c Hpc Hcn Hkp _ Hpk. apply Hp; auto. lia.
        - intros p c Hpk _ _ Hkp. unfold child in Hpk. lia. }
      pose proof (down_aux_length n l k n) as HL.
      pose proof (down_aux_perm n l k n) as HP.
      destruct (IHk (fst (dna n l k n)) n) as (I1 & I2 & I3); [lia| |].
      + apply down_heap; auto; [lia|]. intros p Hpk Hkp. unfold child in Hpk. lia.
      + split; [auto|]. split; [|lia].
        eapply Permutation_trans; eauto.
  Qed.

  Theorem linit_spec : forall l, heap_ok (linit lessA l) /\ Permutation (linit lessA l) l.
  Proof.
    intros l. unfold linit, heap_init.
    destruct (init_aux_spec (length l / 2) l (length l) eq_refl) as (I1 & I2 & I3).
    - intros p c Hpc Hcn Hk. pose proof (half_bound (length l)).
      unfold child in Hpc. lia.
    - split; auto. apply (pre_heap_ok _ (length l)); auto.
  Qed.
End ListHeapProofs.

Section Simulation.
  Variable St : Type.
  Variable len : St -> nat.
  Variable less : St -> nat -> nat -> bool.
  Variable swap : St -> nat -> nat -> St.
  Variable A : Type.
  Variable lessA : A -> A -> bool.
  Variable R : St -> list A -> Prop.
  Hypothesis R_len : forall s l, R s l -> len s = length l.
  Hypothesis R_less : forall s l i j, R s l -> i < length l -> j < length l ->
    less s i j = lless lessA l i j.
  Hypothesis R_swap : forall s l i j, R s l -> i < length l -> j < length l ->
    R (swap s i j) (lswap l i j).

  Lemma sim_up_aux : forall f s l j, R s l -> j < length l ->
    R (up_aux St less swap f s j) (up_aux (list A) (lless lessA) lswap f l j).
  Proof.
    induction f; intros s l j HR Hj; [exact HR|].
    rewrite !up_aux_S.
    assert (Hi : (j-1)/2 < length l).
    { destruct (Nat.eq_dec j 0) as [->|N]; [rewrite parent_zero; auto|].
      pose proof (parent_lt j). lia. }
    rewrite (R_less s l j ((j-1)/2) HR Hj Hi).
    destruct (((j-1)/2 =? j) || negb (lless lessA l j ((j-1)/2))); auto.
    apply IHf.
    - apply R_swap; auto.
    - rewrite lswap_length. auto.
  Qed.

  Lemma sim_up : forall s l j, R s l -> j < length l ->
    R (up St less swap s j) (lup lessA l j).
  Proof. intros. unfold lup, up. apply sim_up_aux; auto. Qed.

  Lemma sim_pick : forall s l i n, R s l -> n <= length l ->
    pick St less s i n = pick (list A) (lless lessA) l i n.
  Proof.
    intros s l i n HR Hn. unfold pick.
    destruct (2*i+1+1 <? n) eqn:E; cbn [andb]; auto.
    apply Nat.ltb_lt in E.
    rewrite (R_less s l _ _ HR) by lia. auto.
  Qed.

  Lemma sim_down_aux : forall f s l i n, R s l -> n <= length l ->
    R (fst (down_aux St less swap f s i n))
      (fst (down_aux (list A) (lless lessA) lswap f l i n)) /\
    snd (down_aux St less swap f s i n) =
    snd (down_aux (list A) (lless lessA) lswap f l i n).
  Proof.
    induction f; intros s l i n HR Hn; [split; [exact HR|reflexivity]|].
    rewrite !down_aux_S.
    destruct (n <=? 2*i+1) eqn:E; [split; [exact HR|reflexivity]|].
    apply Nat.leb_gt in E.
    rewrite (sim_pick s l i n HR Hn).
    pose proof (pick_cases (list A) (lless lessA) l i n) as Hp.
    set (j := pick (list A) (lless lessA) l i n) in *.
    pose proof (pick_lt _ (lless lessA) l i n E) as Hjn. fold j in Hjn.
    rewrite (R_less s l j i HR) by lia.
    destruct (negb (lless lessA l j i)); [split; [exact HR|reflexivity]|].
    apply IHf.
    - apply R_swap; auto; lia.
    - rewrite lswap_length. auto.
  Qed.

  Lemma sim_down : forall s l i n, R s l -> n <= length l ->
    R (fst (down St less swap s i n)) (fst (ldown lessA l i n)) /\
    snd (down St less swap s i n) = snd (ldown lessA l i n).
  Proof. intros. unfold ldown, down. apply sim_down_aux; auto. Qed.

  Lemma sim_fix : forall s l i, R s l -> i < length l ->
    R (heap_fix St len less swap s i) (lfix lessA l i).
  Proof.
    intros s l i HR Hi. unfold lfix, heap_fix.
    rewrite (R_len s l HR).
    destruct (sim_down s l i (length l) HR (le_n _)) as [H1 H2].
    unfold ldown in *.
    destruct (down St less swap s i (length l)) as [s1 i1].
    destruct (down (list A) (lless lessA) lswap l i (length l)) as [l1 i2] eqn:E2.
    simpl in *. subst i2.
    destruct (i <? i1); auto.
    apply sim_up; auto.
    pose proof (ldown_length A lessA l i (length l)) as HL.
    unfold ldown in HL. rewrite E2 in HL. simpl in HL. lia.
  Qed.
End Simulation.
