(* RegexProofs.v — declarative semantics of regular expressions ([matches]), correctness of
   nullable / derivatives / normalising constructors, and soundness of the inclusion checker:
       incl r1 r2 = true -> forall w, matches r1 w -> matches r2 w.
   Section Explore, shared with Proofs/RegexDisjProofs.v, shows that the set of pairs a breadth-first
   exploration returns is closed under derivation; soundness follows from that, and so does
       is_ok (incl_run r1 r2) = true -> incl r1 r2 = true,
   by which a reflective proof evaluates the exploration without the closure check after it.
   Symbols are arbitrary N (no byte bound is needed). *)
From Coq Require Import List NArith Bool Arith Lia.
From Snow Require Import Lib.Wire Model.Regex Model.RegexIncl.
Import ListNotations.
Open Scope N_scope.

(* The language of a regex: anchors match nothing, capture groups are transparent. *)
Inductive matches : re -> bytes -> Prop :=
| MEps : matches Eps []
| MCls : forall rs c, in_cls c rs = true -> matches (Cls rs) [c]
| MSeq : forall a b w1 w2, matches a w1 -> matches b w2 -> matches (Seq a b) (w1 ++ w2)
| MAltL : forall a b w, matches a w -> matches (Alt a b) w
| MAltR : forall a b w, matches b w -> matches (Alt a b) w
| MStar0 : forall a, matches (Star a) []
| MStarS : forall a w1 w2, matches a w1 -> matches (Star a) w2 -> matches (Star a) (w1 ++ w2)
| MRep0 : forall a n, matches (Rep a 0 n) []
| MRepS : forall a m n w1 w2,
    matches a w1 -> matches (Rep a (pred m) n) w2 -> matches (Rep a m (S n)) (w1 ++ w2)
| MGrp : forall k a w, matches a w -> matches (Grp k a) w.

Lemma matches_emp : forall w, ~ matches Emp w.
Proof. intros w H; inversion H. Qed.

Lemma matches_eps : forall w, matches Eps w -> w = [].
Proof. intros w H; inversion H; reflexivity. Qed.

Lemma matches_cls_inv : forall rs w, matches (Cls rs) w -> exists c, w = [c] /\ in_cls c rs = true.
Proof. intros rs w H; inversion H; subst; eauto. Qed.

Lemma matches_seq_inv : forall a b w, matches (Seq a b) w ->
  exists w1 w2, w = w1 ++ w2 /\ matches a w1 /\ matches b w2.
Proof. intros a b w H; inversion H; subst; eauto. Qed.

Lemma matches_alt_inv : forall a b w, matches (Alt a b) w -> matches a w \/ matches b w.
Proof. intros a b w H; inversion H; subst; auto. Qed.

Lemma matches_grp_inv : forall k a w, matches (Grp k a) w -> matches a w.
Proof. intros k a w H; inversion H; subst; auto. Qed.

Lemma rep_nil : forall a n m, matches a [] -> (m <= n)%nat -> matches (Rep a m n) [].
Proof.
  intros a n; induction n as [|n IH]; intros m Ha Hle.
  - assert (m = 0%nat) by lia; subst; constructor.
  - destruct m as [|m]; [constructor|].
    change (@nil N) with (@nil N ++ @nil N). apply MRepS; [exact Ha|].
    apply IH; [exact Ha|simpl; lia].
Qed.

Lemma nullable_matches : forall r, nullable r = true -> matches r [].
Proof.
  induction r; simpl; intros Hn; try discriminate.
  - constructor.
  - apply andb_true_iff in Hn; destruct Hn as [H1 H2].
    change (@nil N) with (@nil N ++ @nil N); constructor; auto.
  - apply orb_true_iff in Hn; destruct Hn; [apply MAltL|apply MAltR]; auto.
  - constructor.
  - apply orb_true_iff in Hn; destruct Hn as [Hm|Hm].
    + apply Nat.eqb_eq in Hm; subst; constructor.
    + apply andb_true_iff in Hm; destruct Hm as [Ha Hle]. apply Nat.leb_le in Hle.
      apply rep_nil; auto.
  - constructor; auto.
Qed.

Lemma matches_nil_nullable : forall r w, matches r w -> w = [] -> nullable r = true.
Proof.
  induction 1; intros Hw; simpl; try reflexivity; try discriminate.
  - apply app_eq_nil in Hw; destruct Hw; rewrite IHmatches1, IHmatches2; auto.
  - rewrite IHmatches; auto.
  - rewrite IHmatches; auto; apply orb_true_r.
  - apply app_eq_nil in Hw; destruct Hw as [H1 H2].
    specialize (IHmatches1 H1); specialize (IHmatches2 H2). simpl in IHmatches2.
    rewrite IHmatches1 in *; simpl in *.
    destruct m as [|m]; simpl in *; [reflexivity|].
    apply orb_true_iff in IHmatches2; destruct IHmatches2 as [Hz|Hl].
    + apply Nat.eqb_eq in Hz; subst; reflexivity.
    + exact Hl.
  - auto.
Qed.

Lemma nullable_correct : forall r, nullable r = true <-> matches r [].
Proof.
  intros r; split; [apply nullable_matches|intros H; eapply matches_nil_nullable; eauto].
Qed.

Lemma cls_cmp_eq : forall a b, cls_cmp a b = Eq -> a = b.
Proof.
  induction a as [|[l1 h1] a IH]; destruct b as [|[l2 h2] b]; simpl; intros H; try discriminate; auto.
  destruct (N.compare l1 l2) eqn:E1; try discriminate.
  destruct (N.compare h1 h2) eqn:E2; try discriminate.
  apply N.compare_eq in E1; apply N.compare_eq in E2; subst. f_equal; auto.
Qed.

Lemma re_cmp_eq : forall a b, re_cmp a b = Eq -> a = b.
Proof.
  induction a; destruct b; simpl; intros H; try discriminate; auto.
  - f_equal; apply cls_cmp_eq; auto.
  - destruct (re_cmp a1 b1) eqn:E; try discriminate. f_equal; auto.
  - destruct (re_cmp a1 b1) eqn:E; try discriminate. f_equal; auto.
  - f_equal; auto.
  - destruct (Nat.compare m m0) eqn:E1; try discriminate.
    destruct (Nat.compare n n0) eqn:E2; try discriminate.
    apply Nat.compare_eq in E1; apply Nat.compare_eq in E2; subst. f_equal; auto.
  - destruct (Nat.compare k k0) eqn:E1; try discriminate.
    apply Nat.compare_eq in E1; subst; f_equal; auto.
Qed.

Lemma re_eqb_eq : forall a b, re_eqb a b = true -> a = b.
Proof.
  unfold re_eqb; intros a b H; destruct (re_cmp a b) eqn:E; try discriminate; apply re_cmp_eq; auto.
Qed.

Lemma pmem_In : forall p V, pmem p V = true -> In p V.
Proof.
  unfold pmem; intros p V H. apply existsb_exists in H; destruct H as [q [Hq He]].
  unfold pair_eqb in He; apply andb_true_iff in He; destruct He as [H1 H2].
  apply re_eqb_eq in H1; apply re_eqb_eq in H2. destruct p, q; simpl in *; subst; auto.
Qed.

Lemma is_emp_true : forall r, is_emp r = true -> r = Emp.
Proof. destruct r; simpl; intros; try discriminate; auto. Qed.

Lemma is_eps_true : forall r, is_eps r = true -> r = Eps.
Proof. destruct r; simpl; intros; try discriminate; auto. Qed.

Lemma mkSeq_matches : forall a b w, matches (mkSeq a b) w <-> matches (Seq a b) w.
Proof.
  intros a b w; unfold mkSeq.
  destruct (is_emp a) eqn:Ea; simpl.
  { apply is_emp_true in Ea; subst; split; intros H.
    - exfalso; eapply matches_emp; eauto.
    - apply matches_seq_inv in H; destruct H as (w1 & w2 & _ & H & _); exfalso; eapply matches_emp; eauto. }
  destruct (is_emp b) eqn:Eb; simpl.
  { apply is_emp_true in Eb; subst; split; intros H.
    - exfalso; eapply matches_emp; eauto.
    - apply matches_seq_inv in H; destruct H as (w1 & w2 & _ & _ & H); exfalso; eapply matches_emp; eauto. }
  destruct (is_eps a) eqn:Ea'.
  { apply is_eps_true in Ea'; subst; split; intros H.
    - change w with ([] ++ w); constructor; auto; constructor.
    - apply matches_seq_inv in H; destruct H as (w1 & w2 & Hw & H1 & H2).
      apply matches_eps in H1; subst; auto. }
  destruct (is_eps b) eqn:Eb'.
  { apply is_eps_true in Eb'; subst; split; intros H.
    - rewrite <- (app_nil_r w); constructor; auto; constructor.
    - apply matches_seq_inv in H; destruct H as (w1 & w2 & Hw & H1 & H2).
      apply matches_eps in H2; subst; rewrite app_nil_r; auto. }
  tauto.
Qed.

Lemma matches_alt : forall a b w, matches (Alt a b) w <-> matches a w \/ matches b w.
Proof.
  intros a b w. split; [apply matches_alt_inv | intros [H|H]; [apply MAltL|apply MAltR]; exact H].
Qed.

Lemma alt_insert_matches : forall l x w,
  matches (alt_insert x l) w <-> (matches x w \/ matches l w).
Proof.
  induction l; intros x w; simpl;
    try (destruct (re_cmp x _) eqn:E; [apply re_cmp_eq in E; subst|..]; rewrite ?matches_alt; tauto).
  destruct (re_cmp x l1) eqn:E; [apply re_cmp_eq in E; subst|..]; rewrite !matches_alt, ?IHl2; tauto.
Qed.

Lemma mkAlt_matches : forall a b w, matches (mkAlt a b) w <-> (matches a w \/ matches b w).
Proof.
  assert (He : forall w, matches Emp w <-> False) by (split; [apply matches_emp | tauto]).
  induction a; intros b w; simpl;
    try (destruct (is_emp b) eqn:Eb; [apply is_emp_true in Eb; subst; rewrite He | rewrite alt_insert_matches]; tauto).
  - rewrite He. tauto.
  - rewrite IHa1, IHa2, matches_alt. tauto.
Qed.

Lemma mkRep_matches : forall a m n w, matches (mkRep a m n) w <-> matches (Rep a m n) w.
Proof.
  intros a m n w; unfold mkRep. destruct n; [|tauto].
  destruct m; split; intros H.
  - apply matches_eps in H; subst; constructor.
  - inversion H; subst; constructor.
  - exfalso; eapply matches_emp; eauto.
  - inversion H.
Qed.

Lemma deriv_sound : forall r c w, matches (deriv c r) w -> matches r (c :: w).
Proof.
  induction r; intros c w H; simpl in H; try (exfalso; eapply matches_emp; eauto; fail).
  - destruct (in_cls c rs) eqn:E; [|exfalso; eapply matches_emp; eauto].
    apply matches_eps in H; subst; constructor; auto.
  - assert (Hl : forall w, matches (mkSeq (deriv c r1) r2) w -> matches (Seq r1 r2) (c :: w)).
    { intros w0 H0; apply mkSeq_matches in H0; apply matches_seq_inv in H0.
      destruct H0 as (w1 & w2 & Hw & H1 & H2); subst.
      change (c :: w1 ++ w2) with ((c :: w1) ++ w2); constructor; auto. }
    destruct (nullable r1) eqn:En; [|auto].
    apply mkAlt_matches in H; destruct H as [H|H]; [auto|].
    change (c :: w) with ([] ++ c :: w); constructor; [apply nullable_matches; auto|auto].
  - apply mkAlt_matches in H; destruct H; [apply MAltL|apply MAltR]; auto.
  - apply mkSeq_matches in H; apply matches_seq_inv in H.
    destruct H as (w1 & w2 & Hw & H1 & H2); subst.
    change (c :: w1 ++ w2) with ((c :: w1) ++ w2); constructor; auto.
  - destruct n; [exfalso; eapply matches_emp; eauto|].
    apply mkSeq_matches in H; apply matches_seq_inv in H.
    destruct H as (w1 & w2 & Hw & H1 & H2); subst. apply mkRep_matches in H2.
    change (c :: w1 ++ w2) with ((c :: w1) ++ w2); constructor; auto.
  - constructor; auto.
Qed.

Lemma deriv_complete_aux : forall r u, matches r u -> forall c w, u = c :: w -> matches (deriv c r) w.
Proof.
  induction 1; intros c0 w0 Hu; simpl; try discriminate.
  - inversion Hu; subst. rewrite H; constructor.
  - destruct w1 as [|x w1]; simpl in Hu.
    + subst. assert (Hn : nullable a = true) by (eapply matches_nil_nullable; eauto).
      rewrite Hn. apply mkAlt_matches; right; eauto.
    + inversion Hu; subst.
      assert (Hs : matches (mkSeq (deriv c0 a) b) (w1 ++ w2)).
      { apply mkSeq_matches; constructor; eauto. }
      destruct (nullable a); [apply mkAlt_matches; left|]; auto.
  - apply mkAlt_matches; left; eauto.
  - apply mkAlt_matches; right; eauto.
  - destruct w1 as [|x w1]; simpl in Hu.
    + eapply IHmatches2; eauto.
    + inversion Hu; subst. apply mkSeq_matches; constructor; eauto.
  - destruct w1 as [|x w1]; simpl in Hu.
    + subst. specialize (IHmatches2 c0 w0 eq_refl). simpl in IHmatches2.
      destruct n as [|n']; [exfalso; eapply matches_emp; eauto|].
      apply mkSeq_matches in IHmatches2; apply matches_seq_inv in IHmatches2.
      destruct IHmatches2 as (u1 & u2 & Hw & H1 & H2); subst. apply mkRep_matches in H2.
      apply mkSeq_matches; constructor; auto. apply mkRep_matches.
      change u2 with ([] ++ u2); apply MRepS; auto.
    + inversion Hu; subst. apply mkSeq_matches; constructor; eauto.
      apply mkRep_matches; auto.
  - eauto.
Qed.

Lemma deriv_correct : forall r c w, matches (deriv c r) w <-> matches r (c :: w).
Proof.
  intros; split; [apply deriv_sound|intros H; eapply deriv_complete_aux; eauto].
Qed.

(* no class of r separates c from d: the derivatives of r by c and by d are the same term *)
Fixpoint agree (c d : N) (r : re) : Prop :=
  match r with
  | Cls rs => in_cls c rs = in_cls d rs
  | Seq a b => agree c d a /\ agree c d b
  | Alt a b => agree c d a /\ agree c d b
  | Star a => agree c d a
  | Rep a _ _ => agree c d a
  | Grp _ a => agree c d a
  | _ => True
  end.

Lemma agree_deriv_eq : forall r c d, agree c d r -> deriv c r = deriv d r.
Proof.
  induction r; simpl; intros c d H; auto.
  - rewrite H; auto.
  - destruct H as [H1 H2]. rewrite (IHr1 _ _ H1), (IHr2 _ _ H2); auto.
  - destruct H as [H1 H2]. rewrite (IHr1 _ _ H1), (IHr2 _ _ H2); auto.
  - rewrite (IHr _ _ H); auto.
  - destruct n; auto. rewrite (IHr _ _ H); auto.
Qed.

Lemma agree_mkSeq : forall c d a b, agree c d a -> agree c d b -> agree c d (mkSeq a b).
Proof.
  intros c d a b Ha Hb; unfold mkSeq.
  destruct (is_emp a || is_emp b); simpl; auto.
  destruct (is_eps a); auto. destruct (is_eps b); simpl; auto.
Qed.

Lemma agree_alt_insert : forall c d l x, agree c d x -> agree c d l -> agree c d (alt_insert x l).
Proof.
  induction l; intros x Hx Hl; simpl; try (destruct (re_cmp x _); simpl; auto; fail).
  destruct Hl as [H1 H2]. destruct (re_cmp x l1); simpl; auto.
Qed.

Lemma agree_mkAlt : forall c d a b, agree c d a -> agree c d b -> agree c d (mkAlt a b).
Proof.
  induction a; intros b Ha Hb; simpl; auto;
    try (destruct (is_emp b); [auto|apply agree_alt_insert; auto]; fail).
  destruct Ha as [H1 H2]. apply IHa1; auto.
Qed.

Lemma agree_mkRep : forall c d a m n, agree c d a -> agree c d (mkRep a m n).
Proof. intros; unfold mkRep; destruct n; [destruct m; simpl; auto|simpl; auto]. Qed.

Lemma agree_deriv : forall r c d e, agree c d r -> agree c d (deriv e r).
Proof.
  induction r; simpl; intros c d e H; auto.
  - destruct (in_cls e rs); simpl; auto.
  - destruct H as [H1 H2].
    destruct (nullable r1); [apply agree_mkAlt; auto|]; apply agree_mkSeq; auto.
  - destruct H as [H1 H2]. apply agree_mkAlt; auto.
  - apply agree_mkSeq; simpl; auto.
  - destruct n; simpl; auto. apply agree_mkSeq; auto. apply agree_mkRep; auto.
Qed.

Lemma in_cls_existsb : forall c rs, in_cls c rs = existsb (in_rng c) rs.
Proof. induction rs as [|[lo hi] t IH]; simpl; [|rewrite IH]; reflexivity. Qed.

Definition same_sig (rs : cls) (c d : N) : Prop := forall rg, In rg rs -> in_rng c rg = in_rng d rg.

Lemma same_sig_in_cls : forall rs0 rs c d, List.incl rs0 rs -> same_sig rs c d -> in_cls c rs0 = in_cls d rs0.
Proof.
  induction rs0 as [|[lo hi] t IH]; intros rs c d Hi Hs; simpl; auto.
  assert (H1 : in_rng c (lo, hi) = in_rng d (lo, hi)) by (apply Hs; apply Hi; left; auto).
  unfold in_rng in H1; simpl in H1. rewrite H1. f_equal. eapply IH; eauto.
  intros x Hx; apply Hi; right; auto.
Qed.

Lemma same_sig_agree : forall r rs c d, List.incl (ranges r) rs -> same_sig rs c d -> agree c d r.
Proof.
  induction r; simpl; intros rs0 c d Hi Hs; auto.
  - eapply same_sig_in_cls; eauto.
  - split; [eapply IHr1|eapply IHr2]; eauto; intros x Hx; apply Hi; apply in_or_app; auto.
  - split; [eapply IHr1|eapply IHr2]; eauto; intros x Hx; apply Hi; apply in_or_app; auto.
  - eapply IHr; eauto.
  - eapply IHr; eauto.
  - eapply IHr; eauto.
Qed.

(* the largest candidate not above c *)
Definition best (l : list N) (c : N) : N :=
  fold_right (fun x acc => if (x <=? c) && (acc <=? x) then x else acc) 0 l.

Lemma best_spec : forall l c,
  best l c <= c /\ (In (best l c) l \/ best l c = 0) /\ (forall x, In x l -> x <= c -> x <= best l c).
Proof.
  induction l as [|a l IH]; intros c; simpl.
  - repeat split; auto; try lia; intros x [].
  - destruct (IH c) as (H1 & H2 & H3). fold (best l c).
    destruct ((a <=? c) && (best l c <=? a)) eqn:E.
    + apply andb_true_iff in E; destruct E as [E1 E2].
      apply N.leb_le in E1; apply N.leb_le in E2.
      repeat split; auto. intros x [Hx|Hx] Hc; [subst; lia|]. specialize (H3 x Hx Hc); lia.
    + repeat split; auto.
      * destruct H2; auto.
      * intros x [Hx|Hx] Hc; [|auto]. subst.
        apply andb_false_iff in E; destruct E as [E|E].
        -- apply N.leb_gt in E; lia.
        -- apply N.leb_gt in E; lia.
Qed.

Lemma cands_cover : forall rs c, exists d, In d (cands rs) /\ same_sig rs c d.
Proof.
  intros rs c. destruct (best_spec (cands rs) c) as (H1 & H2 & H3).
  exists (best (cands rs) c). split.
  - destruct H2 as [H2|H2]; auto. rewrite H2; left; auto.
  - intros [lo hi] Hin. unfold in_rng; cbn [fst snd].
    assert (Hlo : In lo (cands rs)).
    { right. apply in_flat_map. exists (lo, hi); split; auto. left; auto. }
    assert (Hhi : In (hi + 1) (cands rs)).
    { right. apply in_flat_map. exists (lo, hi); split; auto. right; left; auto. }
    set (d := best (cands rs) c) in *.
    pose proof (H3 lo Hlo) as Ha; pose proof (H3 (hi + 1) Hhi) as Hb. clearbody d.
    apply eq_true_iff_eq; rewrite !andb_true_iff, !N.leb_le; lia.
Qed.

Lemma sig_eqb_same : forall rs x y, sig_eqb rs x y = true -> same_sig rs x y.
Proof.
  unfold sig_eqb, same_sig; intros rs x y H rg Hin.
  rewrite forallb_forall in H. apply eqb_prop; auto.
Qed.

Lemma sig_eqb_refl : forall rs x, sig_eqb rs x x = true.
Proof. intros; unfold sig_eqb; apply forallb_forall; intros; apply eqb_reflx. Qed.

Lemma dedup_sig_cover : forall rs l x, In x l -> exists y, In y (dedup_sig rs l) /\ sig_eqb rs x y = true.
Proof.
  induction l as [|a l IH]; intros x Hx; [destruct Hx|]. simpl.
  destruct (existsb (sig_eqb rs a) (dedup_sig rs l)) eqn:E.
  - destruct Hx as [Hx|Hx]; [subst|auto].
    apply existsb_exists in E; destruct E as [y [Hy He]]; eauto.
  - destruct Hx as [Hx|Hx].
    + subst; exists x; split; [left; auto|apply sig_eqb_refl].
    + destruct (IH x Hx) as [y [Hy He]]; exists y; split; [right; auto|auto].
Qed.

Lemma representatives_cover : forall rs c, exists d, In d (representatives rs) /\ same_sig rs c d.
Proof.
  intros rs c. destruct (cands_cover rs c) as [d [Hd Hs]].
  assert (Hd' : In d (nodup N.eq_dec (cands rs))) by (apply nodup_In; auto).
  destruct (dedup_sig_cover rs _ _ Hd') as [y [Hy He]].
  exists y; split; auto. apply sig_eqb_same in He.
  intros rg Hin. rewrite (Hs rg Hin). apply He; auto.
Qed.

Lemma cls_cmp_refl : forall a, cls_cmp a a = Eq.
Proof. induction a as [|[l h] a IH]; simpl; [reflexivity|]. rewrite !N.compare_refl. exact IH. Qed.

Lemma re_cmp_refl : forall a, re_cmp a a = Eq.
Proof.
  induction a; simpl; rewrite ?IHa1, ?IHa2, ?Nat.compare_refl; auto using cls_cmp_refl.
Qed.

Lemma pmem_head : forall p V, pmem p (p :: V) = true.
Proof. intros [a b] V. unfold pmem, pair_eqb, re_eqb. simpl. rewrite !re_cmp_refl. reflexivity. Qed.

Lemma pmem_mono : forall p V V', List.incl V V' -> pmem p V = true -> pmem p V' = true.
Proof.
  unfold pmem. intros p V V' Hi H. apply existsb_exists in H. destruct H as [q [Hq He]].
  apply existsb_exists. exists q. auto.
Qed.

Definition respects (rs : cls) (a : re) : Prop := forall c d, same_sig rs c d -> agree c d a.

Lemma ranges_respects : forall rs r, List.incl (ranges r) rs -> respects rs r.
Proof. intros rs r Hi c d Hs. eapply same_sig_agree; eauto. Qed.

(* The explorations of RegexIncl and RegexDisj differ only in which pairs need no visit ([triv]) and
   which pair is a counterexample ([bad]).  The set V that either returns is closed under derivation
   by construction; the soundness of the checker and the success of its separate closure check
   ([closed]/[dclosed], which recomputes every derivative) both follow from that. *)
Section Explore.
  Variable reps : list N.
  Variables triv bad : pair -> bool.
  Variable ex : nat -> list (pair * bytes) -> list pair -> xres.
  Hypothesis ex_O : forall todo seen, ex O todo seen = XFuel.
  Hypothesis ex_S : forall f todo seen, ex (S f) todo seen =
    match todo with
    | [] => XOk seen
    | (p, w) :: todo' =>
        if triv p || pmem p seen then ex f todo' seen
        else if bad p then XCex (rev w)
        else ex f (todo' ++ map (fun c => ((deriv c (fst p), deriv c (snd p)), c :: w)) reps) (p :: seen)
    end.

  Definition dp (c : N) (p : pair) : pair := (deriv c (fst p), deriv c (snd p)).
  Definition done (V : list pair) (p : pair) : Prop := triv p = true \/ pmem p V = true.

  Definition closed_set (V : list pair) : Prop :=
    forall p, In p V -> bad p = false /\ forall c, In c reps -> done V (dp c p).

  (* the invariant of the loop: every visited pair is good and each of its derivatives is done or waiting *)
  Definition visited_ok (todo : list (pair * bytes)) (seen : list pair) : Prop :=
    forall p, In p seen -> bad p = false /\
      forall c, In c reps -> done seen (dp c p) \/ In (dp c p) (map fst todo).

  Lemma done_mono : forall V V' p, List.incl V V' -> done V p -> done V' p.
  Proof. intros V V' p Hi [H|H]; [left|right]; eauto using pmem_mono. Qed.

  Lemma explore_closed : forall f todo seen V,
    visited_ok todo seen -> ex f todo seen = XOk V ->
    List.incl seen V /\ (forall p, In p (map fst todo) -> done V p) /\ closed_set V.
  Proof.
    induction f as [|f IH]; intros todo seen V Hv H; [rewrite ex_O in H; discriminate|].
    rewrite ex_S in H. destruct todo as [|[p w] todo].
    - injection H as <-. split; [apply incl_refl|]. split; [intros p []|].
      intros p Hp. destruct (Hv p Hp) as [Hb Hd]. split; [exact Hb|].
      intros c Hc. destruct (Hd c Hc) as [D|[]]. exact D.
    - destruct (triv p || pmem p seen) eqn:Ed.
      + (* p needs no visit: whoever waited for it is done *)
        assert (Dp : done seen p) by (apply orb_true_iff in Ed; exact Ed).
        destruct (IH todo seen V) as (Hi & Ht & Hc); auto.
        { intros q Hq. destruct (Hv q Hq) as [Hb Hd]. split; [exact Hb|].
          intros c Hc. destruct (Hd c Hc) as [D|[E|I]]; auto. left. simpl in E. rewrite <- E. exact Dp. }
        split; [exact Hi|]. split; [|exact Hc].
        intros q [<-|Hq]; [eapply done_mono; eauto | auto].
      + destruct (bad p) eqn:Eb; [discriminate|].
        apply IH in H.
        2:{ intros q [<-|Hq].
          - split; [exact Eb|]. intros c Hc. right. rewrite map_app, map_map. apply in_or_app. right.
            apply in_map_iff. exists c. auto.
          - destruct (Hv q Hq) as [Hb Hd]. split; [exact Hb|].
            intros c Hc. destruct (Hd c Hc) as [D|[E|I]].
            + left. eapply done_mono; [|exact D]. apply incl_tl, incl_refl.
            + left. right. simpl in E. rewrite <- E. apply pmem_head.
            + right. rewrite map_app. apply in_or_app. auto. }
        destruct H as (Hi & Ht & Hc).
        split; [eapply incl_tran; [apply incl_tl, incl_refl | exact Hi]|]. split; [|exact Hc].
        intros q [<-|Hq].
        * right. eapply pmem_mono; [exact Hi | apply pmem_head].
        * apply Ht. rewrite map_app. apply in_or_app. auto.
  Qed.

  Lemma explore_start : forall f p V, ex f [(p, [])] [] = XOk V -> done V p /\ closed_set V.
  Proof.
    intros f p V H.
    destruct (explore_closed f _ _ V (fun q (F : In q []) => match F with end) H) as (_ & Ht & Hc).
    split; [apply Ht; left; reflexivity | exact Hc].
  Qed.

  (* [Good w p]: the word w is no counterexample for the pair p *)
  Variable rs : cls.
  Variable Good : bytes -> pair -> Prop.
  Hypothesis Hcover : forall c, exists d, In d reps /\ same_sig rs c d.
  Hypothesis triv_good : forall w p, triv p = true -> Good w p.
  Hypothesis nil_good : forall p, bad p = false -> Good [] p.
  Hypothesis cons_good : forall c w p, Good w (dp c p) -> Good (c :: w) p.

  Lemma closed_set_sound : forall V, closed_set V ->
    forall w p, done V p -> respects rs (fst p) -> respects rs (snd p) -> Good w p.
  Proof.
    intros V HV. induction w as [|c w IH]; intros p [Ht|Hp] R1 R2; try (apply triv_good; exact Ht);
      apply pmem_In in Hp; destruct (HV p Hp) as [Hb Hd].
    - apply nil_good, Hb.
    - (* derive by the representative of c's class *)
      destruct (Hcover c) as (d & Hd' & Hs). apply cons_good.
      unfold dp. rewrite (agree_deriv_eq _ c d (R1 c d Hs)), (agree_deriv_eq _ c d (R2 c d Hs)).
      apply IH; [exact (Hd d Hd') | |]; intros x y Hxy; apply agree_deriv; auto.
  Qed.
End Explore.

Definition is_ok (x : xres) : bool := match x with XOk _ => true | _ => false end.

Definition incl_triv (p : pair) : bool := is_emp (fst p).
Definition incl_bad (p : pair) : bool := nullable (fst p) && negb (nullable (snd p)).

Lemma incl_explored : forall reps f p V, explore f reps [(p, [])] [] = XOk V ->
  done incl_triv V p /\ closed_set reps incl_triv incl_bad V.
Proof.
  intros reps. apply (explore_start reps incl_triv incl_bad (fun f => explore f reps)); [reflexivity|].
  intros f [|[[a b] w] todo] seen; reflexivity.
Qed.

Local Opaque explore_fuel.

Theorem incl_sound : forall r1 r2,
  RegexIncl.incl r1 r2 = true -> forall w, matches r1 w -> matches r2 w.
Proof.
  intros r1 r2 H. unfold RegexIncl.incl, incl_with in H.
  set (rs := ranges r1 ++ ranges r2) in *.
  destruct (explore explore_fuel (representatives rs) [(r1, r2, [])] []) as [V| |] eqn:E; try discriminate.
  destruct (incl_explored _ _ _ _ E) as [Hs Hc]. intros w.
  apply (closed_set_sound (representatives rs) incl_triv incl_bad rs (fun w p => matches (fst p) w -> matches (snd p) w)
           (representatives_cover rs)) with (V := V) (p := (r1, r2)); auto.
  - intros u p Ht Hm. apply is_emp_true in Ht. rewrite Ht in Hm. destruct (matches_emp _ Hm).
  - intros p Hb Hm. apply nullable_correct. apply nullable_correct in Hm.
    unfold incl_bad in Hb. rewrite Hm in Hb. destruct (nullable (snd p)); [reflexivity|discriminate].
  - intros c u p Hg Hm. apply deriv_correct, Hg, deriv_correct, Hm.
  - apply ranges_respects, incl_appl, incl_refl.
  - apply ranges_respects, incl_appr, incl_refl.
Qed.

(* evaluating the exploration alone decides [incl] *)
Lemma incl_by_exploration : forall r1 r2, is_ok (incl_run r1 r2) = true -> RegexIncl.incl r1 r2 = true.
Proof.
  intros r1 r2. unfold incl_run, RegexIncl.incl, incl_with.
  destruct (explore _ _ _ _) as [V| |] eqn:E; try discriminate. intros _.
  destruct (incl_explored _ _ _ _ E) as [Hs Hc].
  apply andb_true_iff. split; [apply orb_true_iff; exact Hs|].
  apply forallb_forall. intros p Hp. destruct (Hc p Hp) as [Hb Hd].
  apply andb_true_iff. split.
  - unfold incl_bad in Hb. destruct (nullable (fst p)), (nullable (snd p)); auto.
  - apply forallb_forall. intros c Hc'. apply orb_true_iff. exact (Hd c Hc').
Qed.

Fixpoint strip_grp (r : re) : re :=
  match r with
  | Seq a b => Seq (strip_grp a) (strip_grp b)
  | Alt a b => Alt (strip_grp a) (strip_grp b)
  | Star a => Star (strip_grp a)
  | Rep a m n => Rep (strip_grp a) m n
  | Grp _ a => strip_grp a
  | _ => r
  end.

Lemma strip_grp_matches : forall r w, matches r w <-> matches (strip_grp r) w.
Proof.
  split; [induction 1; simpl; auto using matches|].
  revert w. induction r; simpl; intros w H; auto.
  - inversion H; subst; constructor; auto.
  - inversion H; subst; [apply MAltL|apply MAltR]; auto.
  - remember (Star (strip_grp r)) as s eqn:Es. induction H; inversion Es; subst; constructor; auto.
  - remember (Rep (strip_grp r) m n) as s eqn:Es. revert m n Es.
    induction H; intros; inversion Es; subst; constructor; auto.
  - constructor; auto.
Qed.
