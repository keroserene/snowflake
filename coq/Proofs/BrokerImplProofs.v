(* BrokerImplProofs.v — the matching machine over the two array heaps (Model/BrokerImpl.v [istep]: AddSnowflake
   pushes, matchSnowflake pops when Len() > 0, the waiter's timeout critical section reads the element's `index`
   and removes) refines the relational machine of Model/Broker.v [step] (pop = ANY waiting entry of the eligible
   pool with the smallest client count), and is enabled whenever the relational machine is.
   The simulation relation [Rel]: for each NAT class the multiset of (poll id, client count) in the slice is the
   relational pool {entries in the heap of that class}, the slice is heap ordered with every `index` = position,
   every element that left holds -1, and every poll that left the pool is among those. *)
From Coq Require Import List NArith ZArith Bool Arith Lia Permutation.
From Snow Require Import Proofs.GoHeapProofs Model.Broker Model.BrokerImpl.
From Snow Require Import Lib.ListFacts Proofs.BrokerLocal Proofs.BrokerSteps Proofs.BrokerThms Proofs.BrokerKeys
  Model.BrokerHeap Proofs.BrokerHeapProofs.
Import ListNotations.
Open Scope N_scope.

Definition in_class (unr : bool) (k : key) : bool :=
  let '(h, n, _) := k in h && Bool.eqb (is_unrestricted n) unr.

Fixpoint pool_from (i : nat) (unr : bool) (ks : list key) : list sf :=
  match ks with
  | [] => []
  | k :: r => (if in_class unr k then [(i, snd k)] else []) ++ pool_from (S i) unr r
  end.
Definition pool (unr : bool) (ks : list key) : list sf := pool_from 0 unr ks.

Lemma pool_from_app unr : forall a b i,
  pool_from i unr (a ++ b) = pool_from i unr a ++ pool_from (i + length a) unr b.
Proof.
  induction a as [|k a IH]; intros b i; cbn [app pool_from length].
  - rewrite Nat.add_0_r. reflexivity.
  - rewrite IH, <- app_assoc. replace (S i + length a)%nat with (i + S (length a))%nat by lia. reflexivity.
Qed.

Lemma pool_from_in unr : forall ks i q c, In (q, c) (pool_from i unr ks) ->
  (i <= q)%nat /\ exists h n, nth_error ks (q - i) = Some (h, n, c) /\ in_class unr (h, n, c) = true.
Proof.
  induction ks as [|[[h n] c0] r IH]; intros i q c H; cbn [pool_from] in H; [destruct H|].
  apply in_app_or in H. destruct H as [H|H].
  - destruct (in_class unr (h, n, c0)) eqn:E; [|destruct H]. destruct H as [H|[]]. cbn in H. injection H as <- <-.
    split; [lia|]. rewrite Nat.sub_diag. exists h, n. split; [reflexivity | exact E].
  - destruct (IH (S i) q c H) as [Hle [h' [n' [Hn He]]]]. split; [lia|]. exists h', n'.
    replace (q - i)%nat with (S (q - S i)) by lia. split; assumption.
Qed.

Lemma pool_from_intro unr : forall ks i j h n c, nth_error ks j = Some (h, n, c) -> in_class unr (h, n, c) = true ->
  In ((i + j)%nat, c) (pool_from i unr ks).
Proof.
  induction ks as [|k r IH]; intros i [|j] h n c Hn He; cbn [nth_error] in Hn; try discriminate; cbn [pool_from].
  - injection Hn as ->. rewrite He. rewrite Nat.add_0_r. left. reflexivity.
  - apply in_or_app. right. replace (i + S j)%nat with (S i + j)%nat by lia. eapply IH; eassumption.
Qed.

Lemma pool_from_clear unr : forall ks p i h n c, nth_error ks p = Some (h, n, c) -> in_class unr (h, n, c) = true ->
  Permutation (pool_from i unr ks) (((i + p)%nat, c) :: pool_from i unr (upd p kclear ks)).
Proof.
  induction ks as [|k r IH]; intros [|p] i h n c Hn He; cbn [nth_error] in Hn; try discriminate; cbn [upd pool_from].
  - injection Hn as ->. rewrite He. cbn [kclear in_class andb app snd]. rewrite Nat.add_0_r. apply Permutation_refl.
  - eapply Permutation_trans; [apply Permutation_app_head; apply (IH p (S i) h n c Hn He)|].
    replace (S i + p)%nat with (i + S p)%nat by lia. apply Permutation_sym. apply Permutation_middle.
Qed.

Lemma pool_from_clear_other unr : forall ks p i k, nth_error ks p = Some k -> in_class unr k = false ->
  pool_from i unr (upd p kclear ks) = pool_from i unr ks.
Proof.
  induction ks as [|k0 r IH]; intros [|p] i k Hn He; cbn [nth_error] in Hn; try discriminate; cbn [upd pool_from].
  - injection Hn as ->. rewrite He. destruct k as [[h n] c]. reflexivity.
  - rewrite (IH p (S i) k Hn He). reflexivity.
Qed.

Lemma in_class_other unr h n c : in_class unr (h, n, c) = true -> in_class (negb unr) (h, n, c) = false.
Proof. cbn. destruct h, (is_unrestricted n), unr; cbn; congruence. Qed.

Lemma nth_upd_clear (ks : list key) p q k : nth_error (upd p kclear ks) q = Some k ->
  (q = p /\ exists k0, nth_error ks p = Some k0 /\ k = kclear k0) \/ (q <> p /\ nth_error ks q = Some k).
Proof.
  intros H. destruct (nth_upd_inv kclear ks p q k H) as [[-> [x [Hx ->]]]|[Hne Hq]].
  - left. split; [reflexivity|]. exists x. split; [exact Hx | reflexivity].
  - right. split; [congruence | exact Hq].
Qed.

Record hrel (unr : bool) (h : sheap) (ks : list key) : Prop := {
  hr_ok : sheap_ok h;
  hr_perm : Permutation (map x_el (h_arr h)) (pool unr ks);
  hr_out : forall q hh n c, nth_error ks q = Some (hh, n, c) -> hh = false -> Bool.eqb (is_unrestricted n) unr = true ->
      exists x, In x (h_out h) /\ x_id x = q
}.

Lemma hrel_empty unr : hrel unr sheap_empty [].
Proof.
  constructor.
  - apply sheap_ok_empty.
  - apply Permutation_refl.
  - intros q hh n c H. destruct q; discriminate.
Qed.

Lemma xpush_contents h x : sheap_ok h -> Permutation (map x_el (xpush x (h_arr h))) (x :: map x_el (h_arr h)).
Proof.
  intros [Hi _]. destruct (xpush_sim (h_arr h) (map x_el (h_arr h)) x (conj eq_refl Hi)) as [-> _].
  apply lpush_perm.
Qed.

Lemma hrel_push unr h ks n cl : hrel unr h ks -> is_unrestricted n = unr ->
  hrel unr (mkh (xpush (length ks, cl) (h_arr h)) (h_out h)) (ks ++ [(true, n, cl)]).
Proof.
  intros [Hok Hperm Hout] Hn. constructor; cbn [h_arr h_out].
  - exact (xstep_ok h (HPush _) Hok).
  - eapply Permutation_trans; [apply xpush_contents; exact Hok|].
    unfold pool. rewrite pool_from_app. cbn [pool_from in_class snd andb]. rewrite Hn, Bool.eqb_reflx. cbn [app].
    eapply Permutation_trans; [apply perm_skip; exact Hperm|]. apply Permutation_cons_append.
  - intros q hh n0 c Hq Hh He. destruct (nth_error_snoc _ _ _ _ Hq) as [Ho|[_ E]]; [eapply Hout; eassumption | congruence].
Qed.

Lemma hrel_push_other unr h ks n cl : hrel unr h ks -> is_unrestricted n = negb unr ->
  hrel unr h (ks ++ [(true, n, cl)]).
Proof.
  intros [Hok Hperm Hout] Hn. constructor.
  - exact Hok.
  - unfold pool. rewrite pool_from_app. cbn [pool_from in_class snd andb]. rewrite Hn.
    replace (Bool.eqb (negb unr) unr) with false by (destruct unr; reflexivity). cbn [app]. rewrite app_nil_r. exact Hperm.
  - intros q hh n0 c Hq Hh He. destruct (nth_error_snoc _ _ _ _ Hq) as [Ho|[_ E]]; [eapply Hout; eassumption | congruence].
Qed.

(* an element with id p leaves the slice (popped or removed) and is appended to those that left *)
Lemma hrel_take unr h ks s' y : hrel unr h ks -> sheap_ok (mkh s' (h_out h ++ [y])) ->
  Permutation (map x_el (h_arr h)) (x_el y :: map x_el s') ->
  exists n c, x_el y = (x_id y, c) /\ nth_error ks (x_id y) = Some (true, n, c) /\ Bool.eqb (is_unrestricted n) unr = true /\
    hrel unr (mkh s' (h_out h ++ [y])) (upd (x_id y) kclear ks).
Proof.
  intros [Hok Hperm Hout] Hok' Hp.
  assert (Hin : In (x_el y) (pool unr ks)).
  { eapply Permutation_in; [exact Hperm|]. eapply Permutation_in; [apply Permutation_sym; exact Hp|]. left. reflexivity. }
  destruct (x_el y) as [p c] eqn:Ey. assert (Hid : x_id y = p) by (unfold x_id; rewrite Ey; reflexivity).
  destruct (pool_from_in unr ks 0 p c Hin) as [_ [hh [n [Hn He]]]]. rewrite Nat.sub_0_r in Hn.
  assert (Hh : hh = true) by (cbn in He; destruct hh; [reflexivity | discriminate]). subst hh.
  exists n, c. rewrite Hid. split; [reflexivity|]. split; [exact Hn|]. split; [cbn in He; exact He|].
  constructor; cbn [h_arr h_out].
  - exact Hok'.
  - pose proof (pool_from_clear unr ks p 0 true n c Hn He) as Hc. cbn [Nat.add] in Hc.
    apply (Permutation_cons_inv (a := (p, c))).
    eapply Permutation_trans; [apply Permutation_sym; exact Hp|].
    eapply Permutation_trans; [exact Hperm | exact Hc].
  - intros q hh n0 c0 Hq Hh He0. destruct (nth_upd_clear ks p q _ Hq) as [[-> _]|[Hne Hq']].
    + exists y. split; [apply in_or_app; right; left; reflexivity | exact Hid].
    + destruct (Hout q hh n0 c0 Hq' Hh He0) as [x [Hx Hxid]]. exists x. split; [apply in_or_app; left; exact Hx | exact Hxid].
Qed.

(* a poll of the OTHER class (or one that is not in the pool) is cleared *)
Lemma hrel_clear_other unr h ks p hh n c : hrel unr h ks -> nth_error ks p = Some (hh, n, c) ->
  Bool.eqb (is_unrestricted n) unr = false -> hrel unr h (upd p kclear ks).
Proof.
  intros [Hok Hperm Hout] Hn He. constructor.
  - exact Hok.
  - unfold pool. rewrite (pool_from_clear_other unr ks p 0 (hh, n, c) Hn); [exact Hperm|].
    cbn. rewrite He. apply andb_false_r.
  - intros q hh0 n0 c0 Hq Hh He0. destruct (nth_upd_clear ks p q _ Hq) as [[-> [k0 [Hk0 Hk]]]|[Hne Hq']].
    + rewrite Hn in Hk0. injection Hk0 as <-. cbn in Hk. injection Hk as _ <- _. congruence.
    + eapply Hout; eassumption.
Qed.

Definition Rel (st : istate) : Prop := forall unr, hrel unr (heap_sel unr st) (keys (i_s st)).

Lemma rel_init br : Rel (iinit br).
Proof. intros unr. destruct unr; apply hrel_empty. Qed.

Lemma heap_sel_set_same unr h st s' : heap_sel unr (heap_set unr h st s') = h.
Proof. destruct unr; reflexivity. Qed.
Lemma heap_sel_set_other unr h st s' : heap_sel (negb unr) (heap_set unr h st s') = heap_sel (negb unr) st.
Proof. destruct unr; reflexivity. Qed.
Lemma i_s_set unr h st s' : i_s (heap_set unr h st s') = s'.
Proof. destruct unr; reflexivity. Qed.

Lemma rel_same st s' : Rel st -> keys s' = keys (i_s st) -> Rel (mki s' (i_hu st) (i_hr st)).
Proof. intros R Hk unr. cbn [i_s]. rewrite Hk. specialize (R unr). destruct unr; exact R. Qed.

Lemma rel_set unr h st s' : hrel unr h (keys s') -> hrel (negb unr) (heap_sel (negb unr) st) (keys s') ->
  Rel (heap_set unr h st s').
Proof.
  intros H1 H2 u. rewrite i_s_set. destruct (Bool.bool_dec u unr) as [->|Hne].
  - rewrite heap_sel_set_same. exact H1.
  - assert (u = negb unr) by (destruct u, unr; try reflexivity; elim Hne; reflexivity). subst u.
    rewrite heap_sel_set_other. exact H2.
Qed.

Lemma eligible_class cn e : eligible cn e = in_class (negb (is_unrestricted cn)) (ekey e).
Proof. unfold eligible, in_class, ekey. destruct (e_inheap e), (is_unrestricted cn), (is_unrestricted (e_nat e)); reflexivity. Qed.

Lemma keys_nth_inv s p k : nth_error (keys s) p = Some k -> exists e, nth_error (entries s) p = Some e /\ k = ekey e.
Proof.
  unfold keys. rewrite nth_error_map. destruct (nth_error (entries s) p) as [e|]; [|discriminate].
  intros H. injection H as <-. exists e. split; reflexivity.
Qed.

(* a poll in the pool of a class is, under its index and with its client count, in the slice of that class *)
Lemma rel_in_slice st unr q e : Rel st -> nth_error (entries (i_s st)) q = Some e -> in_class unr (ekey e) = true ->
  exists z, In z (h_arr (heap_sel unr st)) /\ x_el z = (q, e_clients e).
Proof.
  intros R Hq El.
  assert (Hinp : In ((0 + q)%nat, e_clients e) (pool unr (keys (i_s st)))).
  { apply (pool_from_intro unr _ 0 q (e_inheap e) (e_nat e) (e_clients e)); [apply keys_nth; exact Hq | exact El]. }
  apply (Permutation_in _ (Permutation_sym (hr_perm _ _ _ (R unr)))) in Hinp.
  apply in_map_iff in Hinp. destruct Hinp as [z [Hz Hzin]]. exists z. split; assumption.
Qed.

(* matchSnowflake on a non-empty heap hands out a proxy the relational machine may hand out *)
Lemma pop_is_model_choice st cn h : Rel st -> h = heap_sel (negb (is_unrestricted cn)) st -> h_arr h <> [] ->
  exists y s', xpop (h_arr h) = (s', Some y) /\
    (exists e, nth_error (entries (i_s st)) (x_id y) = Some e /\
               eligible cn e && is_min cn (entries (i_s st)) e = true) /\
    hrel (negb (is_unrestricted cn)) (mkh s' (h_out h ++ [y])) (upd (x_id y) kclear (keys (i_s st))) /\
    hrel (is_unrestricted cn) (heap_sel (is_unrestricted cn) st) (upd (x_id y) kclear (keys (i_s st))).
Proof.
  intros R -> Hne. set (unr := negb (is_unrestricted cn)) in *.
  pose proof (R unr) as Hr.
  destruct (xpop_least_loaded _ (hr_ok _ _ _ Hr) Hne) as (y & s' & Hpop & Hidx & Hperm & Hmin & Hok').
  exists y, s'. split; [exact Hpop|].
  destruct (hrel_take unr _ _ s' y Hr Hok' Hperm) as (n & c & Ey & Hn & He & Hr').
  destruct (keys_nth_inv _ _ _ Hn) as [e [Hp Hk]].
  split; [|split; [exact Hr'|]].
  - exists e. split; [exact Hp|]. apply andb_true_intro. split.
    + rewrite eligible_class. fold unr. rewrite <- Hk. cbn. exact He.
    + unfold is_min. apply forallb_forall. intros e' Hin'. destruct (eligible cn e') eqn:El; [cbn|reflexivity].
      apply N.leb_le. destruct (In_nth_error _ _ Hin') as [q Hq].
      rewrite eligible_class in El. fold unr in El.
      destruct (rel_in_slice st unr q e' R Hq El) as [z [Hzin Hz]].
      specialize (Hmin z Hzin). rewrite Hz, Ey in Hmin. cbn [snd] in Hmin.
      assert (e_clients e = c) by (unfold ekey in Hk; congruence). congruence.
  - replace (is_unrestricted cn) with (negb unr) by (unfold unr; apply negb_involutive).
    eapply (hrel_clear_other (negb unr) _ _ (x_id y) true n c); [apply R | exact Hn|].
    destruct (is_unrestricted n), unr; cbn in *; congruence.
Qed.

Lemma pool_empty_of_rel st cn : Rel st -> h_arr (heap_sel (negb (is_unrestricted cn)) st) = [] ->
  pool_empty cn (entries (i_s st)) = true.
Proof.
  intros R Hnil. apply pool_empty_spec. intros e Hin. destruct (eligible cn e) eqn:El; [|reflexivity]. exfalso.
  destruct (In_nth_error _ _ Hin) as [q Hq]. rewrite eligible_class in El.
  destruct (rel_in_slice st _ q e R Hq El) as [z [Hzin _]]. rewrite Hnil in Hzin. destruct Hzin.
Qed.

Lemma find_app_l {A} (f : A -> bool) a b x : In x a -> f x = true -> exists y, find f (a ++ b) = Some y /\ In y a /\ f y = true.
Proof.
  induction a as [|z a IH]; intros Hin Hf; [destruct Hin|]. cbn [app find].
  destruct (f z) eqn:Ez.
  - exists z. repeat split; [left; reflexivity | exact Ez].
  - destruct Hin as [->|Hin]; [congruence|]. destruct (IH Hin Hf) as [y [Hy [Hya Hfy]]]. exists y. repeat split; [exact Hy | right; exact Hya | exact Hfy].
Qed.

Lemma find_app_r {A} (f : A -> bool) a b : (forall x, In x a -> f x = false) -> find f (a ++ b) = find f b.
Proof.
  induction a as [|z a IH]; intros H; [reflexivity|]. cbn [app find]. rewrite (H z (or_introl eq_refl)).
  apply IH. intros x Hx. apply H. right. exact Hx.
Qed.

(* the waiter's view of its own Snowflake: in the slice with index = position when the poll is in the pool, among
   the elements that left (index -1) otherwise *)
Lemma find_self st p e : Rel st -> nth_error (entries (i_s st)) p = Some e ->
  let h := heap_sel (is_unrestricted (e_nat e)) st in
  if e_inheap e then
    exists x i, find_x p h = Some x /\ nth_error (h_arr h) i = Some x /\ x_idx x = Z.of_nat i /\ x_id x = p
  else exists x, find_x p h = Some x /\ x_idx x = (-1)%Z.
Proof.
  intros R Hp h. pose proof (R (is_unrestricted (e_nat e))) as Hr. fold h in Hr.
  destruct Hr as [[Hidx [Hneg _]] Hperm Hout]. unfold find_x.
  destruct (e_inheap e) eqn:Eh.
  - destruct (rel_in_slice st (is_unrestricted (e_nat e)) p e R Hp) as [z [Hzin Hz]]; [unfold ekey; rewrite Eh; cbn; apply Bool.eqb_reflx|]. fold h in Hzin.
    destruct (find_app_l (fun x => Nat.eqb (x_id x) p) (h_arr h) (h_out h) z Hzin) as [y [Hy [Hya Hfy]]].
    { unfold x_id. rewrite Hz. cbn. apply Nat.eqb_refl. }
    destruct (In_nth_error _ _ Hya) as [i Hi]. exists y, i. apply Nat.eqb_eq in Hfy.
    repeat split; [exact Hy | exact Hi | apply Hidx; exact Hi | exact Hfy].
  - rewrite find_app_r.
    + destruct (Hout p false (e_nat e) (e_clients e)) as [x [Hx Hxid]].
      * pose proof (keys_nth _ _ _ Hp) as Hk. unfold ekey in Hk. rewrite Eh in Hk. exact Hk.
      * reflexivity.
      * apply Bool.eqb_reflx.
      * destruct (find (fun x0 => Nat.eqb (x_id x0) p) (h_out h)) as [y|] eqn:Ef.
        -- apply find_some in Ef. destruct Ef as [Hy _]. exists y. split; [reflexivity | apply Hneg; exact Hy].
        -- exfalso. apply (find_none _ _ Ef) in Hx. rewrite Hxid, Nat.eqb_refl in Hx. discriminate.
    + intros x Hx. destruct (Nat.eqb (x_id x) p) eqn:Ex; [|reflexivity]. exfalso. apply Nat.eqb_eq in Ex.
      assert (Hin : In (x_el x) (pool (is_unrestricted (e_nat e)) (keys (i_s st)))).
      { eapply Permutation_in; [exact Hperm | apply in_map; exact Hx]. }
      destruct (x_el x) as [q c] eqn:Exe. unfold x_id in Ex. rewrite Exe in Ex. cbn in Ex. subst q.
      destruct (pool_from_in _ _ 0 p c Hin) as [_ [hh [n [Hn He]]]]. rewrite Nat.sub_0_r in Hn.
      pose proof (keys_nth _ _ _ Hp) as Hk. unfold ekey in Hk. rewrite Eh in Hk.
      assert (Some (hh, n, c) = Some (false, e_nat e, e_clients e)) as Hxx by (transitivity (nth_error (keys (i_s st)) p); [symmetry; exact Hn | exact Hk]).
      injection Hxx as -> _ _. discriminate.
Qed.

(* heap.Remove at the element's own index takes exactly that element out *)
Lemma xremove_at h i x : sheap_ok h -> nth_error (h_arr h) i = Some x ->
  exists y s', xremove (h_arr h) i = (s', Some y) /\ x_el y = x_el x /\
    Permutation (map x_el (h_arr h)) (x_el y :: map x_el s') /\ sheap_ok (mkh s' (h_out h ++ [y])).
Proof.
  intros Hok Hx. pose proof Hok as [Hi [_ Hh]].
  assert (HR : xR (h_arr h) (map x_el (h_arr h))) by (split; [reflexivity | exact Hi]).
  assert (Hlt : (i < length (map x_el (h_arr h)))%nat) by (rewrite map_length; apply nth_error_Some; congruence).
  destruct (xremove_sim _ _ i HR Hlt) as (r & y & s' & l' & Hp & Hs & He & Hxi & [Hm' Hi']).
  assert (Hxl : nth_error (map x_el (h_arr h)) i = Some (x_el x)) by (rewrite nth_error_map, Hx; reflexivity).
  destruct (lremove_spec sf sf_less sf_irrefl sf_trans sf_negtrans _ i (x_el x) Hh Hxl) as [l2 [Hp2 [Hok2 Hperm]]].
  rewrite Hp in Hp2. injection Hp2 as <- Hr.
  exists y, s'. split; [exact Hs|]. split; [congruence|]. split; [rewrite Hm', He, Hr; exact Hperm|].
  apply sheap_ok_take; [exact Hok | exact Hi' | exact Hxi | rewrite Hm'; exact Hok2].
Qed.

Definition same_request (l l' : label) : Prop :=
  match l with
  | L_Client n ofp o _ => exists ch, l' = L_Client n ofp o ch
  | _ => l' = l
  end.

(* a label that [istep] hands to [step] as it is: the same step, and the heaps' keys do not move *)
Local Ltac plain_step H R :=
  match type of H with
  | option_map _ (step ?v ?s ?l) = Some _ =>
      let s1 := fresh "s1" in let E := fresh "E" in
      destruct (step v s l) as [s1|] eqn:E; [|discriminate]; cbn [option_map] in H; injection H as <-;
      split; [exists l; split; [exact E | first [reflexivity | eexists; reflexivity]]
             | apply rel_same; [exact R | rewrite (step_keys _ _ _ _ E); reflexivity]]
  end.

(* every step of the implementation-level machine is a step of the relational machine *)
Theorem istep_refines v st l st' : Rel st -> istep v st l = Some st' ->
  (exists l', step v (i_s st) l' = Some (i_s st') /\ same_request l l') /\ Rel st'.
Proof.
  intros R H. destruct l; cbn [istep] in H; try (plain_step H R).
  - (* Poll *)
    destruct (step v (i_s st) (L_Poll s n pt cl)) as [s1|] eqn:E; [|discriminate]. injection H as <-.
    split; [exists (L_Poll s n pt cl); rewrite i_s_set; split; [exact E | reflexivity]|].
    pose proof (step_keys _ _ _ _ E) as Hk. cbn [key_effect] in Hk.
    apply rel_set; rewrite Hk.
    + replace (length (entries (i_s st))) with (length (keys (i_s st))) by (unfold keys; apply map_length).
      apply hrel_push; [apply R | reflexivity].
    + apply hrel_push_other; [apply R | symmetry; apply negb_involutive].
  - (* WTimeoutCS *)
    destruct (nth_error (entries (i_s st)) p) as [e|] eqn:Hp; [|discriminate].
    destruct (e_w e) eqn:Ew; try discriminate.
    pose proof (find_self st p e R Hp) as Hf. cbn zeta in Hf.
    destruct (e_inheap e) eqn:Eh.
    + destruct Hf as (x & i & Hfx & Hi & Hxi & Hxid). rewrite Hfx in H.
      replace (x_idx x =? -1)%Z with false in H by (symmetry; apply Z.eqb_neq; lia).
      rewrite Hxi, Nat2Z.id in H.
      pose proof (R (is_unrestricted (e_nat e))) as Hr.
      destruct (xremove_at _ i x (hr_ok _ _ _ Hr) Hi) as (y & s' & Hrm & Hey & Hperm & Hok').
      rewrite Hrm in H. injection H as <-.
      assert (Hyid : x_id y = p) by (unfold x_id in *; rewrite Hey; exact Hxid).
      assert (E : step v (i_s st) (L_WTimeoutCS p) = Some (i_s (heap_set (is_unrestricted (e_nat e))
                    (mkh s' (h_out (heap_sel (is_unrestricted (e_nat e)) st) ++ [y])) st
                    {| entries := upd p (fun e0 => set_w (W_Done PNoMatch) (set_heap_live false false e0)) (entries (i_s st));
                       idmap := remove_key (e_sid e) (idmap (i_s st)); gauge := (gauge (i_s st) - 1)%Z;
                       bridges := bridges (i_s st); br_hist := br_hist (i_s st); next_cid := next_cid (i_s st);
                       next_aid := next_aid (i_s st); done_clients := done_clients (i_s st);
                       done_answers := done_answers (i_s st); answer_log := answer_log (i_s st) |}))).
      { rewrite i_s_set. cbn [step]. rewrite Hp, Ew, Eh. reflexivity. }
      split; [exists (L_WTimeoutCS p); split; [exact E | reflexivity]|].
      pose proof (step_keys _ _ _ _ E) as Hk. rewrite i_s_set in Hk. cbn [key_effect] in Hk.
      destruct (hrel_take _ _ _ s' y Hr Hok' Hperm) as (n & c & _ & Hn & He & Hr').
      apply rel_set; rewrite Hk; rewrite Hyid in *.
      * exact Hr'.
      * eapply (hrel_clear_other _ _ _ p true n c); [apply R | exact Hn|].
        destruct (is_unrestricted n), (is_unrestricted (e_nat e)); cbn in *; congruence.
    + destruct Hf as (x & Hfx & Hxi). rewrite Hfx, Hxi in H. cbn in H. injection H as <-.
      assert (E : step v (i_s st) (L_WTimeoutCS p) =
                  Some (with_entries (upd p (set_w (match v with V0 => W_Stuck | V1 => W_Late end)) (entries (i_s st))) (i_s st))).
      { cbn [step]. rewrite Hp, Ew, Eh. reflexivity. }
      split; [exists (L_WTimeoutCS p); split; [exact E | reflexivity]|].
      apply rel_same; [exact R|]. rewrite (step_keys _ _ _ _ E). cbn [key_effect]. apply upd_same.
      intros k Hk. rewrite (keys_nth _ _ _ Hp) in Hk. injection Hk as <-. apply kclear_out. exact Eh.
  - (* Client *)
    destruct (lookup (fp_of ofp) (bridges (i_s st))) as [u|] eqn:Hl.
    + destruct (h_arr (heap_sel (negb (is_unrestricted n)) st)) as [|a0 r0] eqn:Ha.
      * plain_step H R.
      * destruct (pop_is_model_choice st n _ R eq_refl) as (y & s' & Hpop & _ & Hr1 & Hr2); [rewrite Ha; discriminate|].
        rewrite Ha in Hpop. rewrite Hpop in H.
        destruct (step v (i_s st) (L_Client n ofp o (Some (x_id y)))) as [s1|] eqn:E; [|discriminate]. injection H as <-.
        split; [exists (L_Client n ofp o (Some (x_id y))); rewrite i_s_set; split; [exact E | eexists; reflexivity]|].
        pose proof (step_keys _ _ _ _ E) as Hk. cbn [key_effect] in Hk.
        apply rel_set; rewrite Hk; [exact Hr1 | rewrite negb_involutive; exact Hr2].
    + plain_step H R.
Qed.

(* ... and it never refuses a step the relational machine can take (for a client: with SOME choice) *)
Theorem istep_enabled v st l s' : Rel st -> step v (i_s st) l = Some s' -> exists st', istep v st l = Some st'.
Proof.
  intros R H. destruct l; cbn [istep]; try (rewrite H; eexists; reflexivity).
  - (* WTimeoutCS *)
    cbn [step] in H. destruct (nth_error (entries (i_s st)) p) as [e|] eqn:Hp; [|discriminate].
    destruct (e_w e) eqn:Ew; try discriminate.
    pose proof (find_self st p e R Hp) as Hf. cbn zeta in Hf. destruct (e_inheap e) eqn:Eh.
    + destruct Hf as (x & i & Hfx & Hi & Hxi & Hxid). rewrite Hfx.
      replace (x_idx x =? -1)%Z with false by (symmetry; apply Z.eqb_neq; lia). rewrite Hxi, Nat2Z.id.
      destruct (xremove_at _ i x (hr_ok _ _ _ (R (is_unrestricted (e_nat e)))) Hi) as (y & s1 & Hrm & _).
      rewrite Hrm. eexists. reflexivity.
    + destruct Hf as (x & Hfx & Hxi). rewrite Hfx, Hxi. cbn. eexists. reflexivity.
  - (* Client *)
    destruct (lookup (fp_of ofp) (bridges (i_s st))) as [u|] eqn:Hl.
    + destruct (h_arr (heap_sel (negb (is_unrestricted n)) st)) as [|a0 r0] eqn:Ha.
      * cbn [step]. rewrite Hl. rewrite (pool_empty_of_rel st n R Ha). cbn. eexists. reflexivity.
      * destruct (pop_is_model_choice st n _ R eq_refl) as (y & s1 & Hpop & [e [Hp Hel]] & _); [rewrite Ha; discriminate|].
        rewrite Ha in Hpop. rewrite Hpop. cbn [step]. rewrite Hl, Hp, Hel. eexists. reflexivity.
    + cbn [step] in H |- *. rewrite Hl in H |- *. destruct choice; [discriminate|]. cbn. eexists. reflexivity.
Qed.

Theorem irun_refines v br : forall ls st, irun v (iinit br) ls = Some st -> reachable v br (i_s st) /\ Rel st.
Proof.
  assert (G : forall ls st0 st, reachable v br (i_s st0) -> Rel st0 -> irun v st0 ls = Some st -> reachable v br (i_s st) /\ Rel st).
  { induction ls as [|l ls IH]; intros st0 st Hr R H; cbn [irun] in H.
    - injection H as <-. split; assumption.
    - destruct (istep v st0 l) as [st1|] eqn:E; [|discriminate].
      destruct (istep_refines v st0 l st1 R E) as [[l' [Hs _]] R1].
      eapply IH; [eapply reachable_step; eassumption | exact R1 | exact H]. }
  intros ls st H. apply (G ls (iinit br) st); [exists []; reflexivity | apply rel_init | exact H].
Qed.
