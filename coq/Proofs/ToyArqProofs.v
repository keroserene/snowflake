(* ToyArqProofs.v — a small concrete selective-repeat ARQ that satisfies the hypothesis [arq_safe] of
   Proofs/PacketPathProofs.v (Section ArqBoundary), so that the C01 stream theorems are not vacuous.

   This is NOT a model of kcp-go or smux: those stay behind the library boundary (hypothesis [arq_safe],
   exercised by the whole-system rig of lib/checks/c01.py). It is a reliable-stream layer with the shape of
   KCP's receive side (conversation id, sequence number, rcv_nxt, an out-of-order receive buffer that is
   drained as far as it is contiguous), small enough to be proved safe for ALL inputs, and non-trivial: it
   delivers the whole stream whenever every segment arrives (any order, any duplicates, foreign or
   undecodable segments mixed in), never re-delivers a duplicate and ignores foreign segments.

   Segment format (a [bytes] = list N):   conv :: sn :: payload
     conv : the session tag (conversation id), ONE list element of type N;
     sn   : the sequence number, ONE list element of type N ([N.of_nat i]; an element of a [bytes] is an
            unbounded N in Lib/Wire.v, so no fixed-width encoding and no wrap-around bound is needed:
            decode (encode conv i pl) = (conv, i, pl) for every i, lemma [toy_decode_seg]);
     payload : the rest (may be empty).
   A list shorter than two elements does not decode. *)
From Coq Require Import List NArith Bool Arith Lia.
From Snow Require Import Lib.Wire Proofs.CarrierProofs Proofs.PacketPathProofs.
Import ListNotations.
Local Open Scope nat_scope.

Definition toy_seg (conv : N) (i : nat) (pl : bytes) : bytes := conv :: N.of_nat i :: pl.

Definition toy_decode (p : bytes) : option (N * nat * bytes) :=
  match p with
  | c :: s :: pl => Some (c, N.to_nat s, pl)
  | _ => None
  end.

(* a segment the receiver of session [conv] has nothing to do with: undecodable, or of another session *)
Definition toy_foreign (conv : N) (p : bytes) : Prop :=
  match toy_decode p with
  | None => True
  | Some (c, _, _) => c <> conv
  end.

(* The sending endpoint cuts what it was written into segments in some way ([chunks]) and emits, in any order,
   any number of times, any subset of the numbered segments. *)
Definition toy_packets_of (conv : N) (written : bytes) (sent : list bytes) : Prop :=
  exists chunks : list bytes,
    concat chunks = written /\
    forall p, In p sent -> exists i, i < length chunks /\ p = toy_seg conv i (nth i chunks []).

(* out-of-order buffer: association list sequence number -> payload *)
Fixpoint toy_lookup (k : nat) (b : list (nat * bytes)) : option bytes :=
  match b with
  | [] => None
  | (i, pl) :: r => if Nat.eqb i k then Some pl else toy_lookup k r
  end.

Definition toy_mem (k : nat) (b : list (nat * bytes)) : bool :=
  match toy_lookup k b with Some _ => true | None => false end.

Fixpoint toy_remove (k : nat) (b : list (nat * bytes)) : list (nat * bytes) :=
  match b with
  | [] => []
  | (i, pl) :: r => if Nat.eqb i k then toy_remove k r else (i, pl) :: toy_remove k r
  end.

Record toy_state := { ta_next : nat;                 (* next expected sequence number (KCP: rcv_nxt) *)
                      ta_buf : list (nat * bytes);   (* received ahead of ta_next (KCP: rcv_buf) *)
                      ta_out : bytes }.              (* delivered to the application so far *)

Definition toy_init : toy_state := {| ta_next := 0; ta_buf := []; ta_out := [] |}.

(* move buffered segments to the output as far as they are contiguous; the fuel is the buffer length
   ([toy_drain_fuel_suffices]: it never runs out before the buffer stops being contiguous) *)
Fixpoint toy_drain (fuel next : nat) (buf : list (nat * bytes)) (out : bytes) : toy_state :=
  match fuel with
  | O => {| ta_next := next; ta_buf := buf; ta_out := out |}
  | S f =>
    match toy_lookup next buf with
    | Some pl => toy_drain f (S next) (toy_remove next buf) (out ++ pl)
    | None => {| ta_next := next; ta_buf := buf; ta_out := out |}
    end
  end.

Definition toy_step (conv : N) (st : toy_state) (p : bytes) : toy_state :=
  match toy_decode p with
  | None => st                                                          (* undecodable: dropped *)
  | Some (c, sn, pl) =>
    if negb (N.eqb c conv) then st                                      (* other session: dropped *)
    else if Nat.ltb sn (ta_next st) then st                             (* already delivered: duplicate *)
    else if Nat.eqb sn (ta_next st) then                                (* the expected one: deliver, drain *)
      toy_drain (length (ta_buf st)) (S (ta_next st)) (ta_buf st) (ta_out st ++ pl)
    else if toy_mem sn (ta_buf st) then st                              (* already buffered: duplicate *)
    else {| ta_next := ta_next st; ta_buf := (sn, pl) :: ta_buf st; ta_out := ta_out st |}
  end.

Definition toy_run (conv : N) (recv : list bytes) : toy_state := fold_left (toy_step conv) recv toy_init.

Definition toy_stream_of (conv : N) (recv : list bytes) : bytes := ta_out (toy_run conv recv).

Lemma toy_decode_seg conv i pl : toy_decode (toy_seg conv i pl) = Some (conv, i, pl).
Proof. unfold toy_decode, toy_seg. rewrite Nat2N.id. reflexivity. Qed.

Lemma toy_run_app conv l1 l2 : toy_run conv (l1 ++ l2) = fold_left (toy_step conv) l2 (toy_run conv l1).
Proof. unfold toy_run. apply fold_left_app. Qed.

Lemma toy_lookup_In k : forall b pl, toy_lookup k b = Some pl -> In (k, pl) b.
Proof.
  induction b as [|[i q] r IH]; intros pl H; cbn [toy_lookup] in H; [discriminate|].
  destruct (Nat.eqb_spec i k) as [->|Hne].
  - injection H as ->. left. reflexivity.
  - right. apply IH. exact H.
Qed.

Lemma toy_In_mem k pl : forall b, In (k, pl) b -> toy_mem k b = true.
Proof.
  unfold toy_mem. induction b as [|[i q] r IH]; intros H; [destruct H|]. cbn [toy_lookup].
  destruct (Nat.eqb_spec i k) as [_|Hne]; [reflexivity|].
  destruct H as [H|H]; [congruence|]. apply IH. exact H.
Qed.

Lemma toy_mem_In k b : toy_mem k b = true -> exists pl, In (k, pl) b.
Proof.
  unfold toy_mem. destruct (toy_lookup k b) as [pl|] eqn:E; [|discriminate].
  intros _. exists pl. apply toy_lookup_In. exact E.
Qed.

Lemma toy_mem_cons i j q b : toy_mem i ((j, q) :: b) = Nat.eqb j i || toy_mem i b.
Proof. unfold toy_mem. cbn [toy_lookup]. destruct (Nat.eqb j i); reflexivity. Qed.

Lemma toy_remove_In k : forall b i pl, In (i, pl) (toy_remove k b) -> In (i, pl) b /\ i <> k.
Proof.
  induction b as [|[j q] r IH]; intros i pl H; cbn [toy_remove] in H; [destruct H|].
  destruct (Nat.eqb_spec j k) as [->|Hne].
  - destruct (IH _ _ H) as [Hin Hik]. split; [right; exact Hin | exact Hik].
  - destruct H as [H|H].
    + injection H as <- <-. split; [left; reflexivity | exact Hne].
    + destruct (IH _ _ H) as [Hin Hik]. split; [right; exact Hin | exact Hik].
Qed.

Lemma toy_lookup_remove_other k i : i <> k -> forall b, toy_lookup i (toy_remove k b) = toy_lookup i b.
Proof.
  intros Hne. induction b as [|[j q] r IH]; [reflexivity|]. cbn [toy_remove toy_lookup].
  destruct (Nat.eqb_spec j k) as [->|Hjk].
  - destruct (Nat.eqb_spec k i) as [Hki|_]; [congruence | exact IH].
  - cbn [toy_lookup]. destruct (Nat.eqb_spec j i) as [_|_]; [reflexivity | exact IH].
Qed.

Lemma toy_remove_length_le k : forall b, length (toy_remove k b) <= length b.
Proof.
  induction b as [|[j q] r IH]; [cbn; lia|]. cbn [toy_remove].
  destruct (Nat.eqb j k); cbn [length]; lia.
Qed.

Lemma toy_remove_length_lt k : forall b pl, toy_lookup k b = Some pl -> length (toy_remove k b) < length b.
Proof.
  induction b as [|[j q] r IH]; intros pl H; cbn [toy_lookup] in H; [discriminate|]. cbn [toy_remove].
  destruct (Nat.eqb j k).
  - pose proof (toy_remove_length_le k r) as Hle. cbn [length]. lia.
  - specialize (IH _ H). cbn [length]. lia.
Qed.

Lemma concat_firstn_S (chunks : list bytes) : forall n, n < length chunks ->
  concat (firstn (S n) chunks) = concat (firstn n chunks) ++ nth n chunks [].
Proof.
  induction chunks as [|c r IH]; intros n H; [cbn in H; lia|].
  destruct n as [|n].
  - cbn. rewrite app_nil_r. reflexivity.
  - cbn [length] in H. rewrite !firstn_cons. cbn [concat nth]. rewrite IH by lia. rewrite app_assoc. reflexivity.
Qed.

Lemma toy_drain_spec : forall fuel next buf out,
  length buf <= fuel ->
  (forall i pl, In (i, pl) buf -> next <= i) ->
  next <= ta_next (toy_drain fuel next buf out) /\
  (forall i pl, In (i, pl) (ta_buf (toy_drain fuel next buf out)) ->
     ta_next (toy_drain fuel next buf out) < i /\ In (i, pl) buf) /\
  (forall i, toy_mem i buf = true ->
     i < ta_next (toy_drain fuel next buf out) \/ toy_mem i (ta_buf (toy_drain fuel next buf out)) = true).
Proof.
  induction fuel as [|f IH]; intros next buf out Hlen Hkeys.
  - destruct buf as [|x buf]; [|cbn [length] in Hlen; lia]. cbn [toy_drain ta_next ta_buf].
    split; [lia|]. split.
    + intros i pl [].
    + intros i H. discriminate H.
  - cbn [toy_drain]. destruct (toy_lookup next buf) as [pl0|] eqn:El.
    + assert (Hl : length (toy_remove next buf) <= f)
        by (pose proof (toy_remove_length_lt _ _ _ El); lia).
      assert (Hk : forall i pl, In (i, pl) (toy_remove next buf) -> S next <= i).
      { intros i pl Hin. destruct (toy_remove_In _ _ _ _ Hin) as [Hin' Hne].
        specialize (Hkeys _ _ Hin'). lia. }
      destruct (IH (S next) (toy_remove next buf) (out ++ pl0) Hl Hk) as [Hn [Hb Hm]].
      split; [lia|]. split.
      * intros i pl Hin. destruct (Hb _ _ Hin) as [Hlt Hin']. split; [exact Hlt|].
        apply (toy_remove_In _ _ _ _ Hin').
      * intros i Hmi. destruct (Nat.eq_dec i next) as [->|Hne]; [left; lia|].
        apply Hm. unfold toy_mem in *. rewrite toy_lookup_remove_other by exact Hne. exact Hmi.
    + cbn [ta_next ta_buf]. split; [lia|]. split.
      * intros i pl Hin. split; [|exact Hin]. specialize (Hkeys _ _ Hin).
        destruct (Nat.eq_dec i next) as [->|Hne]; [|lia].
        apply toy_In_mem in Hin. unfold toy_mem in Hin. rewrite El in Hin. discriminate.
      * intros i H. right. exact H.
Qed.

(* the fuel is enough: after the drain the buffer does not hold the next expected segment *)
Lemma toy_drain_fuel_suffices : forall next buf out,
  (forall i pl, In (i, pl) buf -> next <= i) ->
  toy_lookup (ta_next (toy_drain (length buf) next buf out)) (ta_buf (toy_drain (length buf) next buf out)) = None.
Proof.
  intros next buf out Hk.
  destruct (toy_drain_spec (length buf) next buf out (le_n _) Hk) as [_ [Hb _]].
  destruct (toy_lookup _ _) as [pl|] eqn:E; [|reflexivity].
  apply toy_lookup_In in E. destruct (Hb _ _ E) as [Hlt _]. lia.
Qed.

Definition toy_valid (chunks : list bytes) (buf : list (nat * bytes)) : Prop :=
  forall i pl, In (i, pl) buf -> i < length chunks /\ pl = nth i chunks [].

Definition toy_safe_inv (chunks : list bytes) (st : toy_state) : Prop :=
  ta_next st <= length chunks /\
  ta_out st = concat (firstn (ta_next st) chunks) /\
  toy_valid chunks (ta_buf st).

Lemma toy_drain_safe chunks : forall fuel next buf out,
  toy_valid chunks buf -> next <= length chunks -> out = concat (firstn next chunks) ->
  toy_safe_inv chunks (toy_drain fuel next buf out).
Proof.
  induction fuel as [|f IH]; intros next buf out Hv Hn Ho; cbn [toy_drain].
  - exact (conj Hn (conj Ho Hv)).
  - destruct (toy_lookup next buf) as [pl0|] eqn:El.
    + apply toy_lookup_In in El. destruct (Hv _ _ El) as [Hlt ->]. apply IH.
      * intros i pl Hin. apply Hv. apply (toy_remove_In _ _ _ _ Hin).
      * lia.
      * rewrite concat_firstn_S by exact Hlt. rewrite Ho. reflexivity.
    + exact (conj Hn (conj Ho Hv)).
Qed.

Lemma toy_step_safe conv chunks st i : toy_safe_inv chunks st -> i < length chunks ->
  toy_safe_inv chunks (toy_step conv st (toy_seg conv i (nth i chunks []))).
Proof.
  intros [Hn [Ho Hv]] Hi. unfold toy_step. rewrite toy_decode_seg, N.eqb_refl. cbn [negb].
  destruct (Nat.ltb_spec i (ta_next st)) as [Hlt|Hge]; [exact (conj Hn (conj Ho Hv))|].
  destruct (Nat.eqb_spec i (ta_next st)) as [->|Hne].
  - apply toy_drain_safe; [exact Hv | lia |].
    rewrite concat_firstn_S by exact Hi. rewrite Ho. reflexivity.
  - destruct (toy_mem i (ta_buf st)); [exact (conj Hn (conj Ho Hv))|].
    unfold toy_safe_inv. cbn [ta_next ta_out ta_buf]. split; [exact Hn|]. split; [exact Ho|].
    intros j pl [H|H].
    + injection H as <- <-. split; [exact Hi | reflexivity].
    + apply Hv. exact H.
Qed.

Lemma toy_step_foreign conv st p : toy_foreign conv p -> toy_step conv st p = st.
Proof.
  unfold toy_foreign, toy_step. destruct (toy_decode p) as [[[c sn] pl]|]; [|reflexivity].
  intros Hc. destruct (N.eqb_spec c conv) as [He|_]; [contradiction | reflexivity].
Qed.

Lemma toy_fold_safe conv chunks : forall recv st, toy_safe_inv chunks st ->
  (forall p, In p recv ->
     (exists i, i < length chunks /\ p = toy_seg conv i (nth i chunks [])) \/ toy_foreign conv p) ->
  toy_safe_inv chunks (fold_left (toy_step conv) recv st).
Proof.
  induction recv as [|p r IH]; intros st Hinv Hall; [exact Hinv|]. cbn [fold_left]. apply IH.
  - destruct (Hall p (or_introl eq_refl)) as [[i [Hi ->]]|Hf].
    + apply toy_step_safe; assumption.
    + rewrite toy_step_foreign by exact Hf. exact Hinv.
  - intros q Hq. apply Hall. right. exact Hq.
Qed.

Lemma toy_init_safe chunks : toy_safe_inv chunks toy_init.
Proof.
  unfold toy_safe_inv, toy_init. cbn [ta_next ta_out ta_buf firstn concat].
  split; [lia|]. split; [reflexivity|]. intros i pl [].
Qed.

Lemma concat_firstn_prefix (chunks : list bytes) n : is_prefix (concat (firstn n chunks)) (concat chunks).
Proof. exists (concat (skipn n chunks)). rewrite <- concat_app, firstn_skipn. reflexivity. Qed.

(* THE hypothesis of Section ArqBoundary, for the toy ARQ, for ALL inputs *)
Theorem toy_arq_safe : forall conv written sent recv,
  toy_packets_of conv written sent -> (forall p, In p recv -> In p sent) ->
  is_prefix (toy_stream_of conv recv) written.
Proof.
  intros conv written sent recv [chunks [Hc Hs]] Hsub.
  assert (Hinv : toy_safe_inv chunks (toy_run conv recv)).
  { apply toy_fold_safe; [apply toy_init_safe|]. intros p Hp. left. apply Hs, Hsub, Hp. }
  destruct Hinv as [_ [Ho _]]. unfold toy_stream_of. rewrite Ho, <- Hc. apply concat_firstn_prefix.
Qed.

Definition toy_seen_inv (conv : N) (l : list bytes) (st : toy_state) : Prop :=
  (forall i pl, In (i, pl) (ta_buf st) -> ta_next st < i) /\
  (forall p i pl, In p l -> toy_decode p = Some (conv, i, pl) ->
     i < ta_next st \/ toy_mem i (ta_buf st) = true).

Lemma toy_seen_ext conv l st st' p :
  toy_seen_inv conv l st ->
  (forall i pl, In (i, pl) (ta_buf st') -> ta_next st' < i) ->
  (forall i, i < ta_next st \/ toy_mem i (ta_buf st) = true ->
             i < ta_next st' \/ toy_mem i (ta_buf st') = true) ->
  (forall i pl, toy_decode p = Some (conv, i, pl) -> i < ta_next st' \/ toy_mem i (ta_buf st') = true) ->
  toy_seen_inv conv (l ++ [p]) st'.
Proof.
  intros [Hk Hs] Hk' Hmono Hnew. split; [exact Hk'|].
  intros q i pl Hin Hd. apply in_app_or in Hin. destruct Hin as [Hin|[<-|[]]].
  - apply Hmono. eapply Hs; eassumption.
  - eapply Hnew. exact Hd.
Qed.

(* the receiver state does not move: the segment is not of this session, or it was seen before *)
Lemma toy_seen_same conv l st p : toy_seen_inv conv l st ->
  (forall i pl, toy_decode p = Some (conv, i, pl) -> i < ta_next st \/ toy_mem i (ta_buf st) = true) ->
  toy_seen_inv conv (l ++ [p]) st.
Proof. intros Hinv H. apply (toy_seen_ext conv l st st p Hinv (proj1 Hinv)); [tauto | exact H]. Qed.

Lemma toy_step_seen conv l st p : toy_seen_inv conv l st -> toy_seen_inv conv (l ++ [p]) (toy_step conv st p).
Proof.
  intros Hinv. pose proof Hinv as [Hk Hs]. unfold toy_step.
  destruct (toy_decode p) as [[[c sn] pl]|] eqn:Ed.
  2:{ apply toy_seen_same; [exact Hinv | intros i pl Hd; congruence]. }
  destruct (N.eqb_spec c conv) as [->|Hc]; cbn [negb].
  2:{ apply toy_seen_same; [exact Hinv | intros i pl' Hd; congruence]. }
  destruct (Nat.ltb_spec sn (ta_next st)) as [Hlt|Hge].
  { apply toy_seen_same; [exact Hinv|]. intros i pl' Hd. rewrite Ed in Hd. injection Hd as <- _. left. exact Hlt. }
  destruct (Nat.eqb_spec sn (ta_next st)) as [He|Hne].
  { assert (Hk1 : forall i pl', In (i, pl') (ta_buf st) -> S (ta_next st) <= i)
      by (intros i pl' Hin; specialize (Hk _ _ Hin); lia).
    destruct (toy_drain_spec (length (ta_buf st)) (S (ta_next st)) (ta_buf st) (ta_out st ++ pl) (le_n _) Hk1)
      as [Hn [Hb Hm]].
    apply (toy_seen_ext conv l st _ p Hinv).
    - intros i pl' Hin. apply (Hb _ _ Hin).
    - intros i [Hi|Hi]; [left; lia | apply Hm; exact Hi].
    - intros i pl' Hd. rewrite Ed in Hd. injection Hd as <- _. left. lia. }
  destruct (toy_mem sn (ta_buf st)) eqn:Em.
  { apply toy_seen_same; [exact Hinv|]. intros i pl' Hd. rewrite Ed in Hd. injection Hd as <- _. right. exact Em. }
  apply (toy_seen_ext conv l st _ p Hinv); cbn [ta_next ta_buf].
  - intros i pl' [H|H]; [injection H as <- _; lia | apply (Hk _ _ H)].
  - intros i [Hi|Hi]; [left; exact Hi | right]. rewrite toy_mem_cons, Hi. apply orb_true_r.
  - intros i pl' Hd. rewrite Ed in Hd. injection Hd as <- _. right. rewrite toy_mem_cons, Nat.eqb_refl. reflexivity.
Qed.

Lemma toy_run_seen conv : forall l, toy_seen_inv conv l (toy_run conv l).
Proof.
  induction l as [|p l IH] using rev_ind.
  - split; [intros i pl [] | intros p i pl []].
  - rewrite toy_run_app. cbn [fold_left]. apply toy_step_seen. exact IH.
Qed.

(* a segment that was already handed to the receiver changes nothing when handed again *)
Lemma toy_step_dup conv l p : In p l -> toy_step conv (toy_run conv l) p = toy_run conv l.
Proof.
  intros Hin. destruct (toy_run_seen conv l) as [Hk Hs]. unfold toy_step.
  destruct (toy_decode p) as [[[c sn] pl]|] eqn:Ed; [|reflexivity].
  destruct (N.eqb_spec c conv) as [->|Hc]; cbn [negb]; [|reflexivity].
  destruct (Hs p sn pl Hin Ed) as [Hlt|Hm].
  - destruct (Nat.ltb_spec sn (ta_next (toy_run conv l))) as [_|Hge]; [reflexivity | lia].
  - destruct (toy_mem_In _ _ Hm) as [pl' Hb]. specialize (Hk _ _ Hb).
    destruct (Nat.ltb_spec sn (ta_next (toy_run conv l))) as [_|_]; [reflexivity|].
    destruct (Nat.eqb_spec sn (ta_next (toy_run conv l))) as [He|_]; [lia|].
    rewrite Hm. reflexivity.
Qed.

(* duplicates never change the receiver state, hence never the stream *)
Theorem toy_dup_ignored_state : forall conv l1 p l2 l3,
  toy_run conv (l1 ++ [p] ++ l2 ++ [p] ++ l3) = toy_run conv (l1 ++ [p] ++ l2 ++ l3).
Proof.
  intros conv l1 p l2 l3.
  replace (l1 ++ [p] ++ l2 ++ [p] ++ l3) with ((l1 ++ [p] ++ l2) ++ p :: l3)
    by (repeat rewrite <- app_assoc; reflexivity).
  replace (l1 ++ [p] ++ l2 ++ l3) with ((l1 ++ [p] ++ l2) ++ l3)
    by (repeat rewrite <- app_assoc; reflexivity).
  rewrite (toy_run_app conv (l1 ++ [p] ++ l2) (p :: l3)). cbn [fold_left].
  rewrite toy_step_dup by (apply in_or_app; right; left; reflexivity).
  rewrite <- toy_run_app. reflexivity.
Qed.

Theorem toy_dup_ignored : forall conv l1 p l2 l3,
  toy_stream_of conv (l1 ++ [p] ++ l2 ++ [p] ++ l3) = toy_stream_of conv (l1 ++ [p] ++ l2 ++ l3).
Proof. intros. unfold toy_stream_of. rewrite toy_dup_ignored_state. reflexivity. Qed.

(* a foreign or undecodable segment is ignored wherever it appears *)
Theorem toy_foreign_ignored : forall conv l1 p l2, toy_foreign conv p ->
  toy_stream_of conv (l1 ++ [p] ++ l2) = toy_stream_of conv (l1 ++ l2).
Proof.
  intros conv l1 p l2 Hf. unfold toy_stream_of. rewrite !toy_run_app. cbn [app fold_left].
  rewrite toy_step_foreign by exact Hf. reflexivity.
Qed.

(* a segment of another session is foreign *)
Lemma toy_other_conv_foreign conv c i pl : c <> conv -> toy_foreign conv (toy_seg c i pl).
Proof. intros H. unfold toy_foreign. rewrite toy_decode_seg. exact H. Qed.

(* completeness: when every segment of the segmentation arrives — in any order, any number of times,
   with foreign/undecodable segments anywhere in between — the whole stream is delivered. *)
Theorem toy_arq_complete : forall conv (chunks : list bytes) (recv : list bytes),
  (forall i, i < length chunks -> In (toy_seg conv i (nth i chunks [])) recv) ->
  (forall p, In p recv ->
     (exists i, i < length chunks /\ p = toy_seg conv i (nth i chunks [])) \/ toy_foreign conv p) ->
  toy_stream_of conv recv = concat chunks.
Proof.
  intros conv chunks recv Hall Honly.
  assert (Hinv : toy_safe_inv chunks (toy_run conv recv))
    by (apply toy_fold_safe; [apply toy_init_safe | exact Honly]).
  destruct Hinv as [Hn [Ho _]].
  destruct (toy_run_seen conv recv) as [Hk Hs].
  assert (Hfull : ta_next (toy_run conv recv) = length chunks).
  { destruct (Nat.eq_dec (ta_next (toy_run conv recv)) (length chunks)) as [He|Hne]; [exact He|].
    assert (Hlt : ta_next (toy_run conv recv) < length chunks) by lia.
    destruct (Hs _ _ _ (Hall _ Hlt) (toy_decode_seg _ _ _)) as [Hc|Hm]; [lia|].
    destruct (toy_mem_In _ _ Hm) as [pl' Hb]. specialize (Hk _ _ Hb). lia. }
  unfold toy_stream_of. rewrite Ho, Hfull, firstn_all. reflexivity.
Qed.

Theorem upstream_stream_prefix_toy : forall conv written sent cid (cs : list ucarrier) recv,
  length cid = 8 -> toy_packets_of conv written sent ->
  (forall c, In c cs -> wire_of (u_ps c) = Some (u_w c) /\ forall p, In p (u_ps c) -> In p sent) ->
  (forall p, In p recv -> exists c, In c cs /\ In p (queued_from cid (u_w c) (u_cut c))) ->
  is_prefix (toy_stream_of conv recv) written.
Proof.
  intros conv.
  exact (upstream_stream_prefix (toy_packets_of conv) (toy_stream_of conv) (toy_arq_safe conv)).
Qed.

Theorem downstream_stream_prefix_toy : forall conv written sent (cs : list dcarrier) recv,
  toy_packets_of conv written sent ->
  (forall c, In c cs -> wire_of (d_ps c) = Some (d_w c) /\ forall p, In p (d_ps c) -> In p sent) ->
  (forall p, In p recv -> exists c, In c cs /\ In p (read_from (d_w c) (d_cut c) (d_sc c))) ->
  is_prefix (toy_stream_of conv recv) written.
Proof.
  intros conv.
  exact (downstream_stream_prefix (toy_packets_of conv) (toy_stream_of conv) (toy_arq_safe conv)).
Qed.
