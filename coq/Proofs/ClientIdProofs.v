(* ClientIdProofs.v — the clientIDMap ring answers like the window of the last cap Sets (Model/ClientIdRing.v); the
   address sanitiser (Model/ClientAddr.v); which carrier a session is attributed to, over sequential histories
   (Model/ServerCarrier.v).  C18. *)
From Coq Require Import List NArith Bool Arith Lia.
From Snow Require Import Lib.Wire Lib.WireFacts Lib.ListFacts Model.ClientIdRing Model.ClientAddr Model.ServerCarrier.
Import ListNotations.
Open Scope nat_scope.

(* index of the slot holding the j-th most recent Set (j = 0 is the newest), for a ring of n
   slots whose next victim is o *)
Definition slot (n o j : nat) : nat := if j <? o then o - 1 - j else o + n - 1 - j.

(* split on every <? and =? test in the goal and the hypotheses *)
Local Ltac brk :=
  repeat match goal with
         | |- context [?a <? ?b] => destruct (Nat.ltb_spec a b)
         | |- context [?a =? ?b] => destruct (Nat.eqb_spec a b)
         | H : context [?a <? ?b] |- _ => destruct (Nat.ltb_spec a b)
         | H : context [?a =? ?b] |- _ => destruct (Nat.eqb_spec a b)
         end.

Lemma succ_mod : forall o n, o < n -> (o + 1) mod n = if o + 1 =? n then 0 else o + 1.
Proof.
  intros o n Ho. destruct (Nat.eqb_spec (o + 1) n) as [E | E].
  - rewrite E. apply Nat.mod_same. lia.
  - apply Nat.mod_small. lia.
Qed.

Definition nxt (n o : nat) : nat := if o + 1 =? n then 0 else o + 1.

Lemma nxt_lt : forall n o, o < n -> nxt n o < n.
Proof. intros n o H. unfold nxt. brk; lia. Qed.

Lemma slot_nxt_0 : forall n o, slot n (nxt n o) 0 = o.
Proof. intros n o. unfold slot, nxt. brk; lia. Qed.

Lemma slot_nxt_S : forall n o j, S j < n -> slot n (nxt n o) (S j) = slot n o j.
Proof. intros n o j Hj. unfold slot, nxt. brk; lia. Qed.

Lemma slot_eq_oldest : forall n o j, o < n -> j < n -> (slot n o j = o <-> j = n - 1).
Proof. intros n o j H Hj. unfold slot. brk; lia. Qed.

Lemma slot_lt : forall n o j, o < n -> slot n o j < n.
Proof. intros n o j H. unfold slot. brk; lia. Qed.

Section RingProofs.
  Variable A : Type.
  Variable nilA : A.

  Notation ringA := (ring A).
  Notation dflt := (0%N, nilA).
  Notation new := (new A nilA).
  Notation set := (set A nilA).
  Notation get := (get A nilA).
  Notation exec := (exec A nilA).
  Notation outputs := (outputs A nilA).
  Notation assoc := (assoc A).
  Notation sets_rev_aux := (sets_rev_aux A).
  Notation sets_rev := (sets_rev A).
  Notation spec_get := (spec_get A).
  Notation spec_outputs := (spec_outputs A).

  Lemma upd_length : forall {B} i (x : B) l, length (upd i x l) = length l.
  Proof. induction i; destruct l; cbn [upd length]; auto. Qed.

  Lemma nth_upd : forall {B} (l : list B) o i x dd, o < length l ->
    nth i (upd o x l) dd = if i =? o then x else nth i l dd.
  Proof.
    induction l as [| y l IH]; intros o i x dd Ho; cbn [length] in Ho; [lia |].
    destruct o as [| o]; destruct i as [| i]; cbn [upd nth Nat.eqb]; try reflexivity.
    apply IH. lia.
  Qed.

  Lemma cur_get_del_same : forall k m, cur_get k (cur_del k m) = None.
  Proof.
    induction m as [| [k' i] m IH]; [reflexivity |]. unfold cur_del in *. cbn [filter fst].
    destruct (N.eqb_spec k' k) as [E | E]; cbn [negb]; [exact IH |].
    cbn [ClientIdRing.cur_get]. destruct (N.eqb_spec k' k); [contradiction | exact IH].
  Qed.

  Lemma cur_get_del_other : forall k k' m, k' <> k -> cur_get k' (cur_del k m) = cur_get k' m.
  Proof.
    intros k k' m Hne. induction m as [| [k0 i] m IH]; [reflexivity |]. unfold cur_del in *. cbn [filter fst].
    destruct (N.eqb_spec k0 k) as [E | E]; cbn [negb ClientIdRing.cur_get].
    - subst k0. destruct (N.eqb_spec k k'); [congruence | exact IH].
    - destruct (N.eqb_spec k0 k'); [reflexivity | exact IH].
  Qed.

  Lemma cur_get_put : forall k i m k',
    cur_get k' (cur_put k i m) = if N.eqb k k' then Some i else cur_get k' m.
  Proof.
    intros k i m k'. unfold cur_put. cbn [ClientIdRing.cur_get].
    destruct (N.eqb_spec k k') as [E | E]; [reflexivity |]. apply cur_get_del_other. congruence.
  Qed.

  Lemma keys_del_incl : forall k m x, In x (map fst (cur_del k m)) -> In x (map fst m).
  Proof.
    intros k m x H. apply in_map_iff in H. destruct H as [p [Hp Hin]]. unfold cur_del in Hin.
    apply filter_In in Hin. apply in_map_iff. exists p. tauto.
  Qed.

  Lemma keys_del_notin : forall k m, ~ In k (map fst (cur_del k m)).
  Proof.
    intros k m H. apply in_map_iff in H. destruct H as [p [Hp Hin]]. unfold cur_del in Hin.
    apply filter_In in Hin. destruct Hin as [_ Hf]. rewrite Hp in Hf. rewrite N.eqb_refl in Hf. discriminate.
  Qed.

  Lemma nodup_del : forall k m, NoDup (map fst m) -> NoDup (map fst (cur_del k m)).
  Proof.
    intros k m. induction m as [| [k0 i] m IH]; intro H; [constructor |].
    cbn [map fst] in H. inversion H as [| ? ? Hnin Hnd]; subst. unfold cur_del in *. cbn [filter fst].
    destruct (N.eqb k0 k); cbn [negb]; [apply IH; exact Hnd |].
    cbn [map fst]. constructor; [| apply IH; exact Hnd].
    intro Hin. apply Hnin. eapply keys_del_incl. exact Hin.
  Qed.

  Lemma nodup_put : forall k i m, NoDup (map fst m) -> NoDup (map fst (cur_put k i m)).
  Proof.
    intros k i m H. unfold cur_put. cbn [map fst]. constructor; [apply keys_del_notin | apply nodup_del; exact H].
  Qed.

  Lemma key_in_get : forall k m, In k (map fst m) -> cur_get k m <> None.
  Proof.
    intros k m. induction m as [| [k0 i] m IH]; cbn [map fst In ClientIdRing.cur_get]; [tauto |].
    intros [E | Hin]; destruct (N.eqb_spec k0 k); try discriminate; try congruence. apply IH; exact Hin.
  Qed.

  Fixpoint fidx (k : N) (l : list (N * A)) : option nat :=
    match l with
    | [] => None
    | (k', _) :: l' => if N.eqb k' k then Some 0 else option_map S (fidx k l')
    end.

  Lemma fidx_lt : forall k l j, fidx k l = Some j -> j < length l.
  Proof.
    intros k l. induction l as [| [k' a] l IH]; intros j H; cbn [fidx] in H; [discriminate |].
    destruct (N.eqb k' k).
    - inversion H. cbn [length]. lia.
    - destruct (fidx k l) as [j0 |]; cbn [option_map] in H; [| discriminate].
      inversion H. cbn [length]. specialize (IH j0 eq_refl). lia.
  Qed.

  Lemma fidx_nth : forall k l j, fidx k l = Some j -> fst (nth j l dflt) = k.
  Proof.
    intros k l. induction l as [| [k' a] l IH]; intros j H; cbn [fidx] in H; [discriminate |].
    destruct (N.eqb_spec k' k) as [E | E].
    - inversion H. cbn [nth fst]. exact E.
    - destruct (fidx k l) as [j0 |]; cbn [option_map] in H; [| discriminate].
      inversion H. cbn [nth]. apply IH. reflexivity.
  Qed.

  Lemma assoc_firstn : forall k l n,
    assoc k (firstn n l) =
    match fidx k l with
    | Some j => if j <? n then Some (snd (nth j l dflt)) else None
    | None => None
    end.
  Proof.
    intros k l. induction l as [| [k' a] l IH]; intros n.
    - rewrite firstn_nil. reflexivity.
    - destruct n as [| n].
      + cbn [firstn ClientIdRing.assoc fidx]. destruct (N.eqb k' k); [reflexivity |].
        destruct (fidx k l); reflexivity.
      + cbn [firstn ClientIdRing.assoc fidx]. destruct (N.eqb k' k); [reflexivity |].
        rewrite IH. destruct (fidx k l) as [j |]; cbn [option_map]; [| reflexivity].
        cbn [nth]. change (S j <? S n) with (j <? n). reflexivity.
  Qed.

  Lemma fidx_in_firstn : forall k l j n, fidx k l = Some j -> j < n -> In k (map fst (firstn n l)).
  Proof.
    intros k l. induction l as [| [k' a] l IH]; intros j n H Hj; cbn [fidx] in H; [discriminate |].
    destruct n as [| n]; [lia |]. cbn [firstn map fst In].
    destruct (N.eqb_spec k' k) as [E | E]; [left; exact E |].
    destruct (fidx k l) as [j0 |]; cbn [option_map] in H; [| discriminate].
    inversion H; subst. right. apply (IH j0); [reflexivity | lia].
  Qed.

  (* the invariant tying the ring to the history of Sets (most recent first) *)

  Record inv (r : ringA) (h : list (N * A)) : Prop := {
    inv_old : oldest r < length (entries r);
    inv_ent : forall j, j < length (entries r) -> j < length h ->
              nth (slot (length (entries r)) (oldest r) j) (entries r) dflt = nth j h dflt;
    inv_cur : forall k, cur_get k (current r) =
              match fidx k h with
              | Some j => if j <? length (entries r) then Some (slot (length (entries r)) (oldest r) j) else None
              | None => None
              end;
    inv_nodup : NoDup (map fst (current r))
  }.

  Lemma inv_new : forall c, inv (new (S c)) [].
  Proof.
    intro c. constructor; cbn [new entries oldest current ClientIdRing.new].
    - rewrite repeat_length. lia.
    - intros j _ H. cbn [length] in H. lia.
    - intro k. reflexivity.
    - constructor.
  Qed.

  (* Set first forgets the id in the slot it is about to overwrite, unless that id has been set again
     since and lives elsewhere *)
  Definition evict (ek : N) (o : nat) (cur : cmap) : cmap :=
    match cur_get ek cur with
    | Some i => if Nat.eqb i o then cur_del ek cur else cur
    | None => cur
    end.

  Lemma evict_get : forall ek o cur k,
    cur_get k (evict ek o cur) =
    match cur_get k cur with Some i => if N.eqb ek k && (i =? o) then None else Some i | None => None end.
  Proof.
    intros ek o cur k. unfold evict. destruct (N.eqb_spec ek k) as [<- | Hne]; cbn [andb].
    - destruct (cur_get ek cur) as [i |] eqn:E; [| rewrite E; reflexivity].
      destruct (i =? o); [apply cur_get_del_same | rewrite E; reflexivity].
    - assert (Hsame : cur_get k (evict ek o cur) = cur_get k cur).
      { unfold evict. destruct (cur_get ek cur) as [i |]; [| reflexivity].
        destruct (i =? o); [apply cur_get_del_other; congruence | reflexivity]. }
      unfold evict in Hsame. rewrite Hsame. destruct (cur_get k cur); reflexivity.
  Qed.

  Lemma evict_nodup : forall ek o cur, NoDup (map fst cur) -> NoDup (map fst (evict ek o cur)).
  Proof.
    intros ek o cur H. unfold evict. destruct (cur_get ek cur) as [i |]; [| exact H].
    destruct (i =? o); [apply nodup_del; exact H | exact H].
  Qed.

  Lemma set_unfold : forall r k a, 0 < length (entries r) ->
    set r k a =
    let o := oldest r in
    mkRing A (upd o (k, a) (entries r)) ((o + 1) mod length (entries r))
           (cur_put k o (evict (fst (nth o (entries r) dflt)) o (current r))).
  Proof.
    intros r k a H. unfold ClientIdRing.set. destruct (length (entries r)) eqn:E; [lia | reflexivity].
  Qed.

  Lemma inv_set : forall r h k a, inv r h -> inv (set r k a) ((k, a) :: h).
  Proof.
    intros r h k a I. destruct I as [Iold Ient Icur Ind].
    assert (Hpos : 0 < length (entries r)) by lia.
    rewrite (set_unfold r k a Hpos). cbv zeta.
    set (n := length (entries r)) in *. set (o := oldest r) in *.
    set (ek := fst (nth o (entries r) dflt)).
    assert (Emod : (o + 1) mod n = nxt n o) by (apply succ_mod; exact Iold).
    (* how the map answers after the eviction: the entry for h[n-1], the one Set overwrites, is gone *)
    assert (Hcur1 : forall k', cur_get k' (evict ek o (current r)) =
              match fidx k' h with
              | Some j => if S j <? n then Some (slot n o j) else None
              | None => None
              end).
    { intro k'. rewrite evict_get, Icur. destruct (fidx k' h) as [j |] eqn:Ef; [| reflexivity].
      pose proof (fidx_lt _ _ _ Ef) as Hlt.
      destruct (Nat.ltb_spec j n) as [Hjn | Hjn]; [| destruct (Nat.ltb_spec (S j) n); [lia | reflexivity]].
      pose proof (slot_eq_oldest n o j Iold Hjn) as Hs.
      destruct (Nat.eqb_spec (slot n o j) o) as [E | E].
      - (* j = n - 1: the victim slot holds h[j], whose id is k' *)
        assert (Hek : ek = k') by (unfold ek; rewrite <- E, Ient by lia; eapply fidx_nth, Ef).
        rewrite Hek, N.eqb_refl. destruct (Nat.ltb_spec (S j) n); [lia | reflexivity].
      - rewrite andb_false_r. destruct (Nat.ltb_spec (S j) n); [reflexivity | lia]. }
    constructor; cbn [entries oldest current]; rewrite ?upd_length; fold n; rewrite ?Emod.
    - apply nxt_lt. exact Iold.
    - intros j Hj Hjh. destruct j as [| j].
      + rewrite slot_nxt_0. rewrite nth_upd by exact Iold. rewrite Nat.eqb_refl. reflexivity.
      + rewrite slot_nxt_S by lia. rewrite nth_upd by exact Iold.
        destruct (Nat.eqb_spec (slot n o j) o) as [E | E].
        * apply slot_eq_oldest in E; lia.
        * cbn [nth]. apply Ient; [lia |]. cbn [length] in Hjh. lia.
    - intro k'. rewrite cur_get_put. cbn [fidx].
      destruct (N.eqb_spec k k') as [E | E].
      + destruct (Nat.ltb_spec 0 n); [| lia]. rewrite slot_nxt_0. reflexivity.
      + rewrite Hcur1. destruct (fidx k' h) as [j |]; cbn [option_map]; [| reflexivity].
        destruct (Nat.ltb_spec (S j) n) as [Hsn | Hsn]; [| reflexivity].
        rewrite slot_nxt_S by lia. reflexivity.
    - apply nodup_put, evict_nodup. exact Ind.
  Qed.

  Lemma set_length : forall r k a, length (entries (set r k a)) = length (entries r).
  Proof.
    intros r k a. unfold ClientIdRing.set. destruct (length (entries r)) eqn:E; [exact E |].
    cbn [entries]. rewrite upd_length. exact E.
  Qed.

  Lemma inv_get : forall r h k, inv r h -> get r k = spec_get (length (entries r)) h k.
  Proof.
    intros r h k I. destruct I as [Iold Ient Icur Ind].
    unfold ClientIdRing.get, ClientIdRing.spec_get, window. rewrite assoc_firstn. rewrite Icur.
    destruct (fidx k h) as [j |] eqn:Ef; [| reflexivity].
    destruct (Nat.ltb_spec j (length (entries r))) as [Hj | Hj]; [| reflexivity].
    rewrite Ient; [reflexivity | exact Hj | eapply fidx_lt; exact Ef].
  Qed.

  (* the relation used for whole histories, capacity 0 included *)

  Definition rel (cap : nat) (r : ringA) (h : list (N * A)) : Prop :=
    match cap with
    | O => r = new 0
    | S _ => length (entries r) = cap /\ inv r h
    end.

  Lemma rel_new : forall cap, rel cap (new cap) [].
  Proof.
    intros [| c]; cbn [rel]; [reflexivity |]. split; [| apply inv_new].
    cbn [ClientIdRing.new entries]. apply repeat_length.
  Qed.

  Lemma rel_set : forall cap r h k a, rel cap r h -> rel cap (set r k a) ((k, a) :: h).
  Proof.
    intros [| c] r h k a; cbn [rel].
    - intro E. subst r. reflexivity.
    - intros [El I]. split; [rewrite set_length; exact El | apply inv_set; exact I].
  Qed.

  Lemma rel_get : forall cap r h k, rel cap r h -> get r k = spec_get cap h k.
  Proof.
    intros [| c] r h k; cbn [rel].
    - intro E. subst r. reflexivity.
    - intros [El I]. rewrite <- El. apply inv_get. exact I.
  Qed.

  Lemma rel_exec : forall cap ops r h, rel cap r h -> rel cap (exec r ops) (sets_rev_aux h ops).
  Proof.
    intros cap ops. induction ops as [| [k a | k] ops IH]; intros r h R.
    - exact R.
    - cbn [ClientIdRing.exec fold_left step ClientIdRing.sets_rev_aux]. apply IH. apply rel_set. exact R.
    - cbn [ClientIdRing.exec fold_left step ClientIdRing.sets_rev_aux]. apply IH. exact R.
  Qed.

  Theorem ring_refines_window : forall cap ops k,
    get (exec (new cap) ops) k = spec_get cap (sets_rev ops) k.
  Proof.
    intros cap ops k. apply rel_get. unfold ClientIdRing.sets_rev. apply rel_exec. apply rel_new.
  Qed.

  Lemma rel_outputs : forall cap ops r h, rel cap r h -> outputs r ops = spec_outputs cap h ops.
  Proof.
    intros cap ops. induction ops as [| [k a | k] ops IH]; intros r h R.
    - reflexivity.
    - cbn [ClientIdRing.outputs ClientIdRing.spec_outputs]. apply IH. apply rel_set. exact R.
    - cbn [ClientIdRing.outputs ClientIdRing.spec_outputs]. f_equal; [apply rel_get; exact R | apply IH; exact R].
  Qed.

  Theorem ring_trace_refines_window : forall cap ops,
    outputs (new cap) ops = spec_outputs cap [] ops.
  Proof. intros cap ops. apply rel_outputs. apply rel_new. Qed.

  Lemma rel_bounded : forall cap r h, rel cap r h ->
    length (entries r) = cap /\ length (current r) <= cap /\ NoDup (map fst (current r)) /\
    (cap <> 0 -> oldest r < cap).
  Proof.
    intros [| c] r h; cbn [rel].
    - intro E. subst r. cbn. repeat split; try lia. constructor.
    - intros [El I]. destruct I as [Iold Ient Icur Ind]. repeat split; try assumption; try lia.
      rewrite <- (map_length fst).
      transitivity (length (map fst (firstn (S c) h))).
      + apply NoDup_incl_length; [exact Ind |]. intros k Hin.
        pose proof (key_in_get _ _ Hin) as Hne. rewrite Icur in Hne.
        destruct (fidx k h) as [j |] eqn:Ef; [| congruence].
        rewrite El in Hne. destruct (Nat.ltb_spec j (S c)) as [Hj | Hj]; [| congruence].
        eapply fidx_in_firstn; eassumption.
      + rewrite map_length. apply firstn_le_length.
  Qed.

  Theorem ring_bounded : forall cap ops,
    let r := exec (new cap) ops in
    length (entries r) = cap /\ length (current r) <= cap /\ NoDup (map fst (current r)) /\
    (cap <> 0 -> oldest r < cap).
  Proof. intros cap ops. cbv zeta. eapply rel_bounded. apply rel_exec. apply rel_new. Qed.

  (* the indices used by Set and Get are inside the slots: the defaults of [nth] in the model are
     never what is read *)
  Lemma rel_indices : forall cap r h k i, rel cap r h -> cur_get k (current r) = Some i -> i < cap.
  Proof.
    intros [| c] r h k i; cbn [rel].
    - intro E. subst r. cbn. discriminate.
    - intros [El I] Hg. destruct I as [Iold Ient Icur Ind]. rewrite Icur in Hg.
      destruct (fidx k h) as [j |]; [| discriminate]. rewrite El in Hg.
      destruct (Nat.ltb_spec j (S c)) as [Hj | Hj]; [| discriminate].
      inversion Hg. apply slot_lt; lia.
  Qed.

  Theorem ring_indices_in_range : forall cap ops k i,
    cur_get k (current (exec (new cap) ops)) = Some i -> i < length (entries (exec (new cap) ops)).
  Proof.
    intros cap ops k i H. pose proof (rel_exec cap ops (new cap) [] (rel_new cap)) as R.
    destruct (rel_bounded cap _ _ R) as [El _]. rewrite El. eapply rel_indices; eassumption.
  Qed.

  Theorem ring_cap0 : forall ops k, exec (new 0) ops = new 0 /\ get (exec (new 0) ops) k = None.
  Proof.
    intros ops k. pose proof (rel_exec 0 ops (new 0) [] (rel_new 0)) as R. cbn [rel] in R.
    rewrite R. split; reflexivity.
  Qed.

  (* an id read back is one that was Set, with the address of that Set *)
  Lemma assoc_in : forall k l a, assoc k l = Some a -> In (k, a) l.
  Proof.
    intros k l a. induction l as [| [k' a'] l IH]; cbn [ClientIdRing.assoc]; [discriminate |].
    destruct (N.eqb_spec k' k) as [E | E]; intro H.
    - inversion H; subst. left. reflexivity.
    - right. apply IH. exact H.
  Qed.
End RingProofs.

Lemma join_host_port_suffix : forall h p, exists pre, join_host_port h p = pre ++ [COLON] ++ p.
Proof.
  intros h p. unfold join_host_port. destruct (existsb (N.eqb COLON) h).
  - exists ([91%N] ++ h ++ [93%N]). rewrite <- !app_assoc. reflexivity.
  - exists h. reflexivity.
Qed.

Lemma join_host_port_nonempty : forall h p, join_host_port h p <> [].
Proof.
  intros h p. destruct (join_host_port_suffix h p) as [pre E]. rewrite E.
  intro H. apply app_eq_nil in H. destruct H as [_ H]. discriminate.
Qed.

Lemma unspecified_iff : forall ip, unspecified ip = true <-> ip = v4zero \/ ip = zero16.
Proof.
  intro ip. unfold unspecified. rewrite orb_true_iff, !beq_eq. tauto.
Qed.

Theorem sanitise_spec : forall p,
  (sanitise p = [] <-> p = Absent \/ p = Unparsable \/ exists ip, p = Parsed ip /\ (ip = v4zero \/ ip = zero16)) /\
  (forall ip, p = Parsed ip -> ip <> v4zero -> ip <> zero16 ->
     sanitise p = join_host_port (ip_string ip) stub_port /\
     exists pre, sanitise p = pre ++ [COLON; 49%N]).
Proof.
  intro p. split.
  - destruct p as [| | ip]; cbn [sanitise].
    + split; [intros _; left; reflexivity | reflexivity].
    + split; [intros _; right; left; reflexivity | reflexivity].
    + destruct (unspecified ip) eqn:U.
      * split; [| reflexivity]. intros _. right. right. exists ip. split; [reflexivity |].
        apply unspecified_iff. exact U.
      * split.
        -- intro H. exfalso. eapply join_host_port_nonempty. exact H.
        -- intros [H | [H | [ip' [E Hu]]]]; try discriminate. inversion E; subst ip'.
           apply unspecified_iff in Hu. congruence.
  - intros ip E H1 H2. subst p. cbn [sanitise].
    destruct (unspecified ip) eqn:U.
    + apply unspecified_iff in U. tauto.
    + split; [reflexivity |]. destruct (join_host_port_suffix (ip_string ip) stub_port) as [pre Ep].
      exists pre. exact Ep.
Qed.

Definition lift (cs : list (N * param)) : list (N * addr) := map (fun c => (fst c, AStr (sanitise (snd c)))) cs.

Lemma assoc_lift : forall k cs,
  assoc addr k (lift cs) = option_map (fun p => AStr (sanitise p)) (assoc param k cs).
Proof.
  intros k cs. induction cs as [| [k' p] cs IH]; [reflexivity |].
  cbn [lift map fst snd assoc]. destruct (N.eqb k' k); [reflexivity | exact IH].
Qed.

Lemma firstn_lift : forall n cs, firstn n (lift cs) = lift (firstn n cs).
Proof. intros n cs. unfold lift. apply firstn_map. Qed.

Lemma rel_accept : forall cap r cs cid, rel addr ANil cap r (lift cs) -> accept r cid = spec_attr cap cs cid.
Proof.
  intros cap r cs cid R. unfold accept, spec_attr. rewrite (rel_get addr ANil cap r (lift cs) cid R).
  unfold spec_get, window. rewrite firstn_lift, assoc_lift.
  destruct (assoc param cid (firstn cap cs)); reflexivity.
Qed.

Lemma rel_state : forall cap pre r cs, rel addr ANil cap r (lift cs) ->
  rel addr ANil cap (fold_left ev_step pre r) (lift (carriers_rev_aux cs pre)).
Proof.
  intros cap pre. induction pre as [| [cid p | cid | k] pre IH]; intros r cs R.
  - exact R.
  - cbn [fold_left ev_step carriers_rev_aux]. apply IH. unfold carrier_step.
    change (lift ((cid, p) :: cs)) with ((cid, AStr (sanitise p)) :: lift cs). apply rel_set. exact R.
  - cbn [fold_left ev_step carriers_rev_aux]. apply IH. exact R.
  - cbn [fold_left ev_step carriers_rev_aux]. apply IH. exact R.
Qed.

Theorem attribution_spec : forall cap pre cid,
  accept (state_after cap pre) cid = spec_attr cap (carriers_rev pre) cid.
Proof.
  intros cap pre cid. apply rel_accept. unfold state_after, carriers_rev.
  apply (rel_state cap pre (new addr ANil cap) []). apply rel_new.
Qed.

Lemma attributions_spec_gen : forall cap evs r cs, rel addr ANil cap r (lift cs) ->
  attributions accept r evs = spec_attributions cap cs evs.
Proof.
  intros cap evs. induction evs as [| [cid p | cid | k] evs IH]; intros r cs R.
  - reflexivity.
  - cbn [attributions spec_attributions]. apply IH. unfold carrier_step.
    change (lift ((cid, p) :: cs)) with ((cid, AStr (sanitise p)) :: lift cs). apply rel_set. exact R.
  - cbn [attributions spec_attributions]. f_equal; [eapply rel_accept; exact R | apply IH; exact R].
  - cbn [attributions spec_attributions]. apply IH. exact R.
Qed.

Lemma attributions_app : forall acc pre r cid post,
  attributions acc r (pre ++ Accept cid :: post) =
  attributions acc r pre ++ acc (fold_left ev_step pre r) cid :: attributions acc (fold_left ev_step pre r) post.
Proof.
  intros acc pre. induction pre as [| [c p | c | k] pre IH]; intros r cid post.
  - reflexivity.
  - cbn [app attributions fold_left ev_step]. apply IH.
  - cbn [app attributions fold_left ev_step]. rewrite IH. reflexivity.
  - cbn [app attributions fold_left ev_step]. apply IH.
Qed.

Lemma carriers_rev_aux_in : forall pre cs c p,
  In (c, p) (carriers_rev_aux cs pre) -> In (c, p) cs \/ In (Carrier c p) pre.
Proof.
  induction pre as [| [c0 p0 | c0 | k0] pre IH]; intros cs c p H; cbn [carriers_rev_aux] in H.
  - left. exact H.
  - apply IH in H. destruct H as [[E | H] | H].
    + inversion E; subst. right. left. reflexivity.
    + left. exact H.
    + right. right. exact H.
  - apply IH in H. destruct H as [H | H]; [left; exact H | right; right; exact H].
  - apply IH in H. destruct H as [H | H]; [left; exact H | right; right; exact H].
Qed.

Theorem never_foreign : forall cap pre cid,
  accept (state_after cap pre) cid = AStr [] \/
  exists p, In (Carrier cid p) pre /\ accept (state_after cap pre) cid = AStr (sanitise p).
Proof.
  intros cap pre cid. rewrite attribution_spec. unfold spec_attr.
  destruct (assoc param cid (firstn cap (carriers_rev pre))) as [p |] eqn:E; [| left; reflexivity].
  right. exists p. split; [| reflexivity].
  apply assoc_in in E. apply In_firstn_subset in E. unfold carriers_rev in E.
  apply carriers_rev_aux_in in E. destruct E as [[] | E]. exact E.
Qed.

(* every connection of a session carries the address looked up when the session was established, whatever
   carriers / evictions / other sessions come later *)

Lemma conns_in_sessions : forall acc evs r sess k a,
  In (k, a) (conns acc r sess evs) -> nth_error (sess ++ attributions acc r evs) k = Some a.
Proof.
  intros acc evs. induction evs as [| [cid p | cid | j] evs IH]; intros r sess k a H.
  - destruct H.
  - cbn [conns attributions] in *. apply IH. exact H.
  - cbn [conns attributions] in *. destruct H as [E | H].
    + inversion E; subst. rewrite nth_error_app2 by lia. rewrite Nat.sub_diag. reflexivity.
    + apply IH in H. rewrite <- app_assoc in H. exact H.
  - cbn [conns attributions] in *. destruct (nth_error sess j) as [a0 |] eqn:E.
    + destruct H as [E' | H]; [| apply IH; exact H].
      inversion E'; subst. rewrite nth_error_app1; [exact E |].
      apply nth_error_Some. rewrite E. discriminate.
    + apply IH. exact H.
Qed.

Theorem conns_session_fixed : forall cap evs k a,
  In (k, a) (run_conns cap evs) -> nth_error (run cap evs) k = Some a.
Proof. intros cap evs k a H. unfold run_conns in H. apply conns_in_sessions in H. exact H. Qed.

Lemma conns_app : forall acc pre r sess post,
  conns acc r sess (pre ++ post) =
  conns acc r sess pre ++ conns acc (fold_left ev_step pre r) (sess ++ attributions acc r pre) post.
Proof.
  intros acc pre. induction pre as [| [cid p | cid | j] pre IH]; intros r sess post.
  - cbn [app conns attributions fold_left]. rewrite app_nil_r. reflexivity.
  - cbn [app conns attributions fold_left ev_step]. apply IH.
  - cbn [app conns attributions fold_left ev_step]. rewrite IH. rewrite <- app_assoc. reflexivity.
  - cbn [app conns attributions fold_left ev_step]. destruct (nth_error sess j); rewrite IH; reflexivity.
Qed.

(* the pinned acceptStreams: a ClientID that a carrier did present, but that cap later carriers pushed out of
   the map, gets a nil address *)

Definition flood (cap : nat) : list event :=
  Carrier 1%N (Parsed (repeat 0%N 10 ++ [255; 255; 1; 2; 3; 4]%N)) :: repeat (Carrier 2%N Absent) cap.

Lemma assoc_repeat_other : forall A k k' (a : A) n, k' <> k -> assoc A k (repeat (k', a) n) = None.
Proof.
  intros A k k' a n Hne. induction n as [| n IH]; [reflexivity |].
  cbn [repeat assoc]. destruct (N.eqb_spec k' k); [contradiction | exact IH].
Qed.

Lemma carriers_rev_aux_repeat : forall n c p cs,
  carriers_rev_aux cs (repeat (Carrier c p) n) = repeat (c, p) n ++ cs.
Proof.
  induction n as [| n IH]; intros c p cs; [reflexivity |].
  cbn [repeat carriers_rev_aux]. rewrite IH.
  change ((c, p) :: cs) with ([(c, p)] ++ cs). rewrite app_assoc. f_equal.
  change ((c, p) :: repeat (c, p) n) with (repeat (c, p) (S n)).
  rewrite <- repeat_cons. reflexivity.
Qed.

Lemma v0_get_none : forall cap pre cid,
  get addr ANil (state_after cap pre) cid = None -> accept_v0 (state_after cap pre) cid = ANil.
Proof. intros cap pre cid H. unfold accept_v0. rewrite H. reflexivity. Qed.

Theorem v0_forgotten_nil_flood : forall cap,
  In (Carrier 1%N (Parsed (repeat 0%N 10 ++ [255; 255; 1; 2; 3; 4]%N))) (flood cap) /\
  useraddr (accept_v0 (state_after cap (flood cap)) 1%N) = None.
Proof.
  intro cap. split; [left; reflexivity |].
  rewrite v0_get_none; [reflexivity |].
  pose proof (rel_state cap (flood cap) (new addr ANil cap) [] (rel_new addr ANil cap)) as R.
  unfold state_after. rewrite (rel_get addr ANil cap _ _ 1%N R). unfold spec_get, window.
  rewrite firstn_lift, assoc_lift. unfold flood. cbn [carriers_rev_aux].
  rewrite carriers_rev_aux_repeat. rewrite firstn_app. rewrite repeat_length, Nat.sub_diag.
  cbn [firstn]. rewrite app_nil_r. rewrite firstn_all2 by (rewrite repeat_length; lia).
  rewrite assoc_repeat_other by discriminate. reflexivity.
Qed.

Lemma conns_h_strip : forall acc hevs r sess,
  conns_h acc r sess hevs = conns acc r sess (strip_ends hevs).
Proof.
  intros acc hevs. induction hevs as [|h t IH]; intros r sess; [reflexivity|].
  destruct h as [[cid p|cid|k]|k]; cbn [conns_h strip_ends conns].
  - apply IH.
  - f_equal. apply IH.
  - destruct (nth_error sess k); [f_equal|]; apply IH.
  - apply IH.
Qed.

Lemma run_conns_h_strip : forall cap hevs, run_conns_h cap hevs = run_conns cap (strip_ends hevs).
Proof. intros. unfold run_conns_h, run_conns. apply conns_h_strip. Qed.

Lemma hstate_after_strip_gen : forall hevs r, fold_left hev_step hevs r = fold_left ev_step (strip_ends hevs) r.
Proof.
  induction hevs as [|h t IH]; intros r; [reflexivity|].
  destruct h as [e|k]; cbn [fold_left strip_ends hev_step]; apply IH.
Qed.

Lemma hstate_after_strip : forall cap hevs, hstate_after cap hevs = state_after cap (strip_ends hevs).
Proof. intros. unfold hstate_after, state_after. apply hstate_after_strip_gen. Qed.

