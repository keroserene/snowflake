(* ProxyRelayProofs.v — C06, proxy side, end to end (Model/ProxyRelay.v): the host the websocket dialer connects
   to is the host runSession checked; TLS is used unless non-TLS relays were allowed; one SnowflakeProxy over
   its life time decides every relay URL by its configuration and that URL alone. *)
From Coq Require Import List NArith Bool Arith.
From Snow Require Import Lib.Wire Lib.WireFacts Model.NameMatcher Model.RelayCheck Model.ProxyRelay Proofs.NameMatcherProofs.
Import ListNotations.
Open Scope N_scope.

(* What is assumed of net/url (a library boundary, checked on every generated URL by the harness: driver op
   urlparse2): if a string parses, and the string printed from that parse with the client_ip query set parses
   again, the second parse has the scheme and the host name of the first.  Nothing is assumed of strings that
   do not parse, nor is it assumed that the printed string parses. *)
Definition redial_preserves (lib : urllib) : Prop :=
  forall raw ip sch h sch' h',
    ul_parse lib raw = Parsed sch h -> ul_parse lib (ul_redial lib raw ip) = Parsed sch' h' -> sch' = sch /\ h' = h.

Lemma ws_dial_inv lib s tls h :
  ws_dial lib s = DialTo tls h ->
  exists sch, ul_parse lib s = Parsed sch h /\ (tls = true -> sch = WSS) /\ (tls = false -> sch = WS).
Proof.
  unfold ws_dial. destruct (ul_parse lib s) as [|sch host]; [discriminate|].
  destruct (beq sch WSS) eqn:E1.
  - intros H; injection H as <- <-. exists sch. apply beq_eq in E1.
    split; [reflexivity|]. split; [intros _; exact E1|discriminate].
  - destruct (beq sch WS) eqn:E2; [|discriminate]. intros H; injection H as <- <-. exists sch.
    apply beq_eq in E2. split; [reflexivity|]. split; [discriminate|intros _; exact E2].
Qed.

Lemma handler_dial lib c r ip t :
  datachannel_handler lib c r ip = SDial t ->
  t = ul_redial lib (if beq r [] then pc_relay_url c else r) ip
  /\ exists sch h, ul_parse lib (if beq r [] then pc_relay_url c else r) = Parsed sch h.
Proof.
  unfold datachannel_handler. destruct (ul_parse lib (if beq r [] then pc_relay_url c else r)) as [|sch h];
    [discriminate|]. intros H; injection H as <-. split; [reflexivity|]. exists sch, h. reflexivity.
Qed.

(* THE DIALLED HOST IS THE CHECKED HOST.  When a session with a non-empty broker-supplied relay URL reaches the
   websocket dialer, whatever the dialer connects to is: the host name runSession extracted from that URL and
   found to be a member of the proxy's pattern; over TLS, unless non-TLS relays were explicitly allowed. *)
Theorem session_dials_checked_host lib c raw ip t tls h :
  redial_preserves lib -> raw <> [] ->
  run_session lib c raw ip = SDial t -> ws_dial lib t = DialTo tls h ->
  exists sch, ul_parse lib raw = Parsed sch h
    /\ is_member (new_matcher (pc_pattern c)) h = true
    /\ (tls = true \/ pc_allow_non_tls c = true)
    /\ (tls = true <-> sch = WSS).
Proof.
  intros RP Hne Hrun Hdial. unfold run_session in Hrun.
  destruct (proxy_relay_decision (check_cfg c) raw (ul_parse lib raw)) eqn:D; [discriminate| |].
  - apply proxy_dial_broker_iff in D. destruct D as [_ [sch [host [P [M S]]]]].
    apply handler_dial in Hrun. destruct Hrun as [-> _].
    rewrite (beq_nil_false raw Hne) in Hdial.
    apply ws_dial_inv in Hdial. destruct Hdial as [sch' [P' [Ht Hf]]].
    destruct (RP _ _ _ _ _ _ P P') as [-> ->].
    exists sch. split; [exact P|]. split; [exact M|]. cbn [check_cfg allow_non_tls] in S. split.
    + destruct tls; [left; reflexivity|]. right. destruct S as [S|S]; [exact S|].
      specialize (Hf eq_refl). rewrite S in Hf. discriminate.
    + split; [exact Ht|]. intros ->. destruct tls; [reflexivity|]. specialize (Hf eq_refl). discriminate.
  - apply proxy_dial_configured_iff in D. destruct D as [E _]. contradiction.
Qed.

(* the same for any string the session hands to the dialer, whether or not the dialer accepts it: the string is
   printed from the parse of the very URL that was checked *)
Theorem session_dial_string lib c raw ip t :
  run_session lib c raw ip = SDial t ->
  (raw <> [] /\ t = ul_redial lib raw ip
   /\ exists sch h, ul_parse lib raw = Parsed sch h /\ is_member (new_matcher (pc_pattern c)) h = true
                    /\ (pc_allow_non_tls c = true \/ sch = WSS))
  \/ (raw = [] /\ t = ul_redial lib (pc_relay_url c) ip).
Proof.
  unfold run_session. destruct (proxy_relay_decision (check_cfg c) raw (ul_parse lib raw)) eqn:D; [discriminate| |];
    intros H; apply handler_dial in H; destruct H as [-> _].
  - apply proxy_dial_broker_iff in D. destruct D as [Hne [sch [host [P [M S]]]]]. left.
    rewrite (beq_nil_false raw Hne). split; [exact Hne|]. split; [reflexivity|]. exists sch, host. repeat split; assumption.
  - apply proxy_dial_configured_iff in D. destruct D as [-> _]. right. split; reflexivity.
Qed.

(* refusal is exactly the verdict of the relay URL test (Model/RelayCheck.v) on Go's parse of the URL *)
Theorem session_refused_iff lib c raw ip :
  run_session lib c raw ip = SRefused <-> proxy_relay_decision (check_cfg c) raw (ul_parse lib raw) = Refuse.
Proof.
  assert (H : datachannel_handler lib c raw ip <> SRefused)
    by (unfold datachannel_handler; destruct (ul_parse lib _); discriminate).
  unfold run_session. destruct (proxy_relay_decision _ raw _); split; try reflexivity; try discriminate; intros E; destruct (H E).
Qed.

(* INVARIANT: no step writes the configuration *)
Lemma pstep_conf lib s ev : ps_conf (fst (pstep lib s ev)) = ps_conf s.
Proof. destruct ev; reflexivity. Qed.

Lemma pstep_reply lib s ev : snd (pstep lib s ev) = preply_of lib (ps_conf s) ev.
Proof. destruct ev; reflexivity. Qed.

Lemma prun_cons lib s ev r :
  prun lib s (ev :: r) = (fst (prun lib (fst (pstep lib s ev)) r),
                          snd (pstep lib s ev) :: snd (prun lib (fst (pstep lib s ev)) r)).
Proof. cbn [prun]. destruct (pstep lib s ev) as [s1 o]. cbn [fst snd]. destruct (prun lib s1 r). reflexivity. Qed.

Lemma prun_conf lib : forall evs s, ps_conf (fst (prun lib s evs)) = ps_conf s.
Proof.
  induction evs as [|ev r IH]; intros s; [reflexivity|]. rewrite prun_cons. cbn [fst]. rewrite IH. apply pstep_conf.
Qed.

Lemma prun_replies lib : forall evs s, snd (prun lib s evs) = map (preply_of lib (ps_conf s)) evs.
Proof.
  induction evs as [|ev r IH]; intros s; [reflexivity|]. rewrite prun_cons. cbn [snd map].
  rewrite IH, pstep_reply, pstep_conf. reflexivity.
Qed.

(* HISTORY INDEPENDENCE over the machine: from any state (any NAT type, any number of earlier sessions, any dials
   made so far) and after any history, the outcome of a session is [run_session] of the configuration and of
   that session's relay URL *)
Theorem prun_outcome_at lib s pre raw ip post :
  nth_error (snd (prun lib s (pre ++ P_Session raw ip :: post))) (length pre)
  = Some (Some (run_session lib (ps_conf s) raw ip)).
Proof.
  rewrite prun_replies, map_app. rewrite nth_error_app2 by (rewrite map_length; apply Nat.le_refl).
  rewrite map_length, Nat.sub_diag. reflexivity.
Qed.

(* every string the proxy ever hands to the dialer *)
Definition dial_ok (lib : urllib) (c : proxy_conf) (t : bytes) : Prop :=
  (exists ip, t = ul_redial lib (pc_relay_url c) ip)
  \/ (forall tls h, ws_dial lib t = DialTo tls h ->
        is_member (new_matcher (pc_pattern c)) h = true /\ (tls = true \/ pc_allow_non_tls c = true)).

Lemma pstep_dials lib s ev t :
  redial_preserves lib ->
  In t (ps_dials (fst (pstep lib s ev))) -> In t (ps_dials s) \/ dial_ok lib (ps_conf s) t.
Proof.
  intros RP. destruct ev as [raw ip|r]; cbn [pstep fst ps_dials]; [|left; assumption].
  destruct (run_session lib (ps_conf s) raw ip) as [| |t0] eqn:R; try (left; assumption).
  intros [<-|H]; [|left; exact H]. right.
  destruct (session_dial_string _ _ _ _ _ R) as [[Hne _]|[_ ->]].
  - right. intros tls h Hd. destruct (session_dials_checked_host _ _ _ _ _ _ _ RP Hne R Hd) as [sch [_ [M [T _]]]].
    split; assumption.
  - left. exists ip. reflexivity.
Qed.

(* "A proxy never opens a relay connection to a broker-supplied URL whose hostname fails its own pattern, or
   whose scheme is not wss unless non-TLS relays were explicitly allowed" — over the whole life of the proxy *)
Theorem prun_dials_sound lib : redial_preserves lib ->
  forall evs s t, In t (ps_dials (fst (prun lib s evs))) -> In t (ps_dials s) \/ dial_ok lib (ps_conf s) t.
Proof.
  intros RP. induction evs as [|ev r IH]; intros s t H; [left; exact H|].
  rewrite prun_cons in H. cbn [fst] in H. destruct (IH _ _ H) as [H1|H1].
  - apply (pstep_dials lib s ev t RP H1).
  - right. rewrite <- (pstep_conf lib s ev). exact H1.
Qed.

Corollary proxy_life_dials_sound lib c evs t :
  redial_preserves lib -> In t (ps_dials (fst (prun lib (pinit c) evs))) -> dial_ok lib c t.
Proof. intros RP H. destruct (prun_dials_sound lib RP evs (pinit c) t H) as [[]|H1]. exact H1. Qed.

(* the run of the machine projects onto the history-free reading (Model/RelayCheck.v proxy_run): [preply_abs] for one
   event; [zip_abs] reads the outcomes of a run against its events *)
Lemma preply_abs lib c ev :
  abs_outcome ev (preply_of lib c ev) = proxy_run (check_cfg c) (abs_offer lib ev).
Proof.
  destruct ev as [raw ip|r]; [|reflexivity]. cbn [preply_of abs_offer proxy_run abs_outcome].
  unfold run_session. destruct (proxy_relay_decision (check_cfg c) raw (ul_parse lib raw)) eqn:D; [reflexivity| |].
  - apply proxy_dial_broker_iff in D. destruct D as [Hne _].
    unfold datachannel_handler. rewrite (beq_nil_false raw Hne). destruct (ul_parse lib raw); reflexivity.
  - apply proxy_dial_configured_iff in D. destruct D as [-> _].
    unfold datachannel_handler. cbn [beq]. destruct (ul_parse lib (pc_relay_url c)); reflexivity.
Qed.

Fixpoint zip_abs (evs : list pevent) (os : list (option session_outcome)) : list relay_decision :=
  match evs, os with
  | ev :: r, o :: os' => abs_outcome ev o ++ zip_abs r os'
  | _, _ => []
  end.

(* a decidable sufficient condition for the contract: every entry that parses keeps scheme and host in the entry
   of its printed string (used for the non-vacuity examples; the harness checks the same on Go's own answers) *)
Definition table_roundtrip_ok (t : list (bytes * parsed_url)) : bool :=
  forallb (fun kv : bytes * parsed_url =>
             match snd kv, tbl_lookup (redial_token (fst kv) []) t with
             | Parsed sch h, Parsed sch' h' => beq sch' sch && beq h' h
             | _, _ => true
             end) t.

Lemma tbl_lookup_in : forall t k s h, tbl_lookup k t = Parsed s h -> In (k, Parsed s h) t.
Proof.
  induction t as [|[k' v] r IH]; intros k s h H; cbn [tbl_lookup] in H; [discriminate|].
  destruct (beq k k') eqn:E.
  - apply beq_eq in E. subst. left. reflexivity.
  - right. apply IH. exact H.
Qed.

Lemma table_lib_preserves t : table_roundtrip_ok t = true -> redial_preserves (table_lib t).
Proof.
  intros OK raw ip sch h sch' h' H1 H2. cbn [table_lib ul_parse ul_redial] in *.
  unfold table_roundtrip_ok in OK. rewrite forallb_forall in OK.
  specialize (OK _ (tbl_lookup_in _ _ _ _ H1)). cbn [fst snd] in OK.
  unfold redial_token in *. rewrite H2 in OK. apply andb_prop in OK. destruct OK as [A B].
  apply beq_eq in A. apply beq_eq in B. split; assumption.
Qed.
