(* ArmorStreamInst.v — the streaming theorems at the armor decoder's own tokenizer model (Armor.tk_step /
   tk_fin): the results of ArmorStreamProofs.v instantiated and stated with armor_decode / armor_scan;
   what the buffering bound of ArmorBufProofs.v asks of the tokenizer ([a_reach], [a_held]: its instance is
   C10_bounded_buffering). *)
From Coq Require Import List NArith Lia Bool Arith.
From Snow Require Import Lib.Wire Model.Base64 Model.Armor Model.ArmorStream.
From Snow Require Import Proofs.Base64Proofs Proofs.ArmorDecProofs Proofs.ArmorStreamProofs Proofs.ArmorBufProofs.
Import ListNotations.
Open Scope N_scope.

Definition a_events (doc : bytes) : list pevent := events_of tks tk_step tk_fin false tk_init doc.

Lemma tk_fin_ends : forall t a, w_end (dw_toks a (tk_fin t)) <> None.
Proof.
  intros t a. unfold tk_fin. destruct (tmd t); try apply dw_eof_end.
  cbn. discriminate.
Qed.

(* the one automaton [run]/[finish] is decodeToWriter over the token stream *)
Lemma finish_run_toks : forall l s, halt s = None ->
  exists e, w_end (dw_toks (active s) (toks_of tks tk_step tk_fin (tkz s) l)) = Some e /\
            finish (run s l) = (rev (out_rev s) ++ w_words (dw_toks (active s) (toks_of tks tk_step tk_fin (tkz s) l)), e).
Proof.
  induction l as [|c l IH]; intros [t a o h] H; cbn [halt] in H; subst h; cbn [tkz active out_rev].
  - cbn [toks_of run fold_left]. unfold finish. cbn [halt tkz active out_rev]. unfold apply_toks. cbn [halt out_rev].
    rewrite dw_toks_app. pose proof (tk_fin_ends t a) as E.
    destruct (w_end (dw_toks a (tk_fin t))) as [e|] eqn:E1; [|congruence].
    exists e. split; [exact E1|]. rewrite !rev_append_rev, app_nil_r, rev_app_distr, rev_involutive. reflexivity.
  - cbn [toks_of]. rewrite run_cons. unfold step at 1. cbn [halt tkz active out_rev].
    destruct (tk_step t c) as [t1 ts]. rewrite dw_toks_app.
    destruct (w_end (dw_toks a ts)) as [e|] eqn:E1.
    + exists e. split; [exact E1|].
      rewrite (run_dead l _ e) by (unfold apply_toks; cbn [halt]; exact E1).
      unfold finish, apply_toks. cbn [halt out_rev]. rewrite E1.
      rewrite !rev_append_rev, app_nil_r, rev_app_distr, rev_involutive. reflexivity.
    + destruct (IH (apply_toks t1 a o ts)) as (e & I1 & I2); [unfold apply_toks; cbn [halt]; exact E1|].
      unfold apply_toks in I1, I2. cbn [tkz active out_rev] in I1, I2.
      exists e. cbn [w_end w_words]. split; [exact I1|]. unfold apply_toks. rewrite I2.
      rewrite rev_append_rev, rev_app_distr, rev_involutive, <- app_assoc. reflexivity.
Qed.

Lemma chars_evs : forall r, chars (evs_of r) = List.concat (w_words r).
Proof.
  intros r. unfold evs_of. induction (w_words r) as [|w ws IH]; cbn [map app chars List.concat].
  - destruct (w_end r); reflexivity.
  - rewrite IH. reflexivity.
Qed.
Lemma fend_evs : forall r e, w_end r = Some e -> fend (evs_of r) = e.
Proof.
  intros r e H. unfold evs_of. rewrite H. induction (w_words r) as [|w ws IH]; cbn [map app fend]; [reflexivity|exact IH].
Qed.

Lemma scan_events : forall doc, armor_scan doc = (chars (a_events doc), fend (a_events doc)).
Proof.
  intros doc. unfold armor_scan, armor_words_of, a_events, events_of.
  destruct (finish_run_toks doc dinit eq_refl) as (e & E1 & E2). cbn [active tkz out_rev dinit rev app] in *.
  rewrite E2. rewrite chars_evs. rewrite (fend_evs _ e E1). reflexivity.
Qed.

(* the character stream after the version byte *)
Definition body_of (doc : bytes) : bytes := tl (fst (armor_scan doc)).

(* [fixed_ok] at this tokenizer, with armor_decode / armor_scan; [loop] is stream_decode or stream_decode0 *)
Lemma fixed_ok_armor : forall (loop : list bytes -> (N -> nat) -> nat -> sres tks),
  (forall chunks sz fuel, (forall j, (1 <= sz j)%nat) ->
     let F := events_of tks tk_step tk_fin false tk_init (List.concat chunks) in
     no_ipad (tl (chars F)) = true -> (List.length (chars F) < fuel)%nat -> fixed_ok tks (loop chunks sz fuel) F) ->
  forall doc chunks sz fuel, List.concat chunks = doc -> (forall j, (1 <= sz j)%nat) ->
  no_ipad (body_of doc) = true -> (List.length (fst (armor_scan doc)) < fuel)%nat ->
  let r := loop chunks sz fuel in
  match armor_decode doc with
  | DOk d => s_data r = d /\ s_end r = Some REOF
  | DErr e => s_end r = Some (RErr e) /\ prefix (s_data r) (fst (b64_decode_seq (body_of doc)))
  end.
Proof.
  intros loop S doc chunks sz fuel Hc Hsz Hp Hf. cbv zeta. unfold armor_decode, body_of in *. rewrite scan_events in *. cbn [fst] in *.
  specialize (S chunks sz fuel Hsz). cbv zeta in S. rewrite Hc in S. exact (S Hp Hf).
Qed.

Lemma stream_decode_armor : forall doc chunks sz fuel,
  List.concat chunks = doc -> (forall j, (1 <= sz j)%nat) ->
  no_ipad (body_of doc) = true -> (List.length (fst (armor_scan doc)) < fuel)%nat ->
  let r := armor_stream_decode chunks sz fuel in
  match armor_decode doc with
  | DOk d => s_data r = d /\ s_end r = Some REOF
  | DErr e => s_end r = Some (RErr e) /\ prefix (s_data r) (fst (b64_decode_seq (body_of doc)))
  end.
Proof. exact (fixed_ok_armor _ (stream_decode_spec tks tk_init tk_step tk_fin)). Qed.

(* the same with [dec_read0], the Read that leaves the pipe open when base64 fails *)
Lemma stream_decode0_armor : forall doc chunks sz fuel,
  List.concat chunks = doc -> (forall j, (1 <= sz j)%nat) ->
  no_ipad (body_of doc) = true -> (List.length (fst (armor_scan doc)) < fuel)%nat ->
  let r := armor_stream_decode0 chunks sz fuel in
  match armor_decode doc with
  | DOk d => s_data r = d /\ s_end r = Some REOF
  | DErr e => s_end r = Some (RErr e) /\ prefix (s_data r) (fst (b64_decode_seq (body_of doc)))
  end.
Proof. exact (fixed_ok_armor _ (stream_decode0_spec tks tk_init tk_step tk_fin)). Qed.

(* what the encoder produces has its padding at the end *)
Lemma no_ipad_encode : forall p, bytes_ok p = true -> no_ipad (b64_encode p) = true.
Proof. intros p H. apply clean_no_ipad. rewrite (b64_roundtrip_seq p H). reflexivity. Qed.

Lemma armor_tinv_held : forall t, tk_inv t -> tcnt t <= MAXBUF.
Proof. intros t [H _]. lia. Qed.

Definition a_reach := reach tks tk_init tk_step tk_fin.
Definition a_held := held tks tcnt.

Lemma armor_total : forall doc chunks sz fuel,
  List.concat chunks = doc -> (forall j, (1 <= sz j)%nat) ->
  (List.length (fst (armor_scan doc)) < fuel)%nat ->
  s_end (armor_stream_decode chunks sz fuel) <> None /\ sp_stuck (s_prod (armor_stream_decode chunks sz fuel)) = false.
Proof.
  intros doc chunks sz fuel Hc Hsz Hf. rewrite scan_events in Hf. cbn [fst] in Hf. unfold a_events in Hf. rewrite <- Hc in Hf.
  pose proof (stream_decode_total tks tk_init tk_step tk_fin chunks sz fuel Hsz Hf) as E.
  split; [exact E|]. exact (stream_decode_released tks tk_init tk_step tk_fin _ _ _ E).
Qed.

Lemma toks_of_tk_run : forall l t, toks_of tks tk_step tk_fin t l = tk_run t l ++ [TkEOF].
Proof.
  induction l as [|c l IH]; intros t; [reflexivity|]. cbn [toks_of tk_run].
  destruct (tk_step t c) as [t' ts]. rewrite IH, app_assoc. reflexivity.
Qed.

Lemma scan_len : forall doc, (List.length (fst (armor_scan doc)) <= 3 * List.length doc)%nat.
Proof.
  intros doc. rewrite scan_events. cbn [fst]. unfold a_events, events_of. rewrite chars_evs.
  pose proof (dw_toks_words (toks_of tks tk_step tk_fin tk_init doc) false) as W.
  rewrite toks_of_tk_run, text_bytes_app in W. cbn [text_bytes] in W.
  pose proof (tk_run_bytes doc tk_init tk_init_inv) as R. change (tk_acc tk_init) with O in R.
  rewrite toks_of_tk_run. lia.
Qed.

Lemma fuel_for_enough : forall doc, (List.length (fst (armor_scan doc)) < fuel_for doc)%nat.
Proof. intros doc. pose proof (scan_len doc). unfold fuel_for. lia. Qed.
