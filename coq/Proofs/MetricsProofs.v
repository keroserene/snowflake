(* MetricsProofs.v — the broker's counters (Model/Metrics.v) after any sequence of ops: each log counter is the number
   of its events since the last zeroMetrics ([counts_log]); each rounded prometheus counter has counted every event of
   its key and publishes the bin of that count ([counts_prom]); the per-type address sets are duplicate-free and hold
   exactly the addresses polled since the last zeroMetrics ([unique_sets], [set_len]); the reports of a run are the
   prints of the states at its Print ops ([run_ops_reports]). *)
From Coq Require Import List NArith Lia Arith.
From Snow Require Import Lib.Wire Lib.WireFacts Model.Round8 Model.Metrics Model.Journal Proofs.Round8Proofs Proofs.JournalProofs.
Import ListNotations.
Open Scope N_scope.

Definition bytes_dec : forall a b : bytes, {a = b} + {a <> b} := list_eq_dec N.eq_dec.

(* [mem] and [set_add] are the sketch operations of Model/Journal.v at byte strings *)
Lemma mem_In : forall a l, mem a l = true <-> In a l.
Proof. exact (hmem_In bytes beq beq_eq). Qed.

Lemma set_add_spec : forall a l, NoDup l -> NoDup (set_add a l) /\ (forall x, In x (set_add a l) <-> In x l \/ x = a).
Proof. intros a l. exact (sk_add_spec bytes beq beq_eq l a). Qed.

Lemma aget_aupd : forall V (d : V) f k k' m,
  aget d k (aupd d f k' m) = if beq k k' then f (aget d k m) else aget d k m.
Proof.
  intros V d f k k' m. induction m as [|[k0 v] m IH]; cbn [aupd aget].
  - destruct (beq k k'); reflexivity.
  - destruct (beq k' k0) eqn:E0; cbn [aget].
    + apply beq_eq in E0. subst k0. destruct (beq k k'); reflexivity.
    + destruct (beq k k0) eqn:E1.
      * apply beq_eq in E1. subst k0. assert (E2 : beq k k' = false).
        { apply beq_neq. intro E. subst. rewrite beq_refl in E0. discriminate. }
        rewrite E2. reflexivity.
      * exact IH.
Qed.

Lemma cnt_bump_prom : forall k s, cnt (bump_prom k s) = cnt s. Proof. reflexivity. Qed.
Lemma prom_bump_ev : forall e s, prom (bump_ev e s) = prom s. Proof. reflexivity. Qed.
Lemma tsets_bump_ev : forall e s, tsets (bump_ev e s) = tsets s. Proof. reflexivity. Qed.
Lemma tsets_bump_prom : forall k s, tsets (bump_prom k s) = tsets s. Proof. reflexivity. Qed.
Lemma prom_bump_prom : forall k s, prom (bump_prom k s) = aupd rc0 inc_seq k (prom s). Proof. reflexivity. Qed.
Lemma cnt_bump_ev : forall e s e', cnt (bump_ev e s) e' = cnt s e' + (if ev_eqb e' e then 1 else 0).
Proof. intros. cbn [cnt bump_ev]. destruct (ev_eqb e' e); lia. Qed.
Lemma cnt_update_country : forall a t n c s, cnt (update_country a t n c s) = cnt s.
Proof. intros. unfold update_country. destruct (mem a (tsets s (norm_type t))); [reflexivity|]. destruct (geo s); reflexivity. Qed.
Lemma prom_update_country : forall a t n c s, prom (update_country a t n c s) = prom s.
Proof. intros. unfold update_country. destruct (mem a (tsets s (norm_type t))); [reflexivity|]. destruct (geo s); reflexivity. Qed.
Lemma tsets_update_country : forall a t n c s u,
  tsets (update_country a t n c s) u =
  if u =? norm_type t then (if mem a (tsets s u) then tsets s u else tsets s u ++ [a]) else tsets s u.
Proof.
  intros. unfold update_country. destruct (u =? norm_type t) eqn:E.
  - apply N.eqb_eq in E. subst u. destruct (mem a (tsets s (norm_type t))); [reflexivity|].
    destruct (geo s); cbn [tsets]; unfold updN; rewrite N.eqb_refl; reflexivity.
  - destruct (mem a (tsets s (norm_type t))); [reflexivity|].
    destruct (geo s); cbn [tsets]; unfold updN; rewrite E; reflexivity.
Qed.

Lemma count_ev_app : forall e l1 l2, count_ev e (l1 ++ l2) = count_ev e l1 + count_ev e l2.
Proof. induction l1 as [|x l1 IH]; intro l2; cbn [count_ev app]; [reflexivity | rewrite IH; lia]. Qed.
Lemma count_key_app : forall k l1 l2, count_key k (l1 ++ l2) = count_key k l1 + count_key k l2.
Proof. induction l1 as [|x l1 IH]; intro l2; cbn [count_key app]; [reflexivity | rewrite IH; lia]. Qed.

Lemma step_cnt : forall s o e,
  cnt (apply_op s o) e = if is_zero o then 0 else cnt s e + count_ev e (log_events o).
Proof.
  intros s o e. destruct o as [|a t n relay out|n|n|n| | |ok]; cbn [apply_op is_zero log_events].
  - cbn [count_ev]. lia.
  - destruct relay, out, a as [[ad c]|];
      repeat (rewrite ?cnt_bump_prom, ?cnt_update_country, ?cnt_bump_ev);
      cbn [count_ev app]; lia.
  - destruct (n =? 2);
      repeat (rewrite ?cnt_bump_prom, ?cnt_bump_ev);
      cbn [count_ev app]; lia.
  - rewrite cnt_bump_prom, cnt_bump_ev. cbn [count_ev]. lia.
  - cbn [count_ev]. lia.
  - cbn [count_ev]. lia.
  - reflexivity.
  - cbn [count_ev set_geo cnt]. lia.
Qed.

Definition bump_all (ks : list bytes) (m : list (bytes * rc)) : list (bytes * rc) :=
  fold_left (fun m k => aupd rc0 inc_seq k m) ks m.

Lemma step_prom : forall s o, prom (apply_op s o) = bump_all (prom_events o) (prom s).
Proof.
  intros s o. destruct o as [|a t n relay out|n|n|n| | |ok]; cbn [apply_op prom_events bump_all fold_left]; try reflexivity.
  - destruct relay, out, a as [[ad c]|]; cbn [app fold_left];
      repeat (rewrite ?prom_bump_prom, ?prom_update_country, ?prom_bump_ev); reflexivity.
  - destruct (n =? 2); repeat (rewrite ?prom_bump_prom, ?prom_bump_ev); reflexivity.
Qed.

Lemma step_tsets : forall s o u,
  tsets (apply_op s o) u = if is_zero o then [] else sk_merge bytes beq (tsets s u) (polled u o).
Proof.
  intros s o u. destruct o as [|a t n relay out|n|n|n| | |ok]; cbn [apply_op is_zero polled sk_merge fold_left]; try reflexivity.
  - destruct relay, out, a as [[ad c]|]; cbn [fold_left];
      repeat (rewrite ?tsets_bump_prom, ?tsets_update_country, ?tsets_bump_ev); try reflexivity;
      rewrite (N.eqb_sym u); destruct (norm_type t =? u); reflexivity.
  - destruct (n =? 2); reflexivity.
Qed.

Lemma bump_all_spec : forall ks m k,
  rc_ok (aget rc0 k m) ->
  rc_ok (aget rc0 k (bump_all ks m)) /\ fst (aget rc0 k (bump_all ks m)) = fst (aget rc0 k m) + count_key k ks.
Proof.
  induction ks as [|x ks IH]; intros m k H; cbn [bump_all fold_left count_key].
  - split; [exact H | lia].
  - fold (bump_all ks (aupd rc0 inc_seq x m)).
    assert (H' : rc_ok (aget rc0 k (aupd rc0 inc_seq x m)) /\
                 fst (aget rc0 k (aupd rc0 inc_seq x m)) = fst (aget rc0 k m) + (if beq k x then 1 else 0)).
    { rewrite aget_aupd. destruct (beq k x).
      - destruct (inc_seq_ok _ H) as [H1 H2]. split; [exact H1 | rewrite H2; reflexivity].
      - split; [exact H | lia]. }
    destruct H' as [H1 H2]. destruct (IH _ k H1) as [H3 H4]. split; [exact H3 | rewrite H4, H2; lia].
Qed.

Lemma since_zero_snoc : forall ops o, since_zero (ops ++ [o]) = if is_zero o then [] else since_zero ops ++ [o].
Proof. intros. unfold since_zero. rewrite fold_left_app. reflexivity. Qed.
Lemma exec_snoc : forall ops o s, exec (ops ++ [o]) s = apply_op (exec ops s) o.
Proof. intros. unfold exec. rewrite fold_left_app. reflexivity. Qed.

Lemma counts_log : forall g ops e,
  cnt (exec ops (minit g)) e = count_ev e (flat_map log_events (since_zero ops)).
Proof.
  intros g ops e. induction ops as [|o ops IH] using rev_ind.
  - reflexivity.
  - rewrite exec_snoc, since_zero_snoc, step_cnt. destruct (is_zero o).
    + reflexivity.
    + rewrite flat_map_app, count_ev_app, IH. cbn [flat_map]. rewrite app_nil_r. reflexivity.
Qed.

Lemma counts_prom : forall g ops k,
  rc_ok (aget rc0 k (prom (exec ops (minit g)))) /\
  fst (aget rc0 k (prom (exec ops (minit g)))) = count_key k (flat_map prom_events ops).
Proof.
  intros g ops k. induction ops as [|o ops IH] using rev_ind.
  - split; reflexivity.
  - destruct IH as [H1 H2]. rewrite exec_snoc, step_prom.
    destruct (bump_all_spec (prom_events o) _ k H1) as [H3 H4]. split; [exact H3|].
    rewrite H4, H2, flat_map_app, count_key_app. cbn [flat_map]. rewrite app_nil_r. reflexivity.
Qed.

Lemma unique_sets : forall g ops u,
  NoDup (tsets (exec ops (minit g)) u) /\
  (forall a, In a (tsets (exec ops (minit g)) u) <-> In a (flat_map (polled u) (since_zero ops))).
Proof.
  intros g ops u. induction ops as [|o ops IH] using rev_ind.
  - split; [constructor|]. intro a. cbn. tauto.
  - destruct IH as [ND M]. rewrite exec_snoc, since_zero_snoc, step_tsets. destruct (is_zero o).
    + split; [constructor|]. intro a. cbn. tauto.
    + destruct (sk_merge_spec bytes beq beq_eq (polled u o) _ ND) as [ND' M']. split; [exact ND'|].
      intro a. rewrite M', M, flat_map_app, in_app_iff. cbn [flat_map]. rewrite app_nil_r. tauto.
Qed.

Lemma NoDup_same_length : forall (A : Type) (l1 l2 : list A),
  NoDup l1 -> NoDup l2 -> (forall a, In a l1 <-> In a l2) -> length l1 = length l2.
Proof.
  intros A l1 l2 N1 N2 H. apply Nat.le_antisymm; apply NoDup_incl_length; auto; intros a Ha; apply H; exact Ha.
Qed.

Definition distinct_polled (u : N) (ops : list op) : N :=
  N.of_nat (length (nodup bytes_dec (flat_map (polled u) (since_zero ops)))).

Lemma set_len : forall g ops u, len (tsets (exec ops (minit g)) u) = distinct_polled u ops.
Proof.
  intros g ops u. unfold len, distinct_polled. f_equal. destruct (unique_sets g ops u) as [ND M].
  apply NoDup_same_length; [exact ND | apply NoDup_nodup |]. intro a. rewrite M, nodup_In. tauto.
Qed.

(* the reports of a whole run are the [print]s of the states reached at the Print ops *)
Lemma run_ops_reports : forall ops s acc,
  snd (run_ops ops s acc) = List.rev acc ++ snd (run_ops ops s []) /\ fst (run_ops ops s acc) = exec ops s.
Proof.
  induction ops as [|o ops IH]; intros s acc.
  - cbn. rewrite app_nil_r. auto.
  - destruct o; cbn [run_ops exec fold_left apply_op]; try (apply IH).
    destruct (IH s (print s :: acc)) as [H1 H2]. destruct (IH s [print s]) as [H3 H4].
    split; [|exact H2]. rewrite H1, H3. cbn [List.rev app]. rewrite <- app_assoc. reflexivity.
Qed.
