(* CarrierFailProofs.v — a failing downstream write (Model/CarrierFail.v) keeps every invariant of the carrier
   layer, writes to no carrier but leaves (part of) the failed frame on its own, and the bytes it leaves are a prefix
   of the frame of a packet addressed to that carrier's own ClientID. *)
From Coq Require Import List NArith Bool Arith Lia.
From Snow Require Import Lib.Wire Lib.ListFacts Lib.WireFacts Model.Encap Model.CarrierLayer
  Proofs.CarrierProofs Proofs.CarrierOnceProofs Model.CarrierFail.
Import ListNotations.
Open Scope N_scope.

Lemma fail_send_spec s i n :
  (exists k p q', nth_error (carriers s) i = Some k /\ k_state k = K_Open /\ q_lookup (k_cid k) (sendqs s) = p :: q' /\
     fail_send s i n = (drop_state s i k p q', Some (match write_data p with Some w => firstn n w | None => [] end)))
  \/ fail_send s i n = (s, None).
Proof.
  unfold fail_send. destruct (nth_error (carriers s) i) as [k|] eqn:Hk; [|right; reflexivity].
  destruct (k_state k) eqn:Es; try (right; reflexivity).
  destruct (q_lookup (k_cid k) (sendqs s)) as [|p q'] eqn:Eq; [right; reflexivity|].
  left. exists k, p, q'. repeat split; try assumption; reflexivity.
Qed.

Lemma fail_send_sinv s i n : SInv s -> SInv (fst (fail_send s i n)).
Proof.
  intros I. destruct (fail_send_spec s i n) as [[k [p [q' [_ [_ [Eq ->]]]]]]| ->]; [|exact I]. exact (sinv_drop s i k p q' I Eq).
Qed.

Lemma fail_send_oinv s i n : OInv s -> OInv (fst (fail_send s i n)).
Proof.
  intros O. destruct (fail_send_spec s i n) as [[k [p [q' [_ [_ [Eq ->]]]]]]| ->]; [|exact O]. exact (oinv_drop s i k p q' O Eq).
Qed.

Lemma fstep_inv s o : SInv (f_s s) /\ OInv (f_s s) -> SInv (f_s (fstep s o)) /\ OInv (f_s (fstep s o)).
Proof.
  intros [S O]. destruct o as [o|i n]; cbn [fstep].
  - cbn [f_s]. split; [apply sstep_inv; exact S | apply sstep_oinv; exact O].
  - pose proof (fail_send_sinv (f_s s) i n S) as S'. pose proof (fail_send_oinv (f_s s) i n O) as O'.
    destruct (fail_send (f_s s) i n) as [s' t]. cbn [f_s fst] in *. split; assumption.
Qed.

Lemma frun_app ops o : frun (ops ++ [o]) = fstep (frun ops) o.
Proof. unfold frun. rewrite fold_left_app. reflexivity. Qed.

Theorem frun_inv : forall ops, SInv (f_s (frun ops)) /\ OInv (f_s (frun ops)).
Proof.
  intros ops. apply (fold_left_inv (fun s => SInv (f_s s) /\ OInv (f_s s)) fstep fstep_inv).
  split; [apply sinv_init | apply oinv_init].
Qed.

Theorem fail_send_frame s i n s' t : fail_send s i n = (s', Some t) ->
  exists k p q', nth_error (carriers s) i = Some k /\ k_state k = K_Open /\ q_lookup (k_cid k) (sendqs s) = p :: q' /\
    t = (match write_data p with Some w => firstn n w | None => [] end) /\
    consumed s' = consumed s ++ [(None, k_cid k, p)] /\
    q_lookup (k_cid k) (sendqs s') = q' /\
    (forall c, beq c (k_cid k) = false -> q_lookup c (sendqs s') = q_lookup c (sendqs s)) /\
    accepted s' = accepted s /\ recvq s' = recvq s /\ delivered s' = delivered s /\
    length (carriers s') = length (carriers s) /\
    (forall j kj, nth_error (carriers s) j = Some kj ->
       exists kj', nth_error (carriers s') j = Some kj' /\ k_down kj' = k_down kj /\ k_wire kj' = k_wire kj /\
                   k_up kj' = k_up kj /\ k_cid kj' = k_cid kj /\
                   k_state kj' = (if Nat.eqb j i then K_Dead else k_state kj)).
Proof.
  intros H. destruct (fail_send_spec s i n) as [[k [p [q' [Hk [Es [Eq E]]]]]]|E]; rewrite E in H; [|discriminate].
  injection H as <- <-. exists k, p, q'. cbn [drop_state carriers recvq sendqs accepted delivered consumed].
  split; [exact Hk|]. split; [exact Es|]. split; [exact Eq|]. split; [reflexivity|]. split; [reflexivity|].
  split; [rewrite q_lookup_set, beq_refl; reflexivity|]. split; [intros c Hc; rewrite q_lookup_set, Hc; reflexivity|].
  split; [reflexivity|]. split; [reflexivity|]. split; [reflexivity|]. split; [apply kupd_length|].
  intros j kj Hj. destruct (Nat.eqb_spec j i) as [->|Hne].
  - exists (kill kj). split; [apply knth_upd_eq; exact Hj|]. repeat split.
  - exists kj. split; [rewrite knth_upd_neq by (intro X; apply Hne; symmetry; exact X); exact Hj|]. repeat split.
Qed.

Record TInv (s : fstate) : Prop := {
  (* a tail belongs to a dead carrier that presented a ClientID, and is a prefix of the frame of a packet that WriteTo
     accepted for THAT ClientID and that is logged as lost *)
  ti_tail : forall i t, In (i, t) (f_tail s) ->
    exists k p, nth_error (carriers (f_s s)) i = Some k /\ k_state k = K_Dead /\ ~ pre_open k /\
                In (None, k_cid k, p) (consumed (f_s s)) /\ In (k_cid k, p) (accepted (f_s s)) /\
                exists n, t = (match write_data p with Some w => firstn n w | None => [] end);
  (* at most one failed write per carrier *)
  ti_once : NoDup (map fst (f_tail s))
}.

Lemma fstep_kept s o i k : nth_error (carriers (f_s s)) i = Some k ->
  exists k', nth_error (carriers (f_s (fstep s o))) i = Some k' /\ kstep k k'.
Proof.
  intros Hk. destruct o as [o|j n]; cbn [fstep]; [apply sstep_kept; exact Hk|].
  destruct (fail_send_spec (f_s s) j n) as [[k0 [p [q' [_ [_ [_ ->]]]]]]| ->]; cbn [f_s drop_state carriers].
  - destruct (Nat.eq_dec j i) as [->|Hne].
    + exists (kill k). split; [apply knth_upd_eq; exact Hk | left; exists []; apply pump_ok_kill].
    + exists k. split; [rewrite knth_upd_neq by exact Hne; exact Hk | apply kstep_refl].
  - exists k. split; [exact Hk | apply kstep_refl].
Qed.

Lemma sstep_logs_grow s o : incl (consumed s) (consumed (sstep s o)) /\ incl (accepted s) (accepted (sstep s o)).
Proof.
  assert (Same : incl (consumed s) (consumed s) /\ incl (accepted s) (accepted s)) by (split; apply incl_refl).
  destruct o; [exact Same| |exact Same|cbn [sstep]..].
  - destruct (nth_error (carriers s) i) as [k|] eqn:Hk; [|cbn [sstep]; rewrite Hk; exact Same].
    rewrite (sstep_recv_feed s i b k Hk). exact Same.
  - destruct (_ <? _)%nat; [|exact Same]. split; [apply incl_refl | apply incl_appl, incl_refl].
  - destruct (nth_error (carriers s) i) as [k|]; [|exact Same]. destruct (k_state k); try exact Same.
    destruct (q_lookup (k_cid k) (sendqs s)); [exact Same|].
    destruct (write_data b); (split; [apply incl_appl, incl_refl | apply incl_refl]).
  - destruct (recvq s); exact Same.
Qed.

Lemma fstep_logs_grow s o :
  incl (consumed (f_s s)) (consumed (f_s (fstep s o))) /\ incl (accepted (f_s s)) (accepted (f_s (fstep s o))).
Proof.
  destruct o as [o|j n]; cbn [fstep]; [apply sstep_logs_grow|].
  destruct (fail_send_spec (f_s s) j n) as [[k0 [p [q' [_ [_ [_ ->]]]]]]| ->]; cbn [f_s drop_state consumed accepted];
    (split; [auto using incl_appl, incl_refl | apply incl_refl]).
Qed.

Lemma fstep_tinv s o : SInv (f_s s) -> TInv s -> TInv (fstep s o).
Proof.
  intros SI [Tt To].
  assert (Old : forall i t, In (i, t) (f_tail s) ->
            exists k p, nth_error (carriers (f_s (fstep s o))) i = Some k /\ k_state k = K_Dead /\ ~ pre_open k /\
                In (None, k_cid k, p) (consumed (f_s (fstep s o))) /\ In (k_cid k, p) (accepted (f_s (fstep s o))) /\
                exists n, t = (match write_data p with Some w => firstn n w | None => [] end)).
  { intros i t Hin. destruct (Tt i t Hin) as [k [p [Hk [Hd [Hnp [Hc [Ha Hn]]]]]]].
    destruct (fstep_kept s o i k Hk) as [k' [H1 Hs]]. destruct (kstep_dead _ _ Hs Hd) as (H2 & _ & _ & _ & H6).
    exists k', p. split; [exact H1|]. split; [exact H2|]. split; [exact (dead_not_pre k' H2)|].
    rewrite H6. destruct (fstep_logs_grow s o) as [Gc Ga]. split; [apply Gc, Hc|]. split; [apply Ga, Ha | exact Hn]. }
  destruct o as [o|j n].
  - constructor; [exact Old | exact To].
  - cbn [fstep] in *. destruct (fail_send (f_s s) j n) as [s' t] eqn:E. cbn [f_s f_tail] in *.
    destruct t as [t|]; [|constructor; [exact Old | exact To]].
    destruct (fail_send_frame _ _ _ _ _ E) as [k [p [q' [Hk [Es [Eq [Ht [Hc [_ [_ [Ha [_ [_ [_ Hall]]]]]]]]]]]]]].
    constructor; cbn [f_s f_tail].
    + intros i t0 Hin. apply in_app_or in Hin. destruct Hin as [Hin|[Hin|[]]]; [apply Old; exact Hin|].
      injection Hin as <- <-. destruct (Hall j k Hk) as [k' [H1 [_ [_ [_ [H5 H6]]]]]]. rewrite Nat.eqb_refl in H6.
      exists k', p. split; [exact H1|]. split; [exact H6|].
      split; [exact (dead_not_pre k' H6)|].
      rewrite H5, Hc, Ha. split; [apply in_or_app; right; left; reflexivity|].
      split; [apply (si_queue _ SI); rewrite Eq; left; reflexivity|]. exists n. exact Ht.
    + rewrite map_app. cbn [map fst]. apply NoDup_snoc; [exact To|].
      intros Hin. apply in_map_iff in Hin. destruct Hin as [[i t0] [Hi Hin]]. cbn in Hi. subst i.
      destruct (Tt j t0 Hin) as [k0 [_ [Hk0 [Hd0 _]]]]. rewrite Hk in Hk0. injection Hk0 as <-. rewrite Es in Hd0. discriminate.
Qed.

Theorem frun_tinv : forall ops, TInv (frun ops).
Proof.
  intros ops. induction ops as [|o ops IH] using rev_ind.
  - constructor; cbn; [intros i t [] | constructor].
  - rewrite frun_app. apply fstep_tinv; [apply (frun_inv ops) | exact IH].
Qed.

Lemma tail_of_none i tails : ~ In i (map fst tails) -> tail_of i tails = [].
Proof.
  induction tails as [|[j t] l IH]; intros H; cbn; [reflexivity|].
  destruct (Nat.eqb_spec j i) as [->|Hne]; [exfalso; apply H; left; reflexivity|].
  apply IH. intros Hin. apply H. right. exact Hin.
Qed.

Lemma tail_of_one i tails : NoDup (map fst tails) -> forall t, In (i, t) tails -> tail_of i tails = t.
Proof.
  induction tails as [|[j t0] l IH]; intros Hn t Hin; [destruct Hin|].
  cbn in Hn. inversion Hn as [|x l' Hx Hl]; subst. unfold tail_of. cbn [filter fst].
  destruct Hin as [Hin|Hin].
  - injection Hin as -> ->. rewrite Nat.eqb_refl. cbn [map snd concat].
    fold (tail_of i l). rewrite (tail_of_none i l Hx). apply app_nil_r.
  - destruct (Nat.eqb_spec j i) as [->|Hne].
    + exfalso. apply Hx. apply in_map_iff. exists (i, t). split; [reflexivity | exact Hin].
    + fold (tail_of i l). apply IH; assumption.
Qed.

Theorem full_wire_spec : forall ops i k,
  nth_error (carriers (f_s (frun ops))) i = Some k ->
  exists (w t : bytes), wire_of (k_down k) = Some w /\ full_wire (frun ops) i k = w ++ t /\
    (t = [] \/
     (k_state k = K_Dead /\ exists p n, In (k_cid k, p) (accepted (f_s (frun ops))) /\
                                        In (None, k_cid k, p) (consumed (f_s (frun ops))) /\
                                        t = (match write_data p with Some wp => firstn n wp | None => [] end))).
Proof.
  intros ops i k Hk. destruct (frun_inv ops) as [SI _]. destruct (frun_tinv ops) as [Tt To].
  exists (k_wire k), (tail_of i (f_tail (frun ops))). split; [apply (si_wire _ SI i k Hk)|]. split; [reflexivity|].
  destruct (in_dec Nat.eq_dec i (map fst (f_tail (frun ops)))) as [Hin|Hnin].
  - right. apply in_map_iff in Hin. destruct Hin as [[j t] [Hj Hin]]. cbn in Hj. subst j.
    destruct (Tt i t Hin) as [k' [p [Hk' [Hd [_ [Hc [Ha [n Hn]]]]]]]]. rewrite Hk in Hk'. injection Hk' as <-.
    split; [exact Hd|]. exists p, n. split; [exact Ha|]. split; [exact Hc|].
    rewrite (tail_of_one i _ To t Hin). exact Hn.
  - left. apply tail_of_none. exact Hnin.
Qed.

