(* ArmorBufProofs.v — bounded buffering of the streaming decoder (Model/ArmorStream.v): what the decoder
   holds at any time is bounded by a constant (four tokenizer buffers, one source Read, the base64
   reader's two arrays), whatever the document. *)
From Coq Require Import List NArith Lia Bool Arith.
From Snow Require Import Lib.Wire Lib.ListFacts Model.Armor Model.ArmorStream.
From Snow Require Import Proofs.ArmorDecProofs Proofs.ArmorStreamProofs.
Import ListNotations.
Open Scope N_scope.

Lemma utf8_len : forall x, (List.length (utf8_encode x) <= 4)%nat.
Proof. intros x. unfold utf8_encode. repeat match goal with |- context [if ?b then _ else _] => destruct b end; cbn; lia. Qed.

(* every named reference is at least as long as what it stands for (complete sweep of the table) *)
Lemma entity_tab_short :
  forallb (fun e => Nat.leb (List.length (runes_utf8 (snd e))) (1 + List.length (fst e))) entity_tab = true.
Proof. vm_compute. reflexivity. Qed.

Lemma entity_lookup_len : forall name cps, entity_lookup name = Some cps ->
  (List.length (runes_utf8 cps) <= 1 + List.length name)%nat.
Proof.
  intros name cps H. unfold entity_lookup in H.
  destruct (find (fun e => beq (fst e) name) entity_tab) as [e|] eqn:F; [|discriminate]. injection H as <-.
  apply find_some in F as [Hin Hb].
  pose proof entity_tab_short as S. rewrite forallb_forall in S. specialize (S e Hin). apply Nat.leb_le in S.
  assert (E : List.length (fst e) = List.length name).
  { clear -Hb. revert Hb. generalize (fst e). intros a. revert name.
    induction a as [|x a IH]; intros [|y b] H; cbn in H; try discriminate; [reflexivity|].
    apply andb_true_iff in H as [_ H]. cbn [List.length]. f_equal. apply IH. exact H. }
  unfold bytes in *. lia.
Qed.

Lemma prefix_lookup_len : forall j name o k, prefix_lookup j name = Some (o, k) ->
  (List.length o <= 1 + k)%nat /\ (k <= j)%nat.
Proof.
  induction j as [|j IH]; intros name o k H; [discriminate|]. cbn [prefix_lookup] in H.
  destruct j as [|j']; [discriminate|].
  destruct (entity_lookup (firstn (S (S j')) name)) as [cps|] eqn:E.
  - injection H as <- <-. apply entity_lookup_len in E. rewrite firstn_length in E. split; lia.
  - destruct (IH name o k H). split; lia.
Qed.

Lemma span_alnum_len : forall l, List.length l = (List.length (fst (span_alnum l)) + List.length (snd (span_alnum l)))%nat.
Proof.
  induction l as [|c l IH]; [reflexivity|]. cbn [span_alnum]. destruct (is_alnum c); [|reflexivity].
  destruct (span_alnum l) as [a r]. cbn [fst snd List.length] in *. lia.
Qed.

Lemma scan_digits_len : forall hex l x k, let '(_, k', rest) := scan_digits hex l x k in
  (k' + List.length rest = k + List.length l)%nat.
Proof.
  intros hex l. induction l as [|c l IH]; intros x k; [cbn; lia|]. cbn [scan_digits].
  destruct (digit_val hex c); [|cbn [List.length]; lia].
  specialize (IH (((if hex then 16 else 10) * x + n) mod 4294967296) (S k)).
  destruct (scan_digits hex l _ (S k)) as [[x' k'] rest]. cbn [List.length]. lia.
Qed.

Lemma entity_at_len : forall s1, (List.length (fst (entity_at s1)) <= 1 + snd (entity_at s1))%nat /\
                                 (snd (entity_at s1) <= List.length s1)%nat.
Proof.
  intros s1. unfold entity_at. destruct s1 as [|c1 r]; [cbn; lia|].
  destruct (c1 =? HASH).
  - destruct r as [|c2 [|c3 r2]]; [cbn; lia|cbn; lia|].
    set (hex := (c2 =? 120) || (c2 =? 88)).
    pose proof (scan_digits_len hex (if hex then c3 :: r2 else c2 :: c3 :: r2) 0 0) as L.
    destruct (scan_digits hex (if hex then c3 :: r2 else c2 :: c3 :: r2) 0 0) as [[x k] rest].
    set (semi := match rest with c :: _ => c =? SEMIC | [] => false end).
    assert (Hs : ((if semi then 1 else 0) <= List.length rest)%nat).
    { unfold semi. destruct rest; [cbn; lia|]. destruct (n =? SEMIC); cbn; lia. }
    destruct (Nat.leb (2 + (if hex then 1 else 0) + k + (if semi then 1 else 0)) 3) eqn:E; cbn [fst snd List.length].
    + lia.
    + apply Nat.leb_gt in E. pose proof (utf8_len (fix_rune x)). destruct hex; cbn [List.length] in L; lia.
  - pose proof (span_alnum_len (c1 :: r)) as L. destruct (span_alnum (c1 :: r)) as [nm rest]. cbn [fst snd] in L.
    set (semi := match rest with c :: _ => c =? SEMIC | [] => false end).
    assert (Hs : ((if semi then 1 else 0) <= List.length rest)%nat).
    { unfold semi. destruct rest; [cbn; lia|]. destruct (n =? SEMIC); cbn; lia. }
    set (name := if semi then nm ++ [SEMIC] else nm).
    assert (Hn : (List.length name <= List.length (c1 :: r))%nat).
    { unfold name. destruct semi; [rewrite app_length; cbn [List.length] in *; lia|lia]. }
    destruct name as [|n0 name'] eqn:En; [cbn; lia|]. rewrite <- En in *.
    destruct (entity_lookup name) as [cps|] eqn:E.
    + cbn [fst snd]. apply entity_lookup_len in E. lia.
    + destruct (prefix_lookup _ name) as [[o k]|] eqn:P; [|cbn; lia].
      cbn [fst snd]. apply prefix_lookup_len in P. lia.
Qed.

Lemma unesc_len : forall l skip, (List.length (unesc skip l) + Nat.min skip (List.length l) <= List.length l)%nat.
Proof.
  induction l as [|c l IH]; intros skip; [cbn; lia|]. cbn [unesc]. destruct skip as [|k].
  - destruct (c =? AMP).
    + pose proof (entity_at_len l) as [E1 E2]. destruct (entity_at l) as [o k]. cbn [fst snd] in *.
      rewrite app_length. specialize (IH k). cbn [List.length]. lia.
    + cbn [List.length]. specialize (IH O). lia.
  - specialize (IH k). cbn [List.length]. lia.
Qed.

Lemma unescape_len : forall l, (List.length (unescape l) <= List.length l)%nat.
Proof. intros l. pose proof (unesc_len l O). unfold unescape. lia. Qed.

Lemma nul_replace_len : forall l, (List.length (nul_replace l) <= 3 * List.length l)%nat.
Proof.
  induction l as [|c l IH]; [cbn; lia|]. cbn [nul_replace]. destruct (c =? 0); [rewrite app_length|]; cbn [List.length REPL]; lia.
Qed.

(* Text() at most triples its input (NUL becomes U+FFFD): |Text()| <= 3 |data| *)
Lemma text_data_len : forall k d, (List.length (text_data k d) <= 3 * List.length d)%nat.
Proof.
  intros k d. pose proof (conv_nl_len d). unfold text_data. destruct k.
  - pose proof (unescape_len (conv_nl d)). lia.
  - pose proof (unescape_len (nul_replace (conv_nl d))). pose proof (nul_replace_len (conv_nl d)). lia.
  - pose proof (nul_replace_len (conv_nl d)). lia.
Qed.

Lemma concat_firstn_len : forall k (ws : list bytes),
  (List.length (List.concat (firstn k ws)) <= List.length (List.concat ws))%nat.
Proof.
  induction k; intros [|w ws]; cbn [firstn List.concat List.length]; try lia.
  rewrite !app_length. specialize (IHk ws). lia.
Qed.

(* the words of a text are disjoint pieces of it *)
Lemma words_concat_len : forall l, (List.length (List.concat (fst (cut_long (words l)))) <= List.length l)%nat.
Proof.
  intros l. destruct (cut_long_sub (words l)) as [k ->].
  pose proof (concat_firstn_len k (words l)) as H. rewrite words_concat in H.
  pose proof (filter_length_le (fun c => negb (isws c)) l). unfold strip in H. lia.
Qed.

Fixpoint text_bytes (ts : list tok) : nat :=
  match ts with
  | [] => O
  | TkText _ d :: r => (List.length d + text_bytes r)%nat
  | _ :: r => text_bytes r
  end.

Lemma dw_tok_words : forall a t, (List.length (List.concat (w_words (dw_tok a t))) <= 3 * text_bytes [t])%nat.
Proof.
  intros a t. destruct t; cbn [dw_tok text_bytes]; try (destruct (beq _ _)); try (destruct a);
    cbn [w_words List.concat List.length]; try lia.
  pose proof (words_concat_len (text_data k data)) as W. pose proof (text_data_len k data).
  destruct (cut_long _) as [ws long]. cbn [fst w_words] in *. lia.
Qed.

Lemma dw_toks_words : forall ts a, (List.length (List.concat (w_words (dw_toks a ts))) <= 3 * text_bytes ts)%nat.
Proof.
  induction ts as [|t ts IH]; intros a; [cbn; lia|]. cbn [dw_toks].
  pose proof (dw_tok_words a t) as W.
  assert (E : text_bytes (t :: ts) = (text_bytes [t] + text_bytes ts)%nat) by (destruct t; cbn [text_bytes]; lia).
  destruct (w_end (dw_tok a t)); [lia|]. cbn [w_words]. rewrite concat_app, app_length.
  specialize (IH (w_act (dw_tok a t))). lia.
Qed.

Lemma q_bytes_evs : forall r, q_bytes (evs_of r) = N.of_nat (List.length (List.concat (w_words r))).
Proof.
  intros r. unfold evs_of. induction (w_words r) as [|w ws IH]; cbn [map app q_bytes List.concat].
  - destruct (w_end r); reflexivity.
  - rewrite IH, app_length. lia.
Qed.

Definition tk_inv (s : tks) : Prop :=
  tcnt s < MAXBUF /\ N.of_nat (List.length (tbuf s) + List.length (pending (tmd s))) <= tcnt s.

Lemma push_len : forall l tb, List.length (push l tb) = (List.length l + List.length tb)%nat.
Proof. intros. unfold push. rewrite rev_append_rev, app_length, rev_length. reflexivity. Qed.
Lemma text_bytes_app : forall a b, text_bytes (a ++ b) = (text_bytes a + text_bytes b)%nat.
Proof. induction a as [|t a IH]; intros b; [reflexivity|]. destruct t; cbn [app text_bytes]; rewrite IH; lia. Qed.
Lemma text_bytes_flush : forall k tb, text_bytes (flush k tb) = List.length tb.
Proof.
  intros k [|c tb]; [reflexivity|]. unfold flush. cbn [text_bytes]. rewrite rev_append_rev, app_nil_r, rev_length. lia.
Qed.

Definition tk_acc (s : tks) : nat := (List.length (tbuf s) + List.length (pending (tmd s)))%nat.
(* every input byte goes into at most one text token: the text bytes a step emits, plus what the
   state still holds of the token it is reading, are at most k *)
Definition res_ok (k : nat) (r : tks * list tok) : Prop :=
  (text_bytes (snd r) + tk_acc (fst r) <= k)%nat /\ tk_inv (fst r).

Lemma res_ok_mono : forall k k' r, res_ok k r -> (k <= k')%nat -> res_ok k' r.
Proof. unfold res_ok. intros k k' r [H1 H2] L. split; [lia|exact H2]. Qed.

(* closes [res_ok k (s', ts)] for an explicit state s' and explicit tokens ts: the two inequalities between
   the lengths and the count, by lia *)
Local Ltac fin :=
  unfold res_ok, tk_inv, tk_acc, tk, add_toks in *;
  cbn [fst snd tmd tcnt tbuf pending text_bytes List.length app rev] in *;
  rewrite ?push_len, ?text_bytes_app, ?text_bytes_flush, ?app_length, ?rev_length in *;
  cbn [fst snd tmd tcnt tbuf pending text_bytes List.length app rev] in *;
  repeat split; unfold MAXBUF in *; lia.

(* one case for each outcome of the tests on the byte *)
Local Ltac ifs := repeat match goal with |- context [if ?b then _ else _] => destruct b end.

(* the byte handlers shared by several states; [k] is any bound on the text bytes now held *)
Section OneByte.
  Variables (tb : bytes) (n c : N) (k : nat).
  Hypothesis Hn : n < MAXBUF.

  Lemma gt_on_ok : res_ok k (gt_on n c).
  Proof. unfold gt_on. ifs; fin. Qed.
  Lemma tag_on_ok : forall e ts nm pv, res_ok k (tk_tag_on n e ts nm pv c).
  Proof. intros. unfold tk_tag_on, tk_tag_done. destruct (tag_step ts c); ifs; fin. Qed.

  Hypothesis Htb : N.of_nat (List.length tb) + 1 <= n.
  Hypothesis Hk : (List.length tb + 1 <= k)%nat.

  Lemma txt_on_ok : res_ok k (txt_on tb n c).
  Proof. unfold txt_on. ifs; fin. Qed.
  Lemma raw_on_ok : forall tag, res_ok k (raw_on tag tb n c).
  Proof. intros. unfold raw_on. ifs; fin. Qed.
  Lemma sdata_on_ok : res_ok k (sdata_on tb n c).
  Proof. unfold sdata_on. ifs; fin. Qed.
  Lemma sesc_on_ok : res_ok k (sesc_on tb n c).
  Proof. unfold sesc_on. ifs; fin. Qed.
  Lemma sdbl_on_ok : res_ok k (sdbl_on tb n c).
  Proof. unfold sdbl_on. ifs; fin. Qed.
  Lemma sdblstart_on_ok : forall todo, res_ok k (sdblstart_on todo tb n c).
  Proof. intros. unfold sdblstart_on. destruct todo; ifs; try apply sesc_on_ok; fin. Qed.
  Lemma scr_fail_ok : forall cx, res_ok k (scr_fail cx tb n c).
  Proof. intros. destruct cx; [apply sdata_on_ok|apply sesc_on_ok|apply sdbl_on_ok]. Qed.
End OneByte.

(* readScript: in every state the byte is stored, or handed with the pending '<' to one of the handlers *)
Lemma scr_on_ok : forall st tb n c, n < MAXBUF ->
  N.of_nat (List.length tb + List.length (pending (MScr st))) + 1 <= n ->
  res_ok (List.length tb + List.length (pending (MScr st)) + 1) (scr_on st tb n c).
Proof.
  intros st tb n c Hn H. unfold scr_on.
  destruct st; cbn [pending List.length] in *.
  - (* SData *) apply sdata_on_ok; lia.
  - (* SLt *) ifs; [fin|fin|]. apply sdata_on_ok; cbn [List.length]; lia.
  - (* SEscStart *) ifs; [fin|]. apply sdata_on_ok; lia.
  - (* SEscStartDash *) ifs; [fin|]. apply sdata_on_ok; lia.
  - (* SEsc *) apply sesc_on_ok; lia.
  - (* SEscDash *) ifs; [fin|]. apply sesc_on_ok; lia.
  - (* SEscDashDash *) ifs; [fin|fin|]. apply sesc_on_ok; lia.
  - (* SEscLt *) ifs; [fin| |].
    + apply sdblstart_on_ok; cbn [List.length]; lia.
    + apply sdata_on_ok; cbn [List.length]; lia.
  - (* SDblStart *) apply sdblstart_on_ok; lia.
  - (* SDbl *) apply sdbl_on_ok; lia.
  - (* SDblDash *) ifs; [fin|]. apply sdbl_on_ok; lia.
  - (* SDblDashDash *) ifs; [fin|fin|]. apply sdbl_on_ok; lia.
  - (* SDblLt *) ifs; [fin|]. apply sdbl_on_ok; cbn [List.length]; lia.
Qed.

Lemma add_toks_ok : forall k tb r, res_ok 0 r -> res_ok (List.length tb) (add_toks (flush k tb) r).
Proof.
  intros k tb [s ts] [H1 H2]. unfold res_ok, add_toks in *. cbn [fst snd] in *.
  rewrite text_bytes_app, text_bytes_flush. split; [lia|exact H2].
Qed.

(* the bytes of a half-matched "</tag" go back into the text *)
Lemma push2_len : forall a b mr tb, List.length (push (a :: b :: rev mr) tb) = (List.length tb + (2 + List.length mr))%nat.
Proof. intros. rewrite push_len. cbn [List.length]. rewrite rev_length. lia. Qed.

Lemma tk_step_res : forall s c, tk_inv s -> res_ok (tk_acc s + 1) (tk_step s c).
Proof.
  intros [m n tb] c [H1 H2]. unfold tk_acc. cbn [tmd tcnt tbuf] in *. unfold tk_step. cbn [tmd tcnt tbuf].
  (* the buffer limit is reached: the text read so far is flushed, with the pending bytes and this one *)
  assert (EXC : res_ok (List.length tb + List.length (pending m) + 1)
                  (tk MStop 0 [], (if is_text_mode m then flush (kind_of m) (c :: push (pending m) tb)
                                   else if is_other_mode m then [TkOther] else []) ++ [TkOver])).
  { split; [|unfold tk_inv, tk, MAXBUF; cbn; lia]. unfold tk_acc, tk. cbn [fst snd tmd tbuf pending List.length].
    rewrite text_bytes_app. cbn [text_bytes].
    destruct (is_text_mode m); [rewrite text_bytes_flush; cbn [List.length]; rewrite push_len; lia|].
    destruct (is_other_mode m); cbn [text_bytes]; lia. }
  (* below the limit, by the state Next is in *)
  destruct m; try (destruct (MAXBUF <=? n + 1) eqn:EX; [exact EXC|clear EXC; apply N.leb_gt in EX]);
    try (cbn [pending List.length] in *; rewrite ?rev_length in * ).
  - (* MTxt *) apply txt_on_ok; [exact EX|lia|lia].
  - (* MLt: a tag, comment or "</" begins and the text token is returned; else '<' was text *)
    ifs; try (apply txt_on_ok; [exact EX|cbn [List.length]; lia|cbn [List.length]; lia]); fin.
  - (* MEndOpen *) ifs; fin.
  - (* MBang *) ifs; try (apply gt_on_ok; exact EX); fin.
  - (* MGt *) apply gt_on_ok; exact EX.
  - (* MCom *) ifs; fin.
  - (* MComBang *) ifs; fin.
  - (* MTag *) apply tag_on_ok; exact EX.
  - (* MRaw *) apply raw_on_ok; [exact EX|lia|lia].
  - (* MRawLt *) ifs; [fin|]. apply raw_on_ok; [exact EX|cbn [List.length]; lia|cbn [List.length]; lia].
  - (* MRawM: the end tag is complete and the text token returned; or "</" and the matched bytes were text *)
    pose proof (push2_len LT SLASH matched_rev tb) as P. destruct todo as [|p0 todo].
    + ifs.
      * eapply res_ok_mono; [apply add_toks_ok, tag_on_ok; unfold MAXBUF in *; lia|lia].
      * apply raw_on_ok; [exact EX|lia|lia].
    + ifs; [fin|]. apply raw_on_ok; [exact EX|lia|lia].
  - (* MPlain *) fin.
  - (* MScr *) apply scr_on_ok; [exact EX|cbn [pending List.length]; lia].
  - (* MScrM: as MRawM, but in a double-escaped script a complete "</script" is text as well *)
    pose proof (push2_len LT SLASH matched_rev tb) as P. destruct todo as [|p0 todo].
    + ifs.
      * destruct cx.
        -- (* CData *) eapply res_ok_mono; [apply add_toks_ok, tag_on_ok; unfold MAXBUF in *; lia|lia].
        -- (* CEsc *) eapply res_ok_mono; [apply add_toks_ok, tag_on_ok; unfold MAXBUF in *; lia|lia].
        -- (* CDbl *) unfold res_ok, tk_inv, tk_acc, tk. cbn [fst snd tmd tcnt tbuf pending text_bytes List.length].
           unfold MAXBUF in *. lia.
      * apply scr_fail_ok; [exact EX|lia|lia].
    + ifs; [fin|]. apply scr_fail_ok; [exact EX|lia|lia].
  - (* MStop *) fin.
Qed.

Lemma tk_step_ok : forall s c, tk_inv s ->
  tk_inv (fst (tk_step s c)) /\ N.of_nat (text_bytes (snd (tk_step s c))) <= MAXBUF.
Proof.
  intros s c H. destruct (tk_step_res s c H) as [R1 R2]. split; [exact R2|].
  destruct H as [H1 H2]. fold (tk_acc s) in H2. lia.
Qed.

Lemma tk_fin_acc : forall s, (text_bytes (tk_fin s) <= tk_acc s)%nat.
Proof.
  intros [m n tb]. unfold tk_fin, tk_acc. cbn [tmd tbuf].
  destruct m; cbn [is_text_mode is_other_mode]; rewrite ?text_bytes_app, ?text_bytes_flush, ?push_len; cbn [text_bytes]; lia.
Qed.

Lemma tk_fin_ok : forall s, tk_inv s -> N.of_nat (text_bytes (tk_fin s)) <= MAXBUF.
Proof. intros s [H1 H2]. pose proof (tk_fin_acc s). fold (tk_acc s) in H2. lia. Qed.

Lemma tk_init_inv : tk_inv tk_init.
Proof. unfold tk_inv, tk_init, tk, MAXBUF. cbn. lia. Qed.

Lemma tk_run_bytes : forall l s, tk_inv s -> (text_bytes (tk_run s l) <= tk_acc s + List.length l)%nat.
Proof.
  induction l as [|c l IH]; intros s Hs.
  - cbn [tk_run List.length]. pose proof (tk_fin_acc s). lia.
  - cbn [tk_run List.length]. destruct (tk_step_res s c Hs) as [A I]. destruct (tk_step s c) as [s' ts].
    cbn [fst snd] in A, I. rewrite text_bytes_app. specialize (IH s' I). lia.
Qed.

Section Buffering.
  Variable T : Type.
  Variable tinit : T.
  Variable tfeed : T -> N -> T * list tok.
  Variable tfin : T -> list tok.
  (* library boundary: the tokenizer holds [theld] raw bytes of the token it is reading, never more than
     its buffer limit, and the text tokens one input byte completes carry at most that many bytes *)
  Variable theld : T -> N.
  Variable tinv : T -> Prop.
  Hypothesis tinv_held : forall t, tinv t -> theld t <= MAXBUF.
  Hypothesis tinv_init : tinv tinit.
  Hypothesis tinv_feed : forall t c, tinv t ->
    tinv (fst (tfeed t c)) /\ N.of_nat (text_bytes (snd (tfeed t c))) <= MAXBUF.
  Hypothesis tinv_fin : forall t, tinv t -> N.of_nat (text_bytes (tfin t)) <= MAXBUF.
  (* the largest Read of the source *)
  Variable B : N.

  Notation prod := (prod T).
  Notation dec := (dec T).

  Definition small (ch : bytes) : Prop := N.of_nat (List.length ch) <= B.
  Definition pinv (p : prod) : Prop :=
    tinv (p_tk p) /\ small (p_cur p) /\ Forall small (p_src p) /\ q_bytes (p_q p) <= 3 * MAXBUF.

  Lemma q_evs_bound : forall a ts, N.of_nat (text_bytes ts) <= MAXBUF -> q_bytes (evs_of (dw_toks a ts)) <= 3 * MAXBUF.
  Proof. intros a ts H. rewrite q_bytes_evs. pose proof (dw_toks_words ts a). lia. Qed.

  Lemma fill_cur_inv : forall cur t a, tinv t ->
    let '(t', a', cur', evs) := fill_cur T tfeed t a cur in
    tinv t' /\ (List.length cur' <= List.length cur)%nat /\ q_bytes evs <= 3 * MAXBUF.
  Proof.
    induction cur as [|c cur IH]; intros t a Ht.
    - cbn [fill_cur]. repeat split; [exact Ht|lia|cbn; unfold MAXBUF; lia].
    - cbn [fill_cur]. pose proof (tinv_feed t c Ht) as [F1 F2]. destruct (tfeed t c) as [t1 ts]. cbn [fst snd] in *.
      pose proof (q_evs_bound a ts F2) as Q.
      destruct (evs_of (dw_toks a ts)) as [|e evs] eqn:E.
      + specialize (IH t1 (w_act (dw_toks a ts)) F1).
        destruct (fill_cur T tfeed t1 (w_act (dw_toks a ts)) cur) as [[[t' a'] cur'] evs'].
        destruct IH as (I1 & I2 & I3). repeat split; [exact I1|cbn [List.length]; lia|exact I3].
      + repeat split; [exact F1|cbn [List.length]; lia|exact Q].
  Qed.

  Lemma fill_src_inv : forall src t a n, tinv t -> Forall small src ->
    let '(t', a', src', cur', evs, n') := fill_src T tfeed t a src n in
    tinv t' /\ small cur' /\ Forall small src' /\ q_bytes evs <= 3 * MAXBUF.
  Proof.
    induction src as [|ch src IH]; intros t a n Ht Hs.
    - cbn [fill_src]. repeat split; [exact Ht|unfold small; cbn; lia|constructor|cbn; unfold MAXBUF; lia].
    - cbn [fill_src]. inversion Hs as [|? ? Hch Hsrc]; subst.
      pose proof (fill_cur_inv ch t a Ht) as F. destruct (fill_cur T tfeed t a ch) as [[[t1 a1] cur1] ev1].
      destruct F as (F1 & F2 & F3). destruct ev1 as [|e ev1].
      + apply IH; assumption.
      + repeat split; [exact F1|unfold small in *; lia|exact Hsrc|exact F3].
  Qed.

  Lemma p_fill_inv : forall p, pinv p -> pinv (p_fill T tfeed tfin p).
  Proof.
    intros p (P1 & P2 & P3 & P4). unfold p_fill. destruct (p_q p) as [|e q] eqn:Q; [|unfold pinv; rewrite Q; repeat split; assumption].
    pose proof (fill_cur_inv (p_cur p) (p_tk p) (p_act p) P1) as F.
    destruct (fill_cur T tfeed (p_tk p) (p_act p) (p_cur p)) as [[[t1 a1] cur1] ev1]. destruct F as (F1 & F2 & F3).
    destruct ev1 as [|e1 ev1].
    - pose proof (fill_src_inv (p_src p) t1 a1 (p_consumed p) F1 P3) as G.
      destruct (fill_src T tfeed t1 a1 (p_src p) (p_consumed p)) as [[[[[t2 a2] src2] cur2] ev2] n2].
      destruct G as (G1 & G2 & G3 & G4). destruct ev2 as [|e2 ev2].
      + unfold pinv. cbn [p_tk p_cur p_src p_q]. repeat split; [exact G1|unfold small; cbn; lia|constructor|].
        apply q_evs_bound. rewrite text_bytes_app. cbn [text_bytes]. pose proof (tinv_fin t2 G1). lia.
      + unfold pinv. cbn [p_tk p_cur p_src p_q]. repeat split; assumption.
    - unfold pinv. cbn [p_tk p_cur p_src p_q]. repeat split; [exact F1|unfold small in *; lia|exact P3|exact F3].
  Qed.

  Lemma pipe_read_inv : forall k p, pinv p ->
    pinv (snd (pipe_read T tfeed tfin k p)) /\
    match fst (pipe_read T tfeed tfin k p) with PData b => (List.length b <= k)%nat | PClosed _ => True end.
  Proof.
    intros k p H. unfold pipe_read. pose proof (p_fill_inv p H) as (P1 & P2 & P3 & P4).
    destruct (p_q (p_fill T tfeed tfin p)) as [|[w|e] q] eqn:Q; cbn [fst snd].
    - split; [repeat split; try assumption; rewrite Q; exact P4|exact I].
    - split; [|apply firstn_le_length]. unfold pinv, set_q. cbn [p_tk p_cur p_src p_q]. repeat split; try assumption.
      cbn [q_bytes] in P4. destruct (skipn k w) as [|x w'] eqn:S; [lia|].
      cbn [q_bytes]. assert (List.length (x :: w') <= List.length w)%nat by (rewrite <- S, skipn_length; lia). lia.
    - split; [repeat split; try assumption; rewrite Q; exact P4|exact I].
  Qed.

  Lemma p_close_inv : forall e p, pinv p -> pinv (p_close T tfeed tfin e p).
  Proof.
    intros e p H. unfold p_close. pose proof (p_fill_inv p H) as (P1 & P2 & P3 & P4).
    destruct (p_q (p_fill T tfeed tfin p)) as [|[w|e1] q] eqn:Q.
    - unfold pinv, set_q. cbn [p_tk p_cur p_src p_q q_bytes]. repeat split; try assumption; try (unfold MAXBUF; lia).
    - unfold pinv, set_q. cbn [p_tk p_cur p_src p_q q_bytes]. repeat split; try assumption; try (unfold MAXBUF; lia).
    - repeat split; try assumption. rewrite Q. exact P4.
  Qed.

  Lemma refill_inv : forall fuel target nbuf rerr p, pinv p ->
    let '(nbuf', rerr', p') := refill T tfeed tfin fuel target nbuf rerr p in
    pinv p' /\ (List.length nbuf' <= Nat.max (List.length nbuf) target)%nat.
  Proof.
    induction fuel as [|fuel IH]; intros target nbuf rerr p H; cbn [refill]; [split; [exact H|lia]|].
    destruct (Nat.ltb (List.length nbuf) 4) eqn:L; [|split; [exact H|lia]].
    destruct rerr; [split; [exact H|lia]|].
    pose proof (pipe_read_inv (target - List.length nbuf) p H) as [R1 R2].
    destruct (pipe_read T tfeed tfin (target - List.length nbuf) p) as [[b|e] p1]; cbn [fst snd] in *.
    - specialize (IH target (nbuf ++ b) None p1 R1).
      destruct (refill T tfeed tfin fuel target (nbuf ++ b) None p1) as [[nbuf' rerr'] p'].
      destruct IH as [I1 I2]. split; [exact I1|]. rewrite app_length in I2. apply Nat.ltb_lt in L. lia.
    - split; [exact R1|lia].
  Qed.

  Definition cbound (c : cons) : Prop := (List.length (c_nbuf c) <= 1024)%nat /\ (List.length (c_out c) <= 768)%nat.
  Definition dinv (d : dec) : Prop := pinv (d_p d) /\ cbound (d_c d).

  Lemma dec_read0_inv : forall n d, dinv d -> dinv (snd (dec_read0 T tfeed tfin n d)).
  Proof.
    intros n d [P [C1 C2]]. unfold dinv, cbound.
    destruct (dec_read0_cases T tfeed tfin n d) as [x out O -> | e _ _ -> | nbuf rerr p' O _ R L ->
                                                   | rerr p' k chunk rest data bad O _ R _ Hl Hr _ Hd ->];
      cbn [snd d_c d_p c_nbuf c_out].
    - rewrite skipn_length, <- O. split; [exact P|]. split; [exact C1|lia].
    - split; [exact P|]. split; assumption.
    - pose proof (refill_inv 4 (clamp_nn n) (c_nbuf (d_c d)) (c_rerr (d_c d)) (d_p d) P) as I. rewrite R in I.
      split; [apply I|]. cbn [List.length]. lia.
    - pose proof (refill_inv 4 (clamp_nn n) (c_nbuf (d_c d)) (c_rerr (d_c d)) (d_p d) P) as I. rewrite R in I.
      destruct I as [I1 I2]. pose proof (clamp_ge4 n). rewrite app_length in I2.
      split; [exact I1|]. rewrite skipn_length. lia.
  Qed.

  Lemma dec_read_inv : forall n d, dinv d -> dinv (snd (dec_read T tfeed tfin n d)).
  Proof.
    intros n d H. unfold dec_read. pose proof (dec_read0_inv n d H) as I.
    destruct (dec_read0 T tfeed tfin n d) as [[b e] d1]. cbn [snd] in *. destruct e as [[|x]|]; cbn [snd]; try exact I.
    destruct I as [I1 I2]. split; [apply p_close_inv; exact I1|exact I2].
  Qed.

  (* the states a caller can bring the decoder into *)
  Inductive reach (chunks : list bytes) : dec -> Prop :=
  | reach_new : forall d, dec_new T tinit tfeed tfin chunks = NewOk T d -> reach chunks d
  | reach_read : forall d n, reach chunks d -> reach chunks (snd (dec_read T tfeed tfin n d)).

  Lemma p_init_inv : forall chunks, Forall small chunks -> pinv (p_init T tinit chunks).
  Proof. intros chunks H. unfold pinv, p_init. cbn. repeat split; [exact tinv_init|unfold small; cbn; lia|exact H|unfold MAXBUF; lia]. Qed.

  Lemma dec_new_inv : forall chunks, Forall small chunks ->
    match dec_new T tinit tfeed tfin chunks with NewOk _ d => dinv d | NewErr _ _ p => pinv p end.
  Proof.
    intros chunks Hs. unfold dec_new.
    pose proof (pipe_read_inv 1 (p_init T tinit chunks) (p_init_inv chunks Hs)) as [P _].
    destruct (pipe_read T tfeed tfin 1 (p_init T tinit chunks)) as [[[|v b]|e] p1]; cbn [snd] in P.
    - apply p_close_inv, P.
    - destruct (v =? VERSION); [|apply p_close_inv, P]. split; [exact P|]. split; cbn; lia.
    - destruct e; exact P.
  Qed.

  Lemma reach_inv : forall chunks d, Forall small chunks -> reach chunks d -> dinv d.
  Proof.
    intros chunks d Hs R. induction R as [d E|d n R IH].
    - pose proof (dec_new_inv chunks Hs) as I. rewrite E in I. exact I.
    - apply dec_read_inv. exact IH.
  Qed.

  (* everything the decoder holds: raw bytes of the token being read, the rest of the last source Read,
     the words of the current token not yet taken from the pipe, the base64 reader's two arrays *)
  Definition held (d : dec) : N :=
    theld (p_tk (d_p d)) + N.of_nat (List.length (p_cur (d_p d))) + q_bytes (p_q (d_p d)) +
    N.of_nat (List.length (c_nbuf (d_c d))) + N.of_nat (List.length (c_out (d_c d))).

  Theorem held_bound : forall chunks d, Forall small chunks -> reach chunks d ->
    held d <= 4 * MAXBUF + B + 1792.
  Proof.
    intros chunks d Hs R. destruct (reach_inv chunks d Hs R) as [(P1 & P2 & P3 & P4) [C1 C2]].
    unfold held. pose proof (tinv_held _ P1). unfold small in P2. unfold MAXBUF in *. lia.
  Qed.

  (* ... also when NewArmorDecoder fails *)
  Theorem held_bound_new : forall chunks e p, Forall small chunks -> dec_new T tinit tfeed tfin chunks = NewErr T e p ->
    theld (p_tk p) + N.of_nat (List.length (p_cur p)) + q_bytes (p_q p) <= 4 * MAXBUF + B.
  Proof.
    intros chunks e p Hs E. pose proof (dec_new_inv chunks Hs) as I. rewrite E in I.
    destruct I as (P1 & P2 & P3 & P4). pose proof (tinv_held _ P1). unfold small in P2. unfold MAXBUF in *. lia.
  Qed.
End Buffering.
