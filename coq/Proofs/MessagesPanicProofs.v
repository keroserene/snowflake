(* MessagesPanicProofs.v — proofs about Model/MessagesPanic.v (C12: the decoders of common/messages
   return a value or an error, never a panic). *)
From Coq Require Import List NArith Arith Bool Lia String.
From Snow Require Import Lib.Wire Model.JsonBoundary Model.Messages Model.MessagesPanic Proofs.MessagesProofs.
Import ListNotations.
Open Scope N_scope.

Definition is_dpanic {A} (r : dres A) : bool := match r with DPanic _ => true | DVal _ => false end.

Lemma split_dot_ne_fst : forall l, fst (split_dot_ne l) = before_dot l.
Proof.
  induction l as [|c r IH]; cbn [split_dot_ne before_dot]; [reflexivity|].
  destruct (split_dot_ne r) as [h t]. cbn [fst] in IH. destruct (c =? 46); cbn [fst]; [reflexivity|].
  rewrite IH. reflexivity.
Qed.

Lemma split_dot_head : forall l, nth_error (split_dot l) 0 = Some (before_dot l).
Proof.
  intros l. unfold split_dot. rewrite <- split_dot_ne_fst. destruct (split_dot_ne l) as [h t]. reflexivity.
Qed.

Lemma split_dot_nonempty : forall l, split_dot l <> [].
Proof. intros l. unfold split_dot. destruct (split_dot_ne l) as [h t]. discriminate. Qed.

Fixpoint count_dots (l : bytes) : nat :=
  match l with
  | [] => O
  | c :: r => if c =? 46 then S (count_dots r) else count_dots r
  end.

(* the library's specification: Count(s, ".") + 1 pieces, none contains a dot, joined by dots they are s *)
Lemma split_dot_spec : forall l,
  List.length (split_dot l) = S (count_dots l)
  /\ join [46] (split_dot l) = l
  /\ Forall (fun p => ~ In 46 p) (split_dot l).
Proof.
  unfold split_dot. induction l as [|c r IH]; cbn [split_dot_ne count_dots].
  - split; [reflexivity|]. split; [reflexivity|]. constructor; [intros []|constructor].
  - destruct (split_dot_ne r) as [h t]. destruct IH as (Hl & Hj & Hf).
    destruct (c =? 46) eqn:E.
    + apply N.eqb_eq in E. subst c. split; [cbn [List.length] in *; lia|]. split.
      * change (join [46] ([] :: h :: t)) with ([] ++ [46] ++ join [46] (h :: t)). rewrite Hj. reflexivity.
      * constructor; [intros []|exact Hf].
    + apply N.eqb_neq in E. split; [exact Hl|]. split.
      * destruct t as [|x t']; cbn [join] in *; [rewrite Hj; reflexivity|].
        rewrite <- Hj. reflexivity.
      * inversion Hf as [|p ps Hp Hps]; subst. constructor; [|exact Hps].
        intros [H|H]; [congruence|contradiction].
Qed.

Lemma go_index_safe : forall {A B} (l : list A) i (k : A -> dres B),
  (i < List.length l)%nat -> (forall x, is_dpanic (k x) = false) -> is_dpanic (go_index l i k) = false.
Proof.
  intros A B l i k Hi Hk. unfold go_index. destruct (nth_error l i) eqn:E; [apply Hk|].
  apply nth_error_None in E. lia.
Qed.

Lemma index0_safe : forall {A B} (l : list A) (k : A -> dres B),
  l <> [] -> (forall x, is_dpanic (k x) = false) -> is_dpanic (go_index l 0 k) = false.
Proof. intros A B l k Hl Hk. destruct l as [|x l]; [contradiction|]. apply Hk. Qed.

Definition split_ok (L : libs) : Prop := forall s, l_split L s <> [].

Lemma GO_split_ok : split_ok GO.
Proof. intros s. apply split_dot_nonempty. Qed.

Local Ltac open_fields ND SC := open_struct ND SC; cbn [get_str get_int get_ptr nth_error].

(* refinement: the fine decoders, as written and over the Go library, compute exactly the decoders of
   Model/Messages.v *)

Lemma proxy_poll_refines : forall v, decode_proxy_poll_code v = DVal (decode_proxy_poll v).
Proof.
  intros v. unfold decode_proxy_poll_code, decode_proxy_poll_g, decode_proxy_poll.
  open_fields nodup_poll_req poll_req_schema.
  unfold go_index. cbn [GO l_split]. rewrite split_dot_head. unfold major_ok.
  destruct (negb (beq _ (bs "1"))); [reflexivity|].
  destruct (beq _ []); [reflexivity|].
  destruct (norm_nat _); [|reflexivity].
  cbn [CODE g_nil andb]. destruct (last_ptr _ _); reflexivity.
Qed.

Lemma proxy_poll_legacy_refines : forall v, decode_proxy_poll_legacy_code v = DVal (decode_proxy_poll_legacy v).
Proof.
  intros v. unfold decode_proxy_poll_legacy_code, decode_proxy_poll_legacy_g, decode_proxy_poll_legacy.
  change (decode_proxy_poll_g CODE GO v) with (decode_proxy_poll_code v). rewrite proxy_poll_refines.
  destruct (decode_proxy_poll v) as [r|]; [|reflexivity]. destruct (beq (pq_pattern r) []); reflexivity.
Qed.

Lemma poll_response_refines : forall v, decode_poll_response_g v = DVal (decode_poll_response v).
Proof.
  intros v. unfold decode_poll_response_g, decode_poll_response.
  open_fields nodup_poll_resp poll_resp_schema.
  destruct (beq _ []); [reflexivity|].
  destruct (beq _ CLIENT_MATCH); [destruct (beq _ []); reflexivity|].
  destruct (beq _ NO_MATCH); reflexivity.
Qed.

Lemma poll_response_legacy_refines : forall v, decode_poll_response_legacy_g v = DVal (decode_poll_response_legacy v).
Proof.
  intros v. unfold decode_poll_response_legacy_g, decode_poll_response_legacy. rewrite poll_response_refines.
  destruct (decode_poll_response v) as [[[o n] u]|]; [|reflexivity]. destruct (beq u []); reflexivity.
Qed.

Lemma answer_request_refines : forall v, decode_answer_request_code v = DVal (decode_answer_request v).
Proof.
  intros v. unfold decode_answer_request_code, decode_answer_request_g, decode_answer_request.
  open_fields nodup_answer_req answer_req_schema.
  unfold go_index. cbn [GO l_split]. rewrite split_dot_head. unfold major_ok.
  destruct (negb (beq _ (bs "1"))); [reflexivity|].
  destruct (beq _ [] || beq _ []); reflexivity.
Qed.

Lemma answer_response_refines : forall v, decode_answer_response_g v = DVal (decode_answer_response v).
Proof.
  intros v. unfold decode_answer_response_g, decode_answer_response.
  open_fields nodup_answer_resp answer_resp_schema.
  destruct (beq _ []); reflexivity.
Qed.

Lemma client_poll_body_refines : forall v, decode_client_poll_body_g v = DVal (decode_client_poll_body v).
Proof.
  intros v. unfold decode_client_poll_body_g, decode_client_poll_body.
  open_fields nodup_client_req client_req_schema.
  destruct (beq _ []); [reflexivity|].
  destruct (negb (fingerprint_ok _)); [reflexivity|].
  destruct (norm_nat _); reflexivity.
Qed.

Lemma client_response_refines : forall v, decode_client_response_g v = DVal (decode_client_response v).
Proof.
  intros v. unfold decode_client_response_g, decode_client_response.
  open_fields nodup_client_resp client_resp_schema.
  destruct (beq _ [] && beq _ []); reflexivity.
Qed.

Lemma opt_decode_refines : forall {A} (dg : json -> dres A) (d : json -> result A) o,
  (forall v, dg v = DVal (d v)) -> opt_decode_g dg o = DVal (opt_decode d o).
Proof. intros A dg d [v|] H; [apply H|reflexivity]. Qed.

Lemma client_poll_refines : forall parse data, decode_client_poll_code parse data = DVal (decode_client_poll parse data).
Proof.
  intros parse data. unfold decode_client_poll_code, decode_client_poll_g, decode_client_poll.
  cbn [CODE g_len andb GO l_splitn]. unfold splitn_nl. destruct (split_nl data) as [[ver body]|].
  - cbn [List.length Nat.ltb Nat.leb]. unfold go_index. cbn [nth_error].
    destruct (beq ver CLIENT_VERSION); cbn [negb]; [|reflexivity].
    apply opt_decode_refines. apply client_poll_body_refines.
  - reflexivity.
Qed.

(* no decoder panics.  Value level, for every JSON value, any library whose Split returns at least one element; the decoders
   that call no library function are covered by their refinement. *)

Lemma refines_safe : forall {A} (dg : json -> dres A) (d : json -> result A),
  (forall v, dg v = DVal (d v)) -> forall v, is_dpanic (dg v) = false.
Proof. intros A dg d H v. rewrite H. reflexivity. Qed.

Lemma proxy_poll_safe : forall L v, split_ok L -> is_dpanic (decode_proxy_poll_g CODE L v) = false.
Proof.
  intros L v HL. unfold decode_proxy_poll_g. open_fields nodup_poll_req poll_req_schema.
  apply index0_safe; [apply HL|]. intros major.
  destruct (negb (beq major (bs "1"))); [reflexivity|].
  destruct (beq _ []); [reflexivity|].
  destruct (norm_nat _); [|reflexivity].
  cbn [CODE g_nil andb]. destruct (last_ptr _ _); reflexivity.
Qed.

Lemma proxy_poll_legacy_safe : forall L v, split_ok L -> is_dpanic (decode_proxy_poll_legacy_g CODE L v) = false.
Proof.
  intros L v HL. unfold decode_proxy_poll_legacy_g. pose proof (proxy_poll_safe L v HL) as H.
  destruct (decode_proxy_poll_g CODE L v) as [[r|]|w]; [|reflexivity|discriminate].
  destruct (beq (pq_pattern r) []); reflexivity.
Qed.

Lemma answer_request_safe : forall L v, split_ok L -> is_dpanic (decode_answer_request_g L v) = false.
Proof.
  intros L v HL. unfold decode_answer_request_g. open_fields nodup_answer_req answer_req_schema.
  apply index0_safe; [apply HL|]. intros major.
  destruct (negb (beq major (bs "1"))); [reflexivity|].
  destruct (beq _ [] || beq _ []); reflexivity.
Qed.

Lemma opt_decode_g_safe : forall {A} (d : json -> dres A) o,
  (forall v, is_dpanic (d v) = false) -> is_dpanic (opt_decode_g d o) = false.
Proof. intros A d [v|] H; [apply H|reflexivity]. Qed.

(* the client decoder: `len(parts) < 2` covers both indexings for ANY slice the library could return *)
Lemma client_poll_safe : forall L parse data, is_dpanic (decode_client_poll_g CODE L parse data) = false.
Proof.
  intros L parse data. unfold decode_client_poll_g. cbn [CODE g_len andb].
  destruct (List.length (l_splitn L data) <? 2)%nat eqn:E; [reflexivity|].
  apply Nat.ltb_ge in E.
  apply go_index_safe; [lia|]. intros p0.
  destruct (negb (beq p0 CLIENT_VERSION)); [reflexivity|].
  apply go_index_safe; [lia|]. intros p1.
  apply opt_decode_g_safe. apply (refines_safe _ _ client_poll_body_refines).
Qed.

Lemma not_panic : forall {A} (r : dres A), is_dpanic r = false -> forall w, r <> DPanic w.
Proof. intros A r H w E. subst r. discriminate. Qed.

(* all eight exported decoders, bytes level, through the library parser *)
Definition never_panics (L : libs) (parse : bytes -> option json) (data : bytes) : Prop :=
  forall w,
    opt_decode_g (decode_proxy_poll_g CODE L) (parse data) <> DPanic w
    /\ opt_decode_g (decode_proxy_poll_legacy_g CODE L) (parse data) <> DPanic w
    /\ opt_decode_g decode_poll_response_g (parse data) <> DPanic w
    /\ opt_decode_g decode_poll_response_legacy_g (parse data) <> DPanic w
    /\ opt_decode_g (decode_answer_request_g L) (parse data) <> DPanic w
    /\ opt_decode_g decode_answer_response_g (parse data) <> DPanic w
    /\ decode_client_poll_g CODE L parse data <> DPanic w
    /\ opt_decode_g decode_client_response_g (parse data) <> DPanic w.

Theorem decoders_never_panic_lib : forall L, split_ok L -> forall parse data, never_panics L parse data.
Proof.
  intros L HL parse data w.
  repeat split; apply not_panic; try apply opt_decode_g_safe; try apply client_poll_safe; intros v.
  - apply proxy_poll_safe, HL.
  - apply proxy_poll_legacy_safe, HL.
  - apply (refines_safe _ _ poll_response_refines).
  - apply (refines_safe _ _ poll_response_legacy_refines).
  - apply answer_request_safe, HL.
  - apply (refines_safe _ _ answer_response_refines).
  - apply (refines_safe _ _ client_response_refines).
Qed.

Lemma encode_client_poll_safe : forall offer nat fp,
  encode_client_poll_g (Some (offer, nat, fp)) = DVal (Ok (encode_client_poll offer nat fp)).
Proof. reflexivity. Qed.

Lemma encode_client_response_safe : forall resp, is_dpanic (encode_client_response_g resp) = false.
Proof. intros [[a e]|]; reflexivity. Qed.
