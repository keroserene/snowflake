(* PacketPathProofs.v — composition for C01: what reaches the receiving KCP endpoint over a Snowflake
   carrier that may be cut at any byte offset and fragmented in any way is a prefix of the packets the
   sending endpoint wrote on that carrier — in both directions. Built on C09 (EncapProofs) and C05
   (CarrierProofs). *)
From Coq Require Import List NArith Bool Arith Lia.
From Snow Require Import Lib.Wire Lib.ListFacts Model.Encap Proofs.EncapProofs Model.CarrierLayer Proofs.CarrierProofs.
Import ListNotations.
Open Scope N_scope.

Definition carrier_stream (cid : bytes) (w : bytes) : bytes := TOKEN ++ cid ++ w.

Lemma open_pump_decode : forall fuel b, (length b < fuel)%nat ->
  fst (fst (open_pump fuel b)) = fst (parse_stream fuel b).
Proof.
  induction fuel as [|f IH]; intros b Hf; [lia|].
  rewrite open_pump_S, parse_stream_S.
  destruct (parse_one b) as [isd d rest| | |] eqn:Ep; try reflexivity.
  pose proof (parse_one_shrinks _ _ _ _ Ep) as Hsh.
  specialize (IH rest ltac:(lia)).
  destruct (open_pump f rest) as [[ps t] dd]. destruct (parse_stream f rest) as [ds e].
  cbn [fst] in *. destruct isd; cbn [fst]; congruence.
Qed.

Lemma wire_chunks : forall ps w, wire_of ps = Some w ->
  exists cs, w = chunks_bytes cs /\ Forall chunk_wf cs /\ chunks_datas cs = ps.
Proof.
  intros ps w H. pose proof (wire_of_items_ok ps w H) as Hok.
  destruct (encode_items_chunks (map Data ps) Hok) as [cs [He [Hwf Hd]]].
  rewrite <- wire_of_encode, H in He. injection He as ->.
  exists cs. split; [reflexivity|]. split; [exact Hwf|]. rewrite Hd. apply datas_map_data.
Qed.

(* a cut framed stream yields a prefix of the packets, through the carrier read loop *)
Theorem open_pump_cut : forall ps w k, wire_of ps = Some w ->
  exists j, fst (fst (open_pump (S (length (firstn k w))) (firstn k w))) = firstn j ps.
Proof.
  intros ps w k H. destruct (wire_chunks ps w H) as [cs [-> [Hwf Hd]]].
  rewrite open_pump_decode by lia.
  destruct (truncation_prefix cs k Hwf) as [j [e [Hdec _]]].
  unfold decode_stream in Hdec. rewrite Hdec. cbn [fst]. exists j. rewrite Hd. reflexivity.
Qed.

(* and through any io.Reader on the client side (downstream direction) *)
Theorem reader_cut : forall ps w k sc, wire_of ps = Some w ->
  exists j e, read_stream (firstn k w) sc = (firstn j ps, e) /\ (e = EOF \/ e = UnexpectedEOF).
Proof.
  intros ps w k sc H. destruct (wire_chunks ps w H) as [cs [-> [Hwf Hd]]].
  rewrite read_stream_independent.
  destruct (truncation_prefix cs k Hwf) as [j [e [Hdec He]]].
  exists j, e. rewrite Hdec, Hd. split; [reflexivity | exact He].
Qed.

Definition fresh (s : bytes) : carrier := with_buf s new_carrier.
Definition kc (st : kstate) (cid buf : bytes) : carrier :=
  {| k_state := st; k_cid := cid; k_buf := buf; k_up := []; k_down := []; k_wire := [] |}.

Lemma pump_token_short f s : (length s < 8)%nat -> pump (S f) (fresh s) = (fresh s, []).
Proof.
  intros H. cbn [pump fresh with_buf new_carrier k_state k_buf].
  destruct (Nat.ltb_spec (length s) 8) as [_|Hc]; [reflexivity | lia].
Qed.

Lemma pump_token_ok f s : (8 <= length s)%nat -> firstn 8 s = TOKEN ->
  pump (S f) (fresh s) = pump f (kc K_ClientID [] (skipn 8 s)).
Proof.
  intros H Ht. cbn [pump fresh with_buf new_carrier k_state k_buf k_up k_down k_wire].
  destruct (Nat.ltb_spec (length s) 8) as [Hc|_]; [lia|]. rewrite Ht. reflexivity.
Qed.

Lemma pump_cid_short f b : (length b < 8)%nat -> pump (S f) (kc K_ClientID [] b) = (kc K_ClientID [] b, []).
Proof.
  intros H. cbn [pump kc k_state k_buf].
  destruct (Nat.ltb_spec (length b) 8) as [_|Hc]; [reflexivity | lia].
Qed.

Lemma pump_cid_ok f b : (8 <= length b)%nat ->
  pump (S f) (kc K_ClientID [] b) = pump f (kc K_Open (firstn 8 b) (skipn 8 b)).
Proof.
  intros H. cbn [pump kc k_state k_buf k_up k_down k_wire].
  destruct (Nat.ltb_spec (length b) 8) as [Hc|_]; [lia | reflexivity].
Qed.

Lemma pump_open_cut f cid ps w k : wire_of ps = Some w -> (length (firstn k w) < f)%nat ->
  exists k' j, pump f (kc K_Open cid (firstn k w)) = (k', firstn j ps) /\ k_up k' = firstn j ps /\ k_cid k' = cid.
Proof.
  intros Hw Hf. set (b := firstn k w) in *.
  pose proof (pump_is_open_pump f (kc K_Open cid b) eq_refl) as Hop. cbn [kc k_buf k_cid] in Hop.
  rewrite (open_pump_fuel f (S (length b)) b) in Hop by lia.
  destruct (open_pump_cut ps w k Hw) as [j Hj]. fold b in Hj.
  destruct (open_pump (S (length b)) b) as [[ps' t] dd]. cbn [fst] in Hj. subst ps'.
  destruct Hop as [k' [Hp [_ [_ Hcid]]]].
  pose proof (po_up _ _ _ (pump_spec f (kc K_Open cid b))) as Hup. rewrite Hp in Hup. cbn in Hup.
  exists k', j. split; [exact Hp|]. split; [exact Hup | exact Hcid].
Qed.

(* A carrier whose upstream is an honest sender's stream cut at ANY byte offset: the server queues a prefix
   of the sender's packets, all under the sender's ClientID, and nothing else. *)
Theorem upstream_cut : forall cid ps w k,
  length cid = 8%nat -> wire_of ps = Some w ->
  let s := firstn k (carrier_stream cid w) in
  exists k' j, pump (S (S (S (length s)))) (fresh s) = (k', firstn j ps) /\ k_up k' = firstn j ps /\ (j <> 0%nat -> k_cid k' = cid).
Proof.
  intros cid ps w k Hc Hw s.
  assert (Hs : s = firstn k TOKEN ++ firstn (k - 8) cid ++ firstn (k - 8 - 8) w).
  { unfold s, carrier_stream. rewrite firstn_app. f_equal. rewrite firstn_app, Hc. reflexivity. }
  destruct (Nat.lt_ge_cases k 8) as [Hk8|Hk8].
  { assert (Ls : (length s < 8)%nat).
    { rewrite Hs. replace (k - 8)%nat with 0%nat by lia. cbn [firstn app]. rewrite app_nil_r, firstn_length. cbn. lia. }
    rewrite pump_token_short by exact Ls. exists (fresh s), 0%nat. repeat split. congruence. }
  assert (Hpre : s = TOKEN ++ firstn (k - 8) cid ++ firstn (k - 8 - 8) w)
    by (rewrite Hs, (firstn_all2 TOKEN) by (cbn; lia); reflexivity).
  assert (Ht : firstn 8 s = TOKEN) by (rewrite Hpre; reflexivity).
  assert (Hsk : skipn 8 s = firstn (k - 8) cid ++ firstn (k - 8 - 8) w) by (rewrite Hpre; reflexivity).
  assert (Ls8 : (8 <= length s)%nat) by (rewrite Hpre, app_length; cbn; lia).
  rewrite pump_token_ok by assumption. rewrite Hsk.
  destruct (Nat.lt_ge_cases k 16) as [Hk16|Hk16].
  { replace (k - 8 - 8)%nat with 0%nat by lia. cbn [firstn]. rewrite app_nil_r.
    rewrite pump_cid_short by (rewrite firstn_length; lia).
    eexists _, 0%nat. repeat split. congruence. }
  rewrite (firstn_all2 cid) by lia.
  rewrite pump_cid_ok by (rewrite app_length; lia).
  assert (Hf8 : firstn 8 (cid ++ firstn (k - 8 - 8) w) = cid)
    by (rewrite firstn_app_le by lia; apply firstn_all2; lia).
  assert (Hs8 : skipn 8 (cid ++ firstn (k - 8 - 8) w) = firstn (k - 8 - 8) w)
    by (rewrite skipn_app, Hc, Nat.sub_diag, (skipn_all2 cid) by lia; reflexivity).
  rewrite Hf8, Hs8.
  destruct (pump_open_cut (S (length s)) cid ps w (k - 8 - 8) Hw) as [k' [j [Hp [Hup Hcid]]]].
  { rewrite Hpre, !app_length. cbn. lia. }
  exists k', j. split; [exact Hp|]. split; [exact Hup | intros _; exact Hcid].
Qed.

Definition is_prefix {A} (a b : list A) : Prop := exists c, b = a ++ c.

(* what the server queues from one carrier fed the cut stream *)
Definition queued_from (cid w : bytes) (k : nat) : list bytes :=
  let s := firstn k (carrier_stream cid w) in snd (pump (S (S (S (length s)))) (fresh s)).

(* what the client's packet adapter reads from one carrier's cut downstream under reader script sc *)
Definition read_from (w : bytes) (k : nat) (sc : script) : list bytes := fst (read_stream (firstn k w) sc).

Lemma queued_from_sub cid ps w k p : length cid = 8%nat -> wire_of ps = Some w ->
  In p (queued_from cid w k) -> In p ps.
Proof.
  intros Hc Hw Hin. unfold queued_from in Hin.
  destruct (upstream_cut cid ps w k Hc Hw) as [k' [j [Hp _]]]. cbn zeta in Hp. rewrite Hp in Hin. cbn [snd] in Hin.
  eapply (In_firstn_subset j). exact Hin.
Qed.

Lemma read_from_sub ps w k sc p : wire_of ps = Some w -> In p (read_from w k sc) -> In p ps.
Proof.
  intros Hw Hin. unfold read_from in Hin. destruct (reader_cut ps w k sc Hw) as [j [e [Hr _]]].
  rewrite Hr in Hin. cbn [fst] in Hin. eapply (In_firstn_subset j). exact Hin.
Qed.

Section ArqBoundary.
  (* kcp-go + smux, as far as the Snowflake layers rely on them: a sending endpoint that has been written
     [written] emits packets [sent] (retransmissions included); a receiving endpoint that has been handed the
     packets [recv], in that order, delivers the byte stream [stream_of recv]. The hypothesis is the safety half
     of ARQ: as long as every packet handed to the receiver is an unmodified packet of the peer endpoint, the
     delivered stream is a prefix of what was written (no missing, duplicated, reordered or foreign byte). *)
  Variable packets_of : bytes -> list bytes -> Prop.
  Variable stream_of : list bytes -> bytes.
  Hypothesis arq_safe : forall written sent recv,
    packets_of written sent -> (forall p, In p recv -> In p sent) -> is_prefix (stream_of recv) written.

  (* one direction of one session carried over any number of carriers, each an honest sender's framed packets
     (any subset/repetition of the endpoint's packets), each cut at any byte offset *)
  Record ucarrier := { u_ps : list bytes; u_w : bytes; u_cut : nat }.

  Theorem upstream_stream_prefix : forall written sent cid (cs : list ucarrier) recv,
    length cid = 8%nat -> packets_of written sent ->
    (forall c, In c cs -> wire_of (u_ps c) = Some (u_w c) /\ forall p, In p (u_ps c) -> In p sent) ->
    (forall p, In p recv -> exists c, In c cs /\ In p (queued_from cid (u_w c) (u_cut c))) ->
    is_prefix (stream_of recv) written.
  Proof.
    intros written sent cid cs recv Hc Hpk Hcs Hrecv. apply (arq_safe written sent recv Hpk).
    intros p Hin. destruct (Hrecv p Hin) as [c [Hc_in Hq]]. destruct (Hcs c Hc_in) as [Hw Hsub].
    apply Hsub. eapply queued_from_sub; eassumption.
  Qed.

  Record dcarrier := { d_ps : list bytes; d_w : bytes; d_cut : nat; d_sc : script }.

  Theorem downstream_stream_prefix : forall written sent (cs : list dcarrier) recv,
    packets_of written sent ->
    (forall c, In c cs -> wire_of (d_ps c) = Some (d_w c) /\ forall p, In p (d_ps c) -> In p sent) ->
    (forall p, In p recv -> exists c, In c cs /\ In p (read_from (d_w c) (d_cut c) (d_sc c))) ->
    is_prefix (stream_of recv) written.
  Proof.
    intros written sent cs recv Hpk Hcs Hrecv. apply (arq_safe written sent recv Hpk).
    intros p Hin. destruct (Hrecv p Hin) as [c [Hc_in Hq]]. destruct (Hcs c Hc_in) as [Hw Hsub].
    apply Hsub. eapply read_from_sub; eassumption.
  Qed.
End ArqBoundary.
