(* ScrubFailProofs.v — a failing sink only delays: the accepted output is that of the merged writes. *)
From Coq Require Import List.
From Snow Require Import Model.Scrub Model.ScrubFail Proofs.ScrubProofs.
Import ListNotations.

Lemma write_assoc : forall sc buf carry b, write sc (buf ++ carry) b = write sc buf (carry ++ b).
Proof. intros sc buf carry b. unfold write. rewrite <- app_assoc. reflexivity. Qed.

Lemma run_writes_f_merge : forall sc ws buf carry,
  run_writes_f sc (buf ++ carry) ws =
  (let (m, c) := merge_writes carry ws in
   let (o, p) := run_writes (write sc) buf m in (o, p ++ c)).
Proof.
  intros sc ws. induction ws as [|[b ok] r IH]; intros buf carry.
  - cbn [run_writes_f merge_writes run_writes]. reflexivity.
  - destruct ok.
    + cbn [run_writes_f merge_writes]. unfold write_f. cbn [fst snd].
      rewrite write_assoc.
      destruct (merge_writes [] r) as [m c] eqn:Em. cbn [run_writes].
      destruct (write sc buf (carry ++ b)) as [o1 buf1].
      specialize (IH buf1 []). rewrite app_nil_r in IH. rewrite IH, Em.
      destruct (run_writes (write sc) buf1 m) as [o p]. reflexivity.
    + cbn [run_writes_f merge_writes]. unfold write_f. cbn [fst snd].
      rewrite <- app_assoc. rewrite (IH buf (carry ++ b)).
      destruct (merge_writes (carry ++ b) r) as [m c].
      destruct (run_writes (write sc) buf m) as [o p]. reflexivity.
Qed.

Theorem failing_sink_delays_only : forall sc ws,
  run_writes_f sc [] ws =
  (let (m, c) := merge_writes [] ws in
   let (o, p) := run_writes (write sc) [] m in (o, p ++ c)).
Proof. intros sc ws. exact (run_writes_f_merge sc ws [] []). Qed.

Lemma merge_concat : forall ws carry m c, merge_writes carry ws = (m, c) ->
  concat m ++ c = carry ++ concat (map fst ws).
Proof.
  induction ws as [|[b ok] r IH]; intros carry m c H.
  - cbn in H. inversion H; subst. cbn. rewrite app_nil_r. reflexivity.
  - destruct ok; cbn [merge_writes] in H.
    + destruct (merge_writes [] r) as [m' c'] eqn:E. inversion H; subst.
      specialize (IH [] m' c E). cbn [concat map fst]. rewrite <- app_assoc, IH. cbn [app]. rewrite <- app_assoc. reflexivity.
    + specialize (IH (carry ++ b) m c H). rewrite IH. cbn [map fst concat]. rewrite <- app_assoc. reflexivity.
Qed.

(* with a sink that fails at any of the Writes: everything the sink accepted is the scrubbed form of complete lines of the
   stream, in order, and nothing is lost: accepted lines ++ what is still buffered = all bytes written *)
Theorem failing_sink_complete_lines : forall sc ws outs pend,
  run_writes_f sc [] ws = (outs, pend) ->
  exists lines, outs = map sc lines /\ Forall is_line lines /\ concat lines ++ pend = concat (map fst ws).
Proof.
  intros sc ws outs pend H. rewrite failing_sink_delays_only in H.
  destruct (merge_writes [] ws) as [m c] eqn:Em.
  destruct (run_writes (write sc) [] m) as [o p] eqn:Er. injection H as Ho' Hp'. subst outs pend.
  destruct (write_complete_lines sc m o p Er) as (lines & Ho & Hl & Hc & _).
  exists lines. split; [exact Ho|]. split; [exact Hl|].
  pose proof (merge_concat ws [] m c Em) as Hm. cbn [app] in Hm.
  rewrite app_assoc, Hc. exact Hm.
Qed.
