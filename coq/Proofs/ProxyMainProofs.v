(* ProxyMainProofs.v — the proxy's main(): which flags reach the relay URL test (Model/ProxyMain.v), composed with the
   session and life-time theorems of Proofs/ProxyRelayProofs.v. *)
From Coq Require Import List NArith.
From Snow Require Import Model.NameMatcher Model.RelayCheck Model.ProxyRelay Model.ProxyMain.
From Snow Require Import Proofs.ProxyRelayProofs.
Import ListNotations.
Open Scope N_scope.

(* AllowNonTLSRelay of the proxy main() starts is the -allow-non-tls-relay flag: no other flag, and nothing in
   Start(), has a say *)
Lemma main_allow_is_flag : forall f, pc_allow_non_tls (proxy_config_of_flags f) = fl_allow_non_tls f.
Proof. reflexivity. Qed.

Lemma main_pattern_is_flag : forall f,
  pc_pattern (proxy_config_of_flags f) = flag_or DEFAULT_RELAY_PATTERN (fl_pattern f).
Proof. reflexivity. Qed.

Lemma main_relay_is_flag : forall f,
  pc_relay_url (proxy_config_of_flags f) = or_default DEFAULT_RELAY_URL (flag_or DEFAULT_RELAY_URL (fl_relay f)).
Proof. reflexivity. Qed.

(* what the relay URL test reads of the command line: two flags *)
Lemma main_check_cfg : forall f,
  check_cfg (proxy_config_of_flags f) = mk_proxy_cfg (flag_or DEFAULT_RELAY_PATTERN (fl_pattern f)) (fl_allow_non_tls f).
Proof. reflexivity. Qed.

Lemma proxy_main_some : forall lib f c, proxy_main lib f = Some c -> c = proxy_config_of_flags f.
Proof. intros lib f c H. unfold proxy_main in H. destruct (start_ok lib (proxy_config_of_flags f)); congruence. Qed.

(* over the whole life of the process: every string handed to the websocket dialer is printed from the operator's own
   RelayURL, or makes the dialer connect (if at all) over TLS to a host inside the pattern flag *)
Lemma main_life_without_flag : forall lib f evs st outs t,
  redial_preserves lib ->
  fl_allow_non_tls f = false ->
  proxy_main_run lib f evs = Some (st, outs) ->
  In t (ps_dials st) ->
  (exists ip, t = ul_redial lib (or_default DEFAULT_RELAY_URL (flag_or DEFAULT_RELAY_URL (fl_relay f))) ip)
  \/ (forall tls h, ws_dial lib t = DialTo tls h ->
        tls = true /\ is_member (new_matcher (flag_or DEFAULT_RELAY_PATTERN (fl_pattern f))) h = true).
Proof.
  intros lib f evs st outs t RP Hf Hr Hin. unfold proxy_main_run in Hr.
  destruct (proxy_main lib f) as [c|] eqn:Hm; [|discriminate]. inversion Hr as [Hp]. clear Hr.
  apply proxy_main_some in Hm. subst c.
  assert (Hin' : In t (ps_dials (fst (prun lib (pinit (proxy_config_of_flags f)) evs)))) by (rewrite Hp; exact Hin).
  destruct (proxy_life_dials_sound lib _ evs t RP Hin') as [[ip Ht]|H].
  - left. exists ip. exact Ht.
  - right. intros tls h Hd. destruct (H tls h Hd) as [M [T|T]].
    + split; [exact T|exact M].
    + rewrite main_allow_is_flag, Hf in T. discriminate.
Qed.
