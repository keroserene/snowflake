(* QueueConnProofs.v — QueuePacketConn (Model/QueueConn.v): the receive queue is FIFO and
   bounded, operations never wait (a full queue drops); after Close, ReadFrom / WriteTo / Close
   fail and QueueIncoming drops (the client map's own operations go on: [fails_closed]). *)
From Coq Require Import List NArith ZArith Bool Arith Lia.
From Snow Require Import Model.ClientMap Model.QueueConn.
Import ListNotations.

Section QC.
  Variable cap : nat.
  Variable timeout : Z.

  Lemma qrun_cons : forall o ops s,
    qrun cap timeout (o :: ops) s =
      (fst (qrun cap timeout ops (fst (qstep cap timeout s o))),
       snd (qstep cap timeout s o) :: snd (qrun cap timeout ops (fst (qstep cap timeout s o)))).
  Proof. intros. simpl. destruct (qstep cap timeout s o) as [s1 r]. simpl. destruct (qrun cap timeout ops s1). reflexivity. Qed.

  Lemma qrun_fst : forall ops s,
    fst (qrun cap timeout ops s) = fold_left (fun s o => fst (qstep cap timeout s o)) ops s.
  Proof. induction ops as [|o ops IH]; intros s; [reflexivity|]. rewrite qrun_cons. apply IH. Qed.

  Lemma qrun_app : forall ops1 ops2 s,
    fst (qrun cap timeout (ops1 ++ ops2) s) = fst (qrun cap timeout ops2 (fst (qrun cap timeout ops1 s))).
  Proof. intros. rewrite !qrun_fst. apply fold_left_app. Qed.

  Lemma qrun_preserves_if : forall (P : qconn -> Prop) (f : qop -> bool),
    (forall s o, f o = true -> P s -> P (fst (qstep cap timeout s o))) ->
    forall ops s, forallb f ops = true -> P s -> P (fst (qrun cap timeout ops s)).
  Proof.
    intros P f Hstep ops. induction ops as [|o ops IH]; intros s Hf H; [exact H|].
    simpl in Hf. apply andb_prop in Hf. rewrite qrun_cons. apply IH; [apply Hf | apply Hstep; [apply Hf | exact H]].
  Qed.

  Lemma qrun_preserves : forall P : qconn -> Prop,
    (forall s o, P s -> P (fst (qstep cap timeout s o))) ->
    forall ops s, P s -> P (fst (qrun cap timeout ops s)).
  Proof.
    intros P Hstep ops s. apply (qrun_preserves_if P (fun _ => true)); [auto|].
    apply forallb_forall. reflexivity.
  Qed.

  (* the operations of the client map (WriteTo, the two receives, the sweep) leave the receive queue
     and the flag alone; what they do to the map and what they answer, without the destructuring
     lets of [qstep] *)
  Definition is_cm_op (o : qop) : bool :=
    match o with QWrite _ _ _ | QOutRecv _ _ | QHeldRecv _ | QSweep _ => true | _ => false end.

  Definition clients_after (closed : bool) (c : cmap) (o : qop) : cmap :=
    match o with
    | QWrite p a now =>
        if closed then c else fst (q_send cap (snd (send_queue a now c)) p (fst (send_queue a now c)))
    | QOutRecv a now => fst (q_recv (snd (send_queue a now c)) (fst (send_queue a now c)))
    | QHeldRecv k => fst (q_recv k c)
    | QSweep now => remove_expired now timeout c
    | _ => c
    end.

  Definition cout (closed : bool) (c : cmap) (o : qop) : qout :=
    match o with
    | QWrite p a now =>
        if closed then OErrClosed
        else OWrote (length p) (snd (send_queue a now c))
                    (snd (q_send cap (snd (send_queue a now c)) p (fst (send_queue a now c))))
    | QOutRecv a now =>
        ORecv (snd (send_queue a now c)) (snd (q_recv (snd (send_queue a now c)) (fst (send_queue a now c))))
    | QHeldRecv k => ORecv k (snd (q_recv k c))
    | _ => ONone
    end.

  Lemma qstep_cm : forall s o, is_cm_op o = true ->
    qstep cap timeout s o =
      (mkqc (recvq s) (clients_after (qclosed s) (clients s) o) (qclosed s), cout (qclosed s) (clients s) o).
  Proof.
    intros [rq c cl] o H. destruct o; try discriminate; simpl.
    - destruct cl; [reflexivity|]. destruct (send_queue a now c) as [c1 k]. simpl.
      destruct (q_send cap k p c1). reflexivity.
    - destruct (send_queue a now c) as [c1 k]. simpl. destruct (q_recv k c1). reflexivity.
    - destruct (q_recv k c). reflexivity.
    - reflexivity.
  Qed.

  Lemma qstep_clients : forall s o,
    clients (fst (qstep cap timeout s o)) = clients_after (qclosed s) (clients s) o.
  Proof.
    intros s o. destruct (is_cm_op o) eqn:E; [rewrite qstep_cm by exact E; reflexivity|].
    destruct o; try discriminate; simpl.
    - destruct (qclosed s); [|destruct (length (recvq s) <? cap)]; reflexivity.
    - destruct (qclosed s); [|destruct (recvq s) as [|[p a] q]]; reflexivity.
    - destruct (qclosed s); reflexivity.
  Qed.

  Lemma qincoming_spec : forall s p a,
    qstep cap timeout s (QIncoming p a) =
      if negb (qclosed s) && (length (recvq s) <? cap)
      then (mkqc (recvq s ++ [(p, a)]) (clients s) (qclosed s), OIncoming true)
      else (s, OIncoming false).
  Proof. intros. simpl. destruct (qclosed s); simpl; auto. Qed.

  Lemma qstep_bound : forall s o, length (recvq s) <= cap -> length (recvq (fst (qstep cap timeout s o))) <= cap.
  Proof.
    intros s o H. destruct (is_cm_op o) eqn:E; [rewrite qstep_cm by exact E; exact H|].
    destruct o; try discriminate; simpl.
    - destruct (qclosed s); simpl; auto. destruct (length (recvq s) <? cap) eqn:L; simpl; auto.
      apply Nat.ltb_lt in L. rewrite app_length. simpl. lia.
    - destruct (qclosed s); simpl; auto. destruct (recvq s) as [|[p a] q] eqn:Eq; simpl in *; [rewrite Eq; simpl; lia | lia].
    - destruct (qclosed s); simpl; auto.
  Qed.

  Lemma qrun_bound : forall ops s, length (recvq s) <= cap -> length (recvq (fst (qrun cap timeout ops s))) <= cap.
  Proof. apply (qrun_preserves (fun s => length (recvq s) <= cap)), qstep_bound. Qed.

  Definition fails_closed (o : qop) (r : qout) : Prop :=
    match o with
    | QIncoming _ _ => r = OIncoming false          (* silently dropped *)
    | QRead _ => r = OErrClosed
    | QWrite _ _ _ => r = OErrClosed
    | QClose => r = OErrClosed
    | QOutRecv _ _ | QHeldRecv _ | QSweep _ => True   (* the client map is not closed by Close *)
    end.

  Lemma qstep_closed : forall s o, qclosed s = true ->
    qclosed (fst (qstep cap timeout s o)) = true /\ recvq (fst (qstep cap timeout s o)) = recvq s /\
    fails_closed o (snd (qstep cap timeout s o)).
  Proof.
    intros s o H. destruct (is_cm_op o) eqn:E.
    - rewrite qstep_cm by exact E. rewrite H. destruct o; try discriminate; simpl; auto.
    - destruct o; try discriminate; simpl; rewrite H; simpl; auto.
  Qed.

  Lemma qrun_closed : forall ops s, qclosed s = true ->
    qclosed (fst (qrun cap timeout ops s)) = true /\ recvq (fst (qrun cap timeout ops s)) = recvq s /\
    Forall2 fails_closed ops (snd (qrun cap timeout ops s)).
  Proof.
    induction ops as [|o ops IH]; intros s H; [simpl; auto|].
    rewrite qrun_cons. destruct (qstep_closed s o H) as (H1 & H2 & H3).
    destruct (IH _ H1) as (I1 & I2 & I3). simpl. split; [exact I1|]. split; [congruence|]. constructor; assumption.
  Qed.

  Lemma qclose_closes : forall s, qclosed (fst (qstep cap timeout s QClose)) = true.
  Proof. intros. simpl. destruct (qclosed s) eqn:E; simpl; auto. Qed.

  Theorem after_close_fail : forall pre post s,
    let '(s1, _) := qrun cap timeout (pre ++ [QClose]) s in
    let '(s2, rs) := qrun cap timeout post s1 in
    Forall2 fails_closed post rs /\ recvq s2 = recvq s1.
  Proof.
    intros pre post s.
    assert (Hc: qclosed (fst (qrun cap timeout (pre ++ [QClose]) s)) = true).
    { rewrite qrun_app, qrun_cons. apply qclose_closes. }
    destruct (qrun cap timeout (pre ++ [QClose]) s) as [s1 r1]. simpl in Hc.
    pose proof (qrun_closed post s1 Hc). destruct (qrun cap timeout post s1) as [s2 rs]. tauto.
  Qed.

  Fixpoint accepted (ops : list qop) (outs : list qout) : list (payload * N) :=
    match ops, outs with
    | o :: ops', r :: outs' =>
        match o, r with
        | QIncoming p a, OIncoming true => (p, a) :: accepted ops' outs'
        | _, _ => accepted ops' outs'
        end
    | _, _ => []
    end.

  (* what ReadFrom returned, with the length of the buffer it was given *)
  Fixpoint reads (ops : list qop) (outs : list qout) : list (nat * payload * N) :=
    match ops, outs with
    | o :: ops', r :: outs' =>
        match o, r with
        | QRead n, ORead p a => (n, p, a) :: reads ops' outs'
        | _, _ => reads ops' outs'
        end
    | _, _ => []
    end.

  Definition delivered_as (d : payload * N) (r : nat * payload * N) : Prop :=
    let '(n, p, a) := r in p = firstn n (fst d) /\ a = snd d.

  Theorem recv_fifo : forall ops s,
    exists delivered,
      recvq s ++ accepted ops (snd (qrun cap timeout ops s)) = delivered ++ recvq (fst (qrun cap timeout ops s)) /\
      Forall2 delivered_as delivered (reads ops (snd (qrun cap timeout ops s))).
  Proof.
    induction ops as [|o ops IH]; intros s.
    - exists []. simpl. rewrite app_nil_r. auto.
    - rewrite qrun_cons. cbn [fst snd]. destruct (IH (fst (qstep cap timeout s o))) as (d & Hd1 & Hd2).
      destruct (is_cm_op o) eqn:E.
      { (* the receive queue is not involved *)
        rewrite qstep_cm in * by exact E. exists d. destruct o; try discriminate; exact (conj Hd1 Hd2). }
      destruct o; try discriminate; simpl in *.
      + destruct (qclosed s); [exists d; auto|].
        destruct (length (recvq s) <? cap); simpl in *; exists d; [|auto].
        split; auto. rewrite <- Hd1, <- app_assoc. reflexivity.
      + destruct (qclosed s); [exists d; auto|].
        destruct (recvq s) as [|[p a] q] eqn:Eq; simpl in *.
        * exists d. rewrite Eq in Hd1. auto.
        * exists ((p, a) :: d). simpl. split; [congruence|]. constructor; auto. simpl. auto.
      + destruct (qclosed s); simpl in *; exists d; auto.
  Qed.
End QC.
