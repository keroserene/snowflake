(* ClientMapProofs.v — invariants of clientMapInner (Model/ClientMap.v) over all operation
   sequences: byAge/byAddr consistency, heap order by LastSeen, queue identities, and the
   expiry facts (kept while seen, never early, removed by the next sweep). *)
From Coq Require Import List NArith ZArith Bool Arith Lia Permutation.
From Snow Require Import Lib.ListFacts Model.GoHeap Model.ClientMap.
From Snow Require Import Proofs.GoHeapProofs.
Import ListNotations.

Lemma amap_get_set : forall m a b i,
  amap_get a (amap_set b i m) = if N.eqb a b then Some i else amap_get a m.
Proof.
  induction m as [|[c j] m IH]; intros a b i; simpl.
  - destruct (N.eqb a b); reflexivity.
  - destruct (N.eqb b c) eqn:Ebc.
    + apply N.eqb_eq in Ebc; subst c. simpl. destruct (N.eqb a b); reflexivity.
    + destruct (N.ltb b c); simpl.
      * destruct (N.eqb a b); reflexivity.
      * destruct (N.eqb a c) eqn:Eac.
        -- apply N.eqb_eq in Eac; subst c. rewrite N.eqb_sym in Ebc. rewrite Ebc. reflexivity.
        -- apply IH.
Qed.

Lemma amap_get_del : forall m a b,
  amap_get a (amap_del b m) = if N.eqb a b then None else amap_get a m.
Proof.
  induction m as [|[c j] m IH]; intros a b; simpl.
  - destruct (N.eqb a b); reflexivity.
  - destruct (N.eqb b c) eqn:Ebc; simpl.
    + apply N.eqb_eq in Ebc; subst c. rewrite IH. destruct (N.eqb a b); reflexivity.
    + rewrite IH. destruct (N.eqb a c) eqn:Eac.
      * apply N.eqb_eq in Eac; subst c. rewrite N.eqb_sym in Ebc. rewrite Ebc. reflexivity.
      * reflexivity.
Qed.

Lemma amap_get_in : forall m a, amap_get a m <> None <-> In a (map fst m).
Proof.
  induction m as [|[c j] m IH]; intros a; simpl.
  - split; [congruence | tauto].
  - destruct (N.eqb a c) eqn:E.
    + apply N.eqb_eq in E. subst. split; [auto | congruence].
    + apply N.eqb_neq in E. rewrite IH. split; [auto | intros [H|H]; [congruence | auto]].
Qed.

Lemma amap_set_keys_in : forall m a i b, In b (map fst (amap_set a i m)) <-> b = a \/ In b (map fst m).
Proof.
  intros. rewrite <- !amap_get_in, amap_get_set.
  destruct (N.eqb b a) eqn:E.
  - apply N.eqb_eq in E. subst. split; [auto | congruence].
  - apply N.eqb_neq in E. split; [auto | intros [H|H]; [congruence | auto]].
Qed.

(* keys strictly increasing (the model inserts in order; the Go map has no order, the order is
   only the canonical observation) *)
Fixpoint ksorted (m : list (N * nat)) : Prop :=
  match m with
  | [] => True
  | (a, _) :: t => (forall b, In b (map fst t) -> (a < b)%N) /\ ksorted t
  end.

Lemma ksorted_set : forall m a i, ksorted m -> ksorted (amap_set a i m).
Proof.
  induction m as [|[c j] m IH]; intros a i H; simpl.
  - split; [simpl; tauto | exact I].
  - destruct H as [Hc Hs].
    destruct (N.eqb a c) eqn:E.
    + apply N.eqb_eq in E; subst. simpl. split; auto.
    + apply N.eqb_neq in E. destruct (N.ltb a c) eqn:L.
      * apply N.ltb_lt in L. simpl. split.
        -- intros b [Hb|Hb]; [subst; exact L | specialize (Hc b Hb); lia].
        -- split; auto.
      * apply N.ltb_ge in L. simpl. split.
        -- intros b Hb. apply amap_set_keys_in in Hb. destruct Hb as [Hb|Hb]; [subst; lia | auto].
        -- apply IH; auto.
Qed.

Lemma ksorted_del : forall m a, ksorted m -> ksorted (amap_del a m).
Proof.
  induction m as [|[c j] m IH]; intros a H; simpl; auto.
  destruct H as [Hc Hs].
  destruct (negb (N.eqb a c)); simpl; [|apply IH; auto].
  split; [|apply IH; auto].
  intros b Hb. apply Hc. revert Hb. apply incl_map, incl_filter.
Qed.

Lemma amap_get_none_lt : forall m a, (forall b, In b (map fst m) -> (a < b)%N) -> amap_get a m = None.
Proof.
  intros m a H. destruct (amap_get a m) eqn:E; auto.
  assert (In a (map fst m)) by (apply amap_get_in; congruence).
  specialize (H a H0). lia.
Qed.

Lemma amap_set_length : forall m a i, ksorted m ->
  length (amap_set a i m) = match amap_get a m with Some _ => length m | None => S (length m) end.
Proof.
  induction m as [|[c j] m IH]; intros a i H; simpl; auto.
  destruct H as [Hc Hs].
  destruct (N.eqb a c) eqn:E; simpl; auto.
  apply N.eqb_neq in E. destruct (N.ltb a c) eqn:L; simpl.
  - apply N.ltb_lt in L.
    rewrite (amap_get_none_lt m a); auto.
    intros b Hb. specialize (Hc b Hb). lia.
  - rewrite IH; auto. destruct (amap_get a m); auto.
Qed.

Lemma amap_del_length : forall m a, ksorted m ->
  length (amap_del a m) = match amap_get a m with Some _ => length m - 1 | None => length m end.
Proof.
  induction m as [|[c j] m IH]; intros a H; simpl; auto.
  destruct H as [Hc Hs].
  destruct (N.eqb a c) eqn:E; simpl.
  - apply N.eqb_eq in E; subst c. rewrite IH; auto.
    rewrite (amap_get_none_lt m a Hc). lia.
  - rewrite IH; auto. destruct (amap_get a m) eqn:G; auto.
    destruct m; simpl in *; [discriminate | lia].
Qed.

Lemma map_set_nth_same : forall A B (f : A -> B) l i x y,
  nth_error l i = Some y -> f x = f y -> map f (set_nth i x l) = map f l.
Proof.
  induction l; intros [|i] x y H E; simpl in *; try discriminate; auto.
  - inversion H; subst. congruence.
  - f_equal. eapply IHl; eauto.
Qed.

Lemma NoDup_map_inj_in : forall A B (f : A -> B) l x y,
  NoDup (map f l) -> In x l -> In y l -> f x = f y -> x = y.
Proof.
  induction l as [|h t IH]; simpl; intros x y Hn Hx Hy E; [destruct Hx|].
  inversion Hn as [|? ? Hh Ht]; subst.
  destruct Hx as [<-|Hx], Hy as [<-|Hy]; auto.
  - exfalso. apply Hh. rewrite E. apply in_map. exact Hy.
  - exfalso. apply Hh. rewrite <- E. apply in_map. exact Hx.
Qed.

Lemma nth_error_firstn : forall A (l : list A) n i,
  nth_error (firstn n l) i = if i <? n then nth_error l i else None.
Proof.
  induction l; intros [|n] [|i]; simpl; auto.
  - destruct (S i <? S n); auto.
  - rewrite IHl. reflexivity.
Qed.

Definition addr_at (l : list crec) (i : nat) : option N := option_map c_addr (nth_error l i).

(* C17_heap_index_consistent: byAddr a = i <-> byAge[i].addr = a *)
Definition idx_ok (l : list crec) (m : list (N * nat)) : Prop :=
  forall a i, amap_get a m = Some i <-> addr_at l i = Some a.

Lemma addr_at_nth : forall l i r, nth_error l i = Some r -> addr_at l i = Some (c_addr r).
Proof. intros l i r H. unfold addr_at. rewrite H. reflexivity. Qed.

Lemma idx_ok_inj : forall l m i j a, idx_ok l m -> addr_at l i = Some a -> addr_at l j = Some a -> i = j.
Proof.
  intros l m i j a H Hi Hj. apply H in Hi. apply H in Hj. congruence.
Qed.

Lemma idx_ok_nodup_addr : forall l m, idx_ok l m -> NoDup (map c_addr l).
Proof.
  intros l m Hidx. apply (proj2 (NoDup_nth_error (map c_addr l))).
  intros i j Hi Hij. rewrite !nth_error_map in Hij. fold (addr_at l i) (addr_at l j) in Hij.
  destruct (addr_at l i) as [a|] eqn:E.
  - apply (idx_ok_inj l m i j a Hidx); [exact E | symmetry; exact Hij].
  - unfold addr_at in E. rewrite <- nth_error_map in E. apply nth_error_None in E. lia.
Qed.

Definition cmR (nq : nat) (dd : list (nat * list payload)) (s : cmap) (l : list crec) : Prop :=
  byAge s = l /\ idx_ok l (byAddr s) /\ ksorted (byAddr s) /\ length (byAddr s) = length l /\
  next_qid s = nq /\ dead s = dd.

Lemma cmR_len : forall nq dd s l, cmR nq dd s l -> cm_len s = length l.
Proof. intros nq dd s l (H & _). unfold cm_len. congruence. Qed.

Lemma cmR_less : forall nq dd s l i j, cmR nq dd s l -> i < length l -> j < length l ->
  cm_less s i j = lless rec_less l i j.
Proof. intros nq dd s l i j (H & _) _ _. unfold cm_less. congruence. Qed.

(* Swap(i, j) renames the positions by the transposition of i and j, on both sides of idx_ok *)
Definition transp (i j k : nat) : nat := if k =? i then j else if k =? j then i else k.

Lemma transp_invol : forall i j k, transp i j (transp i j k) = k.
Proof.
  intros i j k. unfold transp. destruct (Nat.eqb_spec k i) as [->|Hi].
  - destruct (Nat.eqb_spec j i) as [->|]; [reflexivity | rewrite Nat.eqb_refl; reflexivity].
  - destruct (Nat.eqb_spec k j) as [->|Hj]; [rewrite Nat.eqb_refl; reflexivity|].
    rewrite (proj2 (Nat.eqb_neq k i) Hi), (proj2 (Nat.eqb_neq k j) Hj). reflexivity.
Qed.

Lemma addr_at_lswap : forall l i j k, i < length l -> j < length l ->
  addr_at (lswap l i j) k = addr_at l (transp i j k).
Proof.
  intros l i j k Hi Hj. unfold addr_at, transp.
  destruct (Nat.eqb_spec k i) as [->|Ni]; [rewrite nth_error_lswap_l; auto|].
  destruct (Nat.eqb_spec k j) as [->|Nj]; [rewrite nth_error_lswap_r; auto|].
  rewrite nth_error_lswap_other; auto.
Qed.

Lemma cmR_swap : forall nq dd s l i j, cmR nq dd s l -> i < length l -> j < length l ->
  cmR nq dd (cm_swap s i j) (lswap l i j).
Proof.
  intros nq dd s l i j (Hl & Hidx & Hks & Hlen & Hnq & Hdd) Hi Hj.
  destruct (nth_error_some_lt _ l i Hi) as [ri Hri].
  destruct (nth_error_some_lt _ l j Hj) as [rj Hrj].
  unfold cm_swap. rewrite Hl.
  rewrite nth_error_lswap_l, nth_error_lswap_r, Hri, Hrj by assumption.
  assert (Gi: amap_get (c_addr ri) (byAddr s) = Some i) by (apply Hidx, addr_at_nth, Hri).
  assert (Gj: amap_get (c_addr rj) (byAddr s) = Some j) by (apply Hidx, addr_at_nth, Hrj).
  (* an address other than those two is at neither position *)
  assert (Hoth : forall a x, amap_get a (byAddr s) = Some x -> a <> c_addr ri -> a <> c_addr rj -> transp i j x = x).
  { intros a x G Ni Nj. apply Hidx in G. unfold transp.
    destruct (Nat.eqb_spec x i) as [->|]; [rewrite (addr_at_nth _ _ _ Hri) in G; congruence|].
    destruct (Nat.eqb_spec x j) as [->|]; [rewrite (addr_at_nth _ _ _ Hrj) in G; congruence | reflexivity]. }
  unfold cmR; simpl. split; [reflexivity|]. split; [| split; [| split; [| split; auto]]].
  - intros a k. rewrite addr_at_lswap by assumption. rewrite <- (Hidx a (transp i j k)).
    assert (Hm : amap_get a (amap_set (c_addr ri) j (amap_set (c_addr rj) i (byAddr s))) =
                 option_map (transp i j) (amap_get a (byAddr s))).
    { rewrite !amap_get_set. destruct (N.eqb_spec a (c_addr ri)) as [->|Ni].
      - rewrite Gi. simpl. unfold transp. rewrite Nat.eqb_refl. reflexivity.
      - destruct (N.eqb_spec a (c_addr rj)) as [->|Nj].
        + rewrite Gj. simpl. unfold transp. destruct (Nat.eqb_spec j i); [congruence | rewrite Nat.eqb_refl; reflexivity].
        + destruct (amap_get a (byAddr s)) as [x|] eqn:G; [|reflexivity]. simpl. rewrite (Hoth a x G Ni Nj). reflexivity. }
    rewrite Hm. destruct (amap_get a (byAddr s)) as [x|]; simpl; [|split; discriminate].
    split; intros [= E]; f_equal; [rewrite <- E | rewrite E]; [symmetry|]; apply transp_invol.
  - apply ksorted_set. apply ksorted_set. auto.
  - rewrite amap_set_length by (apply ksorted_set; auto).
    rewrite amap_get_set.
    rewrite (amap_set_length (byAddr s)) by auto. rewrite Gj.
    rewrite lswap_length.
    destruct (N.eqb (c_addr ri) (c_addr rj)); [auto | rewrite Gi; auto].
Qed.

Lemma rec_less_irrefl : forall a, rec_less a a = false.
Proof. intros. unfold rec_less. apply Z.ltb_irrefl. Qed.
Lemma rec_less_trans : forall a b c, rec_less a b = true -> rec_less b c = true -> rec_less a c = true.
Proof. unfold rec_less. intros a b c H1 H2. apply Z.ltb_lt in H1, H2. apply Z.ltb_lt. lia. Qed.
Lemma rec_less_negtrans : forall a b c, rec_less a b = false -> rec_less b c = false -> rec_less a c = false.
Proof. unfold rec_less. intros a b c H1 H2. apply Z.ltb_ge in H1, H2. apply Z.ltb_ge. lia. Qed.

Definition hok (l : list crec) : Prop := heap_ok crec rec_less l.

(* the heap operations of the client map are the list heap operations on byAge, and keep byAddr consistent *)

Lemma cm_fix_sim : forall nq dd s l i, cmR nq dd s l -> i < length l ->
  cmR nq dd (cm_heap_fix s i) (lfix rec_less l i).
Proof.
  intros. unfold cm_heap_fix, lfix.
  apply (sim_fix cmap cm_len cm_less cm_swap crec rec_less (cmR nq dd)); auto.
  - apply cmR_len.
  - apply cmR_less.
  - apply cmR_swap.
Qed.

Lemma addr_at_app_last : forall l r i, addr_at (l ++ [r]) i =
  if i <? length l then addr_at l i else if i =? length l then Some (c_addr r) else None.
Proof.
  intros. unfold addr_at. destruct (i <? length l) eqn:E.
  - apply Nat.ltb_lt in E. rewrite nth_error_app1; auto.
  - apply Nat.ltb_ge in E. rewrite nth_error_app2; auto.
    destruct (i =? length l) eqn:E2.
    + apply Nat.eqb_eq in E2. subst. rewrite Nat.sub_diag. reflexivity.
    + apply Nat.eqb_neq in E2. destruct (i - length l) eqn:E3; [lia|]. simpl. destruct n; reflexivity.
Qed.

Lemma addr_at_lt : forall l i a, addr_at l i = Some a -> i < length l.
Proof.
  unfold addr_at. intros l i a H. destruct (nth_error l i) eqn:E; [|discriminate].
  eapply nth_error_lt; eauto.
Qed.

Lemma cm_push_sim : forall nq dd s l r, cmR nq dd s l -> amap_get (c_addr r) (byAddr s) = None ->
  cmR nq dd (cm_heap_push r s) (lpush rec_less r l).
Proof.
  intros nq dd s l r HR Hnone.
  assert (H1: cmR nq dd (cm_push_method r s) (l ++ [r])).
  { destruct HR as (Hl & Hidx & Hks & Hlen & Hnq & Hdd). unfold cm_push_method, cmR; simpl.
    rewrite Hl. split; [reflexivity|]. split; [| split; [| split; [| split; auto]]].
    - intros a i. rewrite amap_get_set, addr_at_app_last. split; intro H.
      + destruct (N.eqb a (c_addr r)) eqn:E.
        * apply N.eqb_eq in E. inversion H; subst. rewrite Nat.ltb_irrefl, Nat.eqb_refl. auto.
        * apply Hidx in H. pose proof (addr_at_lt _ _ _ H) as Hlt. apply Nat.ltb_lt in Hlt. rewrite Hlt. auto.
      + destruct (i <? length l) eqn:E1.
        * destruct (N.eqb a (c_addr r)) eqn:E.
          -- apply N.eqb_eq in E. subst a. apply Hidx in H. congruence.
          -- apply Hidx. auto.
        * destruct (i =? length l) eqn:E2; [|discriminate].
          apply Nat.eqb_eq in E2. inversion H; subst. rewrite N.eqb_refl. auto.
    - apply ksorted_set; auto.
    - rewrite amap_set_length by auto. rewrite Hnone. rewrite app_length. simpl. lia. }
  unfold cm_heap_push, lpush, heap_push.
  assert (Hlen1: cm_len (cm_push_method r s) = length (l ++ [r])) by (eapply cmR_len; eauto).
  rewrite Hlen1. unfold lpush_method.
  apply (sim_up cmap cm_less cm_swap crec rec_less (cmR nq dd)); auto.
  - apply cmR_less.
  - apply cmR_swap.
  - rewrite app_length. simpl. lia.
Qed.

Lemma addr_at_firstn : forall l n i, addr_at (firstn n l) i = if i <? n then addr_at l i else None.
Proof.
  intros. unfold addr_at. rewrite nth_error_firstn. destruct (i <? n); auto.
Qed.

Lemma cm_pop_method_sim : forall nq dd s l, cmR nq dd s l -> l <> [] ->
  exists r, nth_error l (length l - 1) = Some r /\
    lpop_method l = (removelast l, Some r) /\
    snd (cm_pop_method s) = Some r /\
    cmR nq (dd ++ [(c_qid r, c_q r)]) (fst (cm_pop_method s)) (removelast l).
Proof.
  intros nq dd s l (Hl & Hidx & Hks & Hlen & Hnq & Hdd) Hne.
  assert (Hpos: 0 < length l) by (destruct l; simpl; [congruence | lia]).
  destruct (nth_error_some_lt _ l (length l - 1)) as [r Hr]; [lia|].
  exists r. split; auto. split; [unfold lpop_method; rewrite Hr; auto|].
  unfold cm_pop_method. rewrite Hlen, Hl, Hr. simpl. split; auto.
  assert (G: amap_get (c_addr r) (byAddr s) = Some (length l - 1)) by (apply Hidx, addr_at_nth, Hr).
  assert (Hrl: removelast l = firstn (length l - 1) l) by (rewrite removelast_firstn_len; f_equal; lia).
  unfold cmR; simpl. rewrite <- Hrl.
  split; [reflexivity|]. split; [| split; [| split; [| split; [auto | congruence]]]].
  - intros a i. rewrite amap_get_del. rewrite Hrl, addr_at_firstn. split; intro H.
    + destruct (N.eqb a (c_addr r)) eqn:E; [discriminate|].
      apply Hidx in H. pose proof (addr_at_lt _ _ _ H).
      destruct (i <? length l - 1) eqn:E1; auto.
      apply Nat.ltb_ge in E1. assert (i = length l - 1) by lia. subst i.
      rewrite (addr_at_nth _ _ _ Hr) in H. apply N.eqb_neq in E. congruence.
    + destruct (i <? length l - 1) eqn:E1; [|discriminate].
      apply Nat.ltb_lt in E1.
      destruct (N.eqb a (c_addr r)) eqn:E.
      * apply N.eqb_eq in E. subst a. exfalso.
        assert (i = length l - 1); [|lia].
        apply (idx_ok_inj l (byAddr s) i (length l - 1) (c_addr r) Hidx); auto.
        apply addr_at_nth, Hr.
      * apply Hidx. auto.
  - apply ksorted_del; auto.
  - rewrite amap_del_length by auto. rewrite G. rewrite Hrl, firstn_length. lia.
Qed.

Lemma cm_pop_sim : forall nq dd s l, cmR nq dd s l -> l <> [] ->
  exists r l', lpop rec_less l = (l', Some r) /\
    snd (cm_heap_pop s) = Some r /\
    cmR nq (dd ++ [(c_qid r, c_q r)]) (fst (cm_heap_pop s)) l'.
Proof.
  intros nq dd s l HR Hne.
  assert (Hpos: 0 < length l) by (destruct l; simpl; [congruence | lia]).
  unfold cm_heap_pop, lpop, heap_pop.
  rewrite (cmR_len _ _ _ _ HR).
  set (n := length l - 1).
  assert (H1: cmR nq dd (cm_swap s 0 n) (lswap l 0 n)) by (apply cmR_swap; auto; unfold n; lia).
  assert (Hn: n <= length (lswap l 0 n)) by (rewrite lswap_length; unfold n; lia).
  destruct (sim_down cmap cm_less cm_swap crec rec_less (cmR nq dd) (cmR_less nq dd) (cmR_swap nq dd)
              (cm_swap s 0 n) (lswap l 0 n) 0 n H1 Hn) as [H2 _].
  set (s2 := fst (down cmap cm_less cm_swap (cm_swap s 0 n) 0 n)) in *.
  set (l2 := fst (ldown rec_less (lswap l 0 n) 0 n)) in *.
  assert (Hl2: length l2 = length l) by (unfold l2; rewrite ldown_length, lswap_length; reflexivity).
  destruct (cm_pop_method_sim nq dd s2 l2 H2) as (r & Hr & Hp & Hs & HR3).
  { intro E. rewrite E in Hl2. simpl in Hl2. lia. }
  exists r, (removelast l2). unfold ldown in l2. fold l2. rewrite Hp. auto.
Qed.

Definition cm_inv (s : cmap) : Prop :=
  hok (byAge s) /\ idx_ok (byAge s) (byAddr s) /\ ksorted (byAddr s) /\
  length (byAddr s) = length (byAge s) /\
  NoDup (map c_qid (byAge s)) /\ (forall r, In r (byAge s) -> c_qid r < next_qid s).

Lemma cm_inv_hok : forall s, cm_inv s -> hok (byAge s).
Proof. intros s H. apply H. Qed.
Lemma cm_inv_idx : forall s, cm_inv s -> idx_ok (byAge s) (byAddr s).
Proof. intros s H. apply H. Qed.
Lemma cm_inv_qids : forall s, cm_inv s -> NoDup (map c_qid (byAge s)).
Proof. intros s H. apply H. Qed.
Lemma cm_inv_bound : forall s r, cm_inv s -> In r (byAge s) -> c_qid r < next_qid s.
Proof. intros s r H. apply H. Qed.

Lemma cm_inv_bound_map : forall s k, cm_inv s -> In k (map c_qid (byAge s)) -> k < next_qid s.
Proof.
  intros s k H Hk. apply in_map_iff in Hk. destruct Hk as (r & <- & Hr). apply cm_inv_bound; auto.
Qed.

Lemma cm_inv_nodup_addr : forall s, cm_inv s -> NoDup (map c_addr (byAge s)).
Proof. intros s H. eapply idx_ok_nodup_addr, cm_inv_idx, H. Qed.

Lemma cm_inv_R : forall s, cm_inv s -> cmR (next_qid s) (dead s) s (byAge s).
Proof. intros s (H1 & H2 & H3 & H4 & _). unfold cmR. auto 10. Qed.

(* the map relation, a heap, and a permutation [L] of it whose queue identities are distinct and
   below nq: the invariant.  The identities are given on [L] because that is where the callers know
   them (the list before the heap operation rearranged it). *)
Lemma cm_inv_of_perm : forall nq dd s l L, cmR nq dd s l -> hok l -> Permutation l L ->
  NoDup (map c_qid L) -> (forall k, In k (map c_qid L) -> k < nq) ->
  cm_inv s /\ Permutation (byAge s) L /\ next_qid s = nq /\ dead s = dd.
Proof.
  intros nq dd s l L (H1 & H2 & H3 & H4 & H5 & H6) Hh Hp Hn Hb. subst l nq dd.
  split; [|auto]. unfold cm_inv. split; [exact Hh|]. split; [exact H2|]. split; [exact H3|]. split; [exact H4|].
  pose proof (Permutation_map c_qid Hp) as Hq. split.
  - eapply Permutation_NoDup; [apply Permutation_sym; exact Hq | exact Hn].
  - intros r Hr. apply Hb. eapply Permutation_in; [exact Hq | apply in_map; exact Hr].
Qed.

Lemma cm_inv_empty : cm_inv cm_empty.
Proof.
  unfold cm_inv, cm_empty; simpl. repeat split; try constructor; try tauto.
  - intros p c a b _ H. destruct p; discriminate.
  - discriminate.
  - unfold addr_at. destruct i; discriminate.
Qed.

Lemma addr_at_set_nth_same : forall l i x y k,
  nth_error l i = Some y -> c_addr x = c_addr y -> addr_at (set_nth i x l) k = addr_at l k.
Proof.
  intros. unfold addr_at. destruct (Nat.eq_dec k i).
  - subst. rewrite nth_error_set_nth_eq by (eapply nth_error_lt; eauto). rewrite H. simpl. congruence.
  - rewrite nth_error_set_nth_neq; auto.
Qed.

(* the address is known: byAge[i] is replaced by a record with the same address and queue identity,
   then heap.Fix *)
Lemma touch_spec : forall c i r r', cm_inv c -> nth_error (byAge c) i = Some r ->
  c_addr r' = c_addr r -> c_qid r' = c_qid r ->
  let c' := cm_heap_fix (set_byAge c (set_nth i r' (byAge c))) i in
  cm_inv c' /\ Permutation (byAge c') (set_nth i r' (byAge c)) /\ next_qid c' = next_qid c /\ dead c' = dead c.
Proof.
  intros c i r r' Hinv Hr Ha Hq. set (l1 := set_nth i r' (byAge c)).
  assert (Hi : i < length (byAge c)) by (eapply nth_error_lt; eauto).
  assert (Hi1 : i < length l1) by (unfold l1; rewrite set_nth_length; exact Hi).
  assert (HR1 : cmR (next_qid c) (dead c) (set_byAge c l1) l1).
  { destruct (cm_inv_R c Hinv) as (_ & H2 & H3 & H4 & _). unfold cmR, set_byAge; simpl.
    split; [reflexivity|]. split; [|split; [exact H3|split; [|split; reflexivity]]].
    - intros b k. unfold l1. rewrite (addr_at_set_nth_same _ i r' r k Hr Ha). apply H2.
    - unfold l1. rewrite set_nth_length. exact H4. }
  destruct (lfix_spec crec rec_less rec_less_irrefl rec_less_trans rec_less_negtrans
              (byAge c) i r' (cm_inv_hok c Hinv) Hi) as [Hh2 Hp2].
  assert (Hq1 : map c_qid l1 = map c_qid (byAge c)) by (apply (map_set_nth_same _ _ c_qid _ i r' r Hr Hq)).
  apply (cm_inv_of_perm _ _ _ (lfix rec_less l1 i) l1).
  - apply cm_fix_sim; assumption.
  - exact Hh2.
  - exact Hp2.
  - rewrite Hq1. apply cm_inv_qids, Hinv.
  - rewrite Hq1. intros k. apply cm_inv_bound_map, Hinv.
Qed.

(* the address is new: a record with the next queue identity and an empty queue is pushed *)
Lemma fresh_spec : forall c a now, cm_inv c -> amap_get a (byAddr c) = None ->
  let r := mkrec a now (next_qid c) [] in
  let c' := cm_heap_push r (mkcm (byAge c) (byAddr c) (S (next_qid c)) (dead c)) in
  cm_inv c' /\ Permutation (byAge c') (r :: byAge c) /\ next_qid c' = S (next_qid c) /\ dead c' = dead c.
Proof.
  intros c a now Hinv G r.
  assert (HR1 : cmR (S (next_qid c)) (dead c) (mkcm (byAge c) (byAddr c) (S (next_qid c)) (dead c)) (byAge c)).
  { destruct (cm_inv_R c Hinv) as (_ & H2 & H3 & H4 & _). unfold cmR; simpl. auto 10. }
  apply (cm_inv_of_perm _ _ _ (lpush rec_less r (byAge c))).
  - apply cm_push_sim; assumption.
  - apply lpush_heap_ok; [exact rec_less_irrefl | exact rec_less_trans | exact rec_less_negtrans | apply cm_inv_hok, Hinv].
  - apply lpush_perm.
  - simpl. constructor; [|apply cm_inv_qids, Hinv]. intro X. apply cm_inv_bound_map in X; [lia | exact Hinv].
  - intros k [<-|Hk]; [simpl; lia|]. apply cm_inv_bound_map in Hk; [lia | exact Hinv].
Qed.

(* SendQueue, on the lists: byAge afterwards is, up to the heap's order, the old one with the record of
   [a] touched, or with a fresh record added; the answer is that record's queue *)
Lemma send_queue_spec : forall a now c, cm_inv c ->
  let c' := fst (send_queue a now c) in
  cm_inv c' /\ dead c' = dead c /\
  match amap_get a (byAddr c) with
  | Some i => exists r, nth_error (byAge c) i = Some r /\ snd (send_queue a now c) = c_qid r /\
                Permutation (byAge c') (set_nth i (set_seen r now) (byAge c)) /\ next_qid c' = next_qid c
  | None => snd (send_queue a now c) = next_qid c /\
            Permutation (byAge c') (mkrec a now (next_qid c) [] :: byAge c) /\ next_qid c' = S (next_qid c)
  end.
Proof.
  intros a now c Hinv. unfold send_queue. destruct (amap_get a (byAddr c)) as [i|] eqn:G.
  - assert (Ha : addr_at (byAge c) i = Some a) by (apply (cm_inv_idx c Hinv); exact G).
    unfold addr_at in Ha. destruct (nth_error (byAge c) i) as [r|] eqn:Hr; [|discriminate].
    destruct (touch_spec c i r (set_seen r now) Hinv Hr eq_refl eq_refl) as (H1 & H2 & H3 & H4).
    simpl. split; [exact H1|]. split; [exact H4|]. exists r. auto.
  - destruct (fresh_spec c a now Hinv G) as (H1 & H2 & H3 & H4). simpl. auto.
Qed.

Lemma send_queue_inv : forall a now s, cm_inv s -> cm_inv (fst (send_queue a now s)).
Proof. intros a now s H. apply (send_queue_spec a now s H). Qed.

Lemma cm_pop_inv : forall s m, cm_inv s -> nth_error (byAge s) 0 = Some m ->
  let s' := fst (cm_heap_pop s) in
  cm_inv s' /\ Permutation (byAge s) (m :: byAge s') /\
  dead s' = dead s ++ [(c_qid m, c_q m)] /\ next_qid s' = next_qid s /\
  (forall y, In y (byAge s) -> rec_less y m = false).
Proof.
  intros s m Hinv Hm.
  destruct (lpop_spec crec rec_less rec_less_irrefl rec_less_trans rec_less_negtrans (byAge s) m
              (cm_inv_hok s Hinv) Hm) as (l' & Hpop & Hh' & Hperm & Hmin).
  destruct (cm_pop_sim _ _ _ _ (cm_inv_R s Hinv)) as (r & l2 & Hpop2 & Hsnd & HR2).
  { intro E. rewrite E in Hm. discriminate. }
  rewrite Hpop in Hpop2. inversion Hpop2; subst r l2. clear Hpop2.
  pose proof (Permutation_NoDup (Permutation_map c_qid Hperm) (cm_inv_qids s Hinv)) as Hnd. simpl in Hnd.
  destruct (cm_inv_of_perm _ _ _ l' l' HR2 Hh' (Permutation_refl _)) as (I1 & I2 & I3 & I4).
  - inversion Hnd; auto.
  - intros k Hk. apply (cm_inv_bound_map s k Hinv). eapply Permutation_in;
      [apply Permutation_sym, (Permutation_map c_qid Hperm) | right; exact Hk].
  - simpl. split; [exact I1|]. split; [|auto].
    eapply perm_trans; [exact Hperm|]. apply perm_skip, Permutation_sym, I2.
Qed.

Lemma expired_true_iff : forall now timeout r, expired now timeout r = true <-> (now - c_seen r >= timeout)%Z.
Proof. intros. unfold expired. rewrite Z.geb_leb, Z.leb_le. lia. Qed.

Lemma expired_false_iff : forall now timeout r, expired now timeout r = false <-> (now - c_seen r < timeout)%Z.
Proof. intros. unfold expired. rewrite Z.geb_leb, Z.leb_gt. lia. Qed.

Definition live_addr (s : cmap) (a : N) : Prop := exists r, In r (byAge s) /\ c_addr r = a.

Definition re_spec (now timeout : Z) (s s' : cmap) : Prop :=
  cm_inv s' /\ next_qid s' = next_qid s /\
  (* nothing is left that has been idle for the timeout *)
  (forall r, In r (byAge s') -> expired now timeout r = false) /\
  (* every record is either kept unchanged, or it had been idle for the timeout and its queue was closed *)
  (forall r, In r (byAge s) ->
      In r (byAge s') \/ (expired now timeout r = true /\ In (c_qid r, c_q r) (dead s'))) /\
  (* no record appears, closed queues stay closed, and only expired records' queues are closed *)
  (forall r, In r (byAge s') -> In r (byAge s)) /\
  (forall e, In e (dead s) -> In e (dead s')) /\
  (forall e, In e (dead s') -> In e (dead s) \/
      exists r, In r (byAge s) /\ e = (c_qid r, c_q r) /\ expired now timeout r = true /\ ~ In r (byAge s')).

Lemma re_spec_id : forall now timeout s, cm_inv s ->
  (forall r, In r (byAge s) -> expired now timeout r = false) -> re_spec now timeout s s.
Proof. intros. unfold re_spec. repeat (split; auto). Qed.

Lemma remove_expired_aux_spec : forall fuel now timeout s, cm_inv s -> length (byAge s) <= fuel ->
  re_spec now timeout s (remove_expired_aux fuel now timeout s).
Proof.
  induction fuel; intros now timeout s Hinv Hlen.
  - simpl. destruct (byAge s) eqn:E; [|simpl in Hlen; lia].
    apply re_spec_id; auto. intros r Hr; rewrite E in Hr; destruct Hr.
  - simpl. destruct (byAge s) as [|r0 rest] eqn:E.
    + apply re_spec_id; auto. intros r Hr; rewrite E in Hr; destruct Hr.
    + assert (Hm: nth_error (byAge s) 0 = Some r0) by (rewrite E; auto).
      destruct (expired now timeout r0) eqn:Ex.
      * destruct (cm_pop_inv s r0 Hinv Hm) as (Hinv1 & Hperm & Hdead & Hnq & Hmin).
        set (s1 := fst (cm_heap_pop s)) in *.
        assert (Hlen1: length (byAge s1) <= fuel).
        { apply Permutation_length in Hperm. rewrite E in Hperm. simpl in Hperm, Hlen. lia. }
        destruct (IHfuel now timeout s1 Hinv1 Hlen1) as (I1 & I2 & I3 & I4 & I5 & I6 & I7).
        set (s' := remove_expired_aux fuel now timeout s1) in *.
        unfold re_spec.
        assert (Hr0: ~ In r0 (byAge s1)).
        { pose proof (NoDup_map_inv _ _ (cm_inv_qids s Hinv)) as Hnd.
          eapply Permutation_NoDup in Hnd; [|exact Hperm]. inversion Hnd; auto. }
        split; [auto|]. split; [congruence|]. split; [auto|]. split; [|split; [|split]].
        -- intros r Hr. eapply Permutation_in in Hr; [|exact Hperm]. destruct Hr as [Hr|Hr].
           ++ subst r. right. split; auto. apply I6. rewrite Hdead. apply in_or_app. right. left. auto.
           ++ apply I4. auto.
        -- intros r Hr. apply I5 in Hr. eapply Permutation_in; [apply Permutation_sym; exact Hperm|]. right. auto.
        -- intros e He. apply I6. rewrite Hdead. apply in_or_app. auto.
        -- intros e He. apply I7 in He. destruct He as [He|(r & Hr1 & Hr2 & Hr3 & Hr4)].
           ++ rewrite Hdead in He. apply in_app_or in He. destruct He as [He|[He|[]]]; auto.
              right. exists r0. rewrite E. split; [left; auto|]. split; [auto|]. split; [auto|].
              intro X. apply I5 in X. auto.
           ++ right. exists r. split; [|auto].
              eapply Permutation_in; [apply Permutation_sym; exact Hperm|]. right. auto.
      * (* the root is the least recently seen record: if it has not expired, none has *)
        apply re_spec_id; auto. intros r Hr.
        pose proof (heap_ok_root_min crec rec_less rec_less_irrefl rec_less_negtrans (byAge s) r0
                      (cm_inv_hok s Hinv) Hm r Hr) as Hle.
        unfold rec_less in Hle. apply Z.ltb_ge in Hle. apply expired_false_iff in Ex. apply expired_false_iff. lia.
Qed.

Lemma remove_expired_spec : forall now timeout s, cm_inv s -> re_spec now timeout s (remove_expired now timeout s).
Proof. intros. apply remove_expired_aux_spec; auto. Qed.

Lemma remove_expired_inv : forall now timeout s, cm_inv s -> cm_inv (remove_expired now timeout s).
Proof. intros. apply remove_expired_spec; auto. Qed.

Lemma expire_kept : forall now timeout s r, cm_inv s ->
  In r (byAge s) -> (now - c_seen r < timeout)%Z -> In r (byAge (remove_expired now timeout s)).
Proof.
  intros now timeout s r Hinv Hin Hlt.
  destruct (remove_expired_spec now timeout s Hinv) as (_ & _ & _ & H4 & _).
  destruct (H4 r Hin) as [H|[H _]]; [exact H|]. apply expired_true_iff in H. lia.
Qed.

Lemma expire_not_early : forall now timeout s, cm_inv s ->
  let s' := remove_expired now timeout s in
  (forall r, In r (byAge s) -> ~ In r (byAge s') -> (now - c_seen r >= timeout)%Z) /\
  (forall e, In e (dead s') -> ~ In e (dead s) ->
      exists r, In r (byAge s) /\ e = (c_qid r, c_q r) /\ (now - c_seen r >= timeout)%Z) /\
  (forall r, In r (byAge s') -> In r (byAge s)).
Proof.
  intros now timeout s Hinv.
  destruct (remove_expired_spec now timeout s Hinv) as (_ & _ & _ & H4 & H5 & _ & H7).
  split; [|split; [|exact H5]].
  - intros r Hin Hout. destruct (H4 r Hin) as [H|[H _]]; [contradiction | apply expired_true_iff, H].
  - intros e He Hn. destruct (H7 e He) as [H|(r & R1 & R2 & R3 & _)]; [contradiction|].
    exists r. split; [exact R1|]. split; [exact R2 | apply expired_true_iff, R3].
Qed.

Lemma expire_removed : forall now timeout s r, cm_inv s ->
  let s' := remove_expired now timeout s in
  In r (byAge s) -> (now - c_seen r >= timeout)%Z ->
  (forall r', In r' (byAge s') -> c_addr r' <> c_addr r) /\ In (c_qid r, c_q r) (dead s').
Proof.
  intros now timeout s r Hinv s' Hin Hge.
  destruct (remove_expired_spec now timeout s Hinv) as (_ & _ & H3 & H4 & H5 & _).
  apply expired_true_iff in Hge.
  assert (Hout: ~ In r (byAge s')) by (intro X; apply H3 in X; congruence).
  split.
  - intros r' Hr' E. apply Hout.
    rewrite <- (NoDup_map_inj_in _ _ c_addr _ r' r (cm_inv_nodup_addr s Hinv) (H5 _ Hr') Hin E). exact Hr'.
  - destruct (H4 r Hin) as [H|[_ H]]; [contradiction | exact H].
Qed.

Lemma cm_step_inv : forall s o, cm_inv s -> cm_inv (cm_step s o).
Proof. intros s [a now|now timeout] H; simpl; [apply send_queue_inv | apply remove_expired_inv]; auto. Qed.

Lemma cm_run_inv : forall ops s, cm_inv s -> cm_inv (cm_run ops s).
Proof. induction ops; intros s H; simpl; auto. apply IHops. apply cm_step_inv. auto. Qed.
