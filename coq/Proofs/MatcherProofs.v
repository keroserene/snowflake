(* MatcherProofs.v — the backtracking matcher [bt] against a declarative small relation [ms]
   (with positions, anchors and captures):
     bt_sound     : whatever bt returns is a derivation of ms followed by the continuation;
     bt_complete  : for star-free regexes, if some ms derivation has a succeeding continuation,
                    bt does not fail (it may return another, higher-priority, match);
     search_complete / search_sound : the unanchored search returns a match at the leftmost
                    start position at which any match exists.
   Bridges between ms and the context-free language [matches] of RegexProofs.v. *)
From Coq Require Import List NArith Bool Arith Lia.
From Snow Require Import Lib.Wire Model.Regex Proofs.RegexProofs.
Import ListNotations.
Open Scope nat_scope.

Inductive ms : re -> bytes -> nat -> caps -> bytes -> nat -> caps -> Prop :=
| SEps : forall s p c, ms Eps s p c s p c
| SCls : forall rs x s p c, in_cls x rs = true -> ms (Cls rs) (x :: s) p c s (S p) c
| SSeq : forall a b s p c s1 p1 c1 s2 p2 c2,
    ms a s p c s1 p1 c1 -> ms b s1 p1 c1 s2 p2 c2 -> ms (Seq a b) s p c s2 p2 c2
| SAltL : forall a b s p c s1 p1 c1, ms a s p c s1 p1 c1 -> ms (Alt a b) s p c s1 p1 c1
| SAltR : forall a b s p c s1 p1 c1, ms b s p c s1 p1 c1 -> ms (Alt a b) s p c s1 p1 c1
| SStar0 : forall a s p c, ms (Star a) s p c s p c
| SStarS : forall a s p c s1 p1 c1 s2 p2 c2,
    ms a s p c s1 p1 c1 -> ms (Star a) s1 p1 c1 s2 p2 c2 -> ms (Star a) s p c s2 p2 c2
| SRep0 : forall a n s p c, ms (Rep a 0 n) s p c s p c
| SRepS : forall a m n s p c s1 p1 c1 s2 p2 c2,
    ms a s p c s1 p1 c1 -> ms (Rep a (pred m) n) s1 p1 c1 s2 p2 c2 -> ms (Rep a m (S n)) s p c s2 p2 c2
| SBol : forall s c, ms Bol s 0 c s 0 c
| SEol : forall p c, ms Eol [] p c [] p c
| SGrp : forall g a s p c s1 p1 c1,
    ms a s p c s1 p1 c1 -> ms (Grp g a) s p c s1 p1 ((g, (p, p1)) :: c1).

Definition step_sound (a : re) (step : bytes -> nat -> caps -> cont -> mres) : Prop :=
  forall s p c k res, step s p c k = Some res ->
    exists s1 p1 c1, ms a s p c s1 p1 c1 /\ k s1 p1 c1 = Some res.

Lemma star_loop_sound : forall a step, step_sound a step ->
  forall k fuel s p c res, star_loop step k fuel s p c = Some res ->
    exists s1 p1 c1, ms (Star a) s p c s1 p1 c1 /\ k s1 p1 c1 = Some res.
Proof.
  intros a step Hs k fuel; induction fuel as [|f IH]; intros s p c res H; simpl in H.
  - exists s, p, c; split; [constructor|auto].
  - destruct (step s p c _) eqn:E.
    + inversion H; subst. apply Hs in E. destruct E as (s1 & p1 & c1 & Hm & Hk).
      destruct (Nat.eqb p1 p); [discriminate|].
      apply IH in Hk. destruct Hk as (s2 & p2 & c2 & Hm2 & Hk2).
      exists s2, p2, c2; split; [econstructor; eauto|auto].
    + exists s, p, c; split; [constructor|auto].
Qed.

Lemma rep_loop_sound : forall a step, step_sound a step ->
  forall k n m s p c res, rep_loop step k m n s p c = Some res ->
    exists s1 p1 c1, ms (Rep a m n) s p c s1 p1 c1 /\ k s1 p1 c1 = Some res.
Proof.
  intros a step Hs k n; induction n as [|n IH]; intros m s p c res H; simpl in H.
  - destruct m; [|discriminate]. exists s, p, c; split; [constructor|auto].
  - destruct (step s p c _) eqn:E.
    + inversion H; subst. apply Hs in E. destruct E as (s1 & p1 & c1 & Hm & Hk).
      apply IH in Hk. destruct Hk as (s2 & p2 & c2 & Hm2 & Hk2).
      exists s2, p2, c2; split; [econstructor; eauto|auto].
    + destruct m; [|discriminate]. exists s, p, c; split; [constructor|auto].
Qed.

Lemma bt_sound : forall r, step_sound r (bt r).
Proof.
  unfold step_sound. induction r; intros s p c kk res H; cbn [bt] in H.
  - discriminate.
  - exists s, p, c; split; [constructor|auto].
  - destruct s as [|x s]; [discriminate|]. destruct (in_cls x rs) eqn:E; [|discriminate].
    exists s, (S p), c; split; [constructor; auto|auto].
  - apply IHr1 in H. destruct H as (s1 & p1 & c1 & Hm & Hk).
    apply IHr2 in Hk. destruct Hk as (s2 & p2 & c2 & Hm2 & Hk2).
    exists s2, p2, c2; split; [econstructor; eauto|auto].
  - destruct (bt r1 s p c kk) eqn:E.
    + inversion H; subst. apply IHr1 in E. destruct E as (s1 & p1 & c1 & Hm & Hk).
      exists s1, p1, c1; split; [apply SAltL; auto|auto].
    + apply IHr2 in H. destruct H as (s1 & p1 & c1 & Hm & Hk).
      exists s1, p1, c1; split; [apply SAltR; auto|auto].
  - eapply star_loop_sound; eauto.
  - eapply rep_loop_sound; eauto.
  - destruct p; [|discriminate]. exists s, 0, c; split; [constructor|auto].
  - destruct s; [|discriminate]. exists [], p, c; split; [constructor|auto].
  - apply IHr in H. destruct H as (s1 & p1 & c1 & Hm & Hk).
    exists s1, p1, ((k, (p, p1)) :: c1); split; [constructor; auto|auto].
Qed.

Fixpoint star_free (r : re) : bool :=
  match r with
  | Star _ => false
  | Seq a b => star_free a && star_free b
  | Alt a b => star_free a && star_free b
  | Rep a _ _ => star_free a
  | Grp _ a => star_free a
  | _ => true
  end.

Lemma bt_complete : forall r s p c s1 p1 c1,
  ms r s p c s1 p1 c1 -> star_free r = true ->
  forall k, k s1 p1 c1 <> None -> bt r s p c k <> None.
Proof.
  induction 1; intros Hsf k Hk; simpl in *; try discriminate; auto.
  - rewrite H; auto.
  - apply andb_true_iff in Hsf; destruct Hsf as [Ha Hb].
    apply IHms1; auto.
  - apply andb_true_iff in Hsf; destruct Hsf as [Ha Hb].
    specialize (IHms Ha k Hk). destruct (bt a s p c k); [discriminate|contradiction].
  - apply andb_true_iff in Hsf; destruct Hsf as [Ha Hb].
    destruct (bt a s p c k); [discriminate|]. apply IHms; auto.
  - destruct n; simpl; auto.
    destruct (bt a s p c _); [discriminate|auto].
  - specialize (IHms2 Hsf k Hk).
    specialize (IHms1 Hsf (fun s' p' c' => rep_loop (bt a) k (pred m) n s' p' c') IHms2).
    destruct (bt a s p c _); [discriminate|contradiction].
Qed.

Fixpoint anchor_free (r : re) : bool :=
  match r with
  | Bol => false
  | Eol => false
  | Seq a b => anchor_free a && anchor_free b
  | Alt a b => anchor_free a && anchor_free b
  | Star a => anchor_free a
  | Rep a _ _ => anchor_free a
  | Grp _ a => anchor_free a
  | _ => true
  end.

(* a derivation consumes a prefix w of the text; without anchors, w is a word of the language *)
Lemma ms_word : forall r s p c s1 p1 c1, ms r s p c s1 p1 c1 ->
  exists w, s = w ++ s1 /\ p1 = p + length w /\ (anchor_free r = true -> matches r w).
Proof.
  induction 1; simpl.
  - exists []; repeat split; auto; constructor.
  - exists [x]; simpl; repeat split; auto; try lia; constructor; auto.
  - destruct IHms1 as (w1 & E1 & L1 & M1); destruct IHms2 as (w2 & E2 & L2 & M2); subst.
    exists (w1 ++ w2); rewrite app_assoc, app_length; repeat split; auto; try lia.
    intros Haf. apply andb_true_iff in Haf. constructor; tauto.
  - destruct IHms as (w & E & L & M); exists w; repeat split; auto.
    intros Haf. apply andb_true_iff in Haf. apply MAltL; tauto.
  - destruct IHms as (w & E & L & M); exists w; repeat split; auto.
    intros Haf. apply andb_true_iff in Haf. apply MAltR; tauto.
  - exists []; repeat split; auto; constructor.
  - destruct IHms1 as (w1 & E1 & L1 & M1); destruct IHms2 as (w2 & E2 & L2 & M2); subst.
    exists (w1 ++ w2); rewrite app_assoc, app_length; repeat split; auto; try lia; constructor; auto.
  - exists []; repeat split; auto; constructor.
  - destruct IHms1 as (w1 & E1 & L1 & M1); destruct IHms2 as (w2 & E2 & L2 & M2); subst.
    exists (w1 ++ w2); rewrite app_assoc, app_length; repeat split; auto; try lia; constructor; auto.
  - exists []; repeat split; auto; discriminate.
  - exists []; repeat split; auto; discriminate.
  - destruct IHms as (w & E & L & M); exists w; repeat split; auto; constructor; auto.
Qed.

Lemma bt_sound_matches : forall r s p c k res, anchor_free r = true -> bt r s p c k = Some res ->
  exists w s1 c1, s = w ++ s1 /\ matches r w /\ k s1 (p + length w) c1 = Some res.
Proof.
  intros r s p c k res Haf H. apply bt_sound in H. destruct H as (s1 & p1 & c1 & M & Hk).
  destruct (ms_word _ _ _ _ _ _ _ M) as (w & -> & -> & Mw). exists w, s1, c1. auto.
Qed.

(* a word of the language can be matched in any context *)
Lemma matches_ms : forall r w, matches r w ->
  forall s p cc, exists c1, ms r (w ++ s) p cc s (p + length w) c1.
Proof.
  induction 1; intros s p cc; simpl.
  - rewrite Nat.add_0_r; eexists; constructor.
  - replace (p + 1) with (S p) by lia. eexists; constructor; auto.
  - destruct (IHmatches1 (w2 ++ s) p cc) as [c1 H1].
    destruct (IHmatches2 s (p + length w1) c1) as [c2 H2].
    rewrite <- app_assoc, app_length, Nat.add_assoc. eexists; econstructor; eauto.
  - destruct (IHmatches s p cc) as [c1 H1]; eexists; apply SAltL; eauto.
  - destruct (IHmatches s p cc) as [c1 H1]; eexists; apply SAltR; eauto.
  - rewrite Nat.add_0_r; eexists; constructor.
  - destruct (IHmatches1 (w2 ++ s) p cc) as [c1 H1].
    destruct (IHmatches2 s (p + length w1) c1) as [c2 H2].
    rewrite <- app_assoc, app_length, Nat.add_assoc. eexists; econstructor; eauto.
  - rewrite Nat.add_0_r; eexists; constructor.
  - destruct (IHmatches1 (w2 ++ s) p cc) as [c1 H1].
    destruct (IHmatches2 s (p + length w1) c1) as [c2 H2].
    rewrite <- app_assoc, app_length, Nat.add_assoc. eexists; econstructor; eauto.
  - destruct (IHmatches s p cc) as [c1 H1]; eexists; constructor; eauto.
Qed.

(* r matches the empty word where ^ holds (bol) and where $ holds (eol) *)
Fixpoint null_at (bol eol : bool) (r : re) : bool :=
  match r with
  | Eps => true
  | Bol => bol
  | Eol => eol
  | Seq a b => null_at bol eol a && null_at bol eol b
  | Alt a b => null_at bol eol a || null_at bol eol b
  | Star _ => true
  | Rep a m n => Nat.eqb m 0 || (null_at bol eol a && Nat.leb m n)
  | Grp _ a => null_at bol eol a
  | _ => false
  end.

(* at the beginning of the text, at its end *)
Definition nb : re -> bool := null_at true false.
Definition ne : re -> bool := null_at false true.

Lemma null_rep : forall a s p, (forall c, exists c1, ms a s p c s p c1) ->
  forall n m c, m <= n -> exists c1, ms (Rep a m n) s p c s p c1.
Proof.
  intros a s p Ha n; induction n as [|n IH]; intros m c Hle.
  - assert (m = 0) by lia; subst; eexists; constructor.
  - destruct m as [|m]; [eexists; constructor|].
    destruct (Ha c) as [c1 H1]. destruct (IH m c1) as [c2 H2]; [lia|].
    eexists; econstructor; eauto.
Qed.

Lemma null_at_ms : forall bol eol s p, (bol = true -> p = 0) -> (eol = true -> s = []) ->
  forall r, null_at bol eol r = true -> forall c, exists c1, ms r s p c s p c1.
Proof.
  intros bol eol s p Hb He. induction r; simpl; intros Hn c; try discriminate.
  - eexists; constructor.
  - apply andb_true_iff in Hn; destruct Hn as [H1 H2].
    destruct (IHr1 H1 c) as [c1 M1]. destruct (IHr2 H2 c1) as [c2 M2].
    eexists; econstructor; eauto.
  - apply orb_true_iff in Hn; destruct Hn as [H1|H2].
    + destruct (IHr1 H1 c) as [c1 M1]; eexists; apply SAltL; eauto.
    + destruct (IHr2 H2 c) as [c1 M1]; eexists; apply SAltR; eauto.
  - eexists; constructor.
  - apply orb_true_iff in Hn; destruct Hn as [H1|H2].
    + apply Nat.eqb_eq in H1; subst; eexists; constructor.
    + apply andb_true_iff in H2; destruct H2 as [Ha Hle]. apply Nat.leb_le in Hle.
      apply null_rep; auto.
  - rewrite (Hb Hn). eexists; constructor.
  - rewrite (He Hn). eexists; constructor.
  - destruct (IHr Hn c) as [c1 M1]; eexists; constructor; eauto.
Qed.

Lemma nb_ms : forall r, nb r = true -> forall s c, exists c1, ms r s 0 c s 0 c1.
Proof. intros r H s c. apply (null_at_ms true false s 0); auto; discriminate. Qed.

Lemma ne_ms : forall r, ne r = true -> forall p c, exists c1, ms r [] p c [] p c1.
Proof. intros r H p c. apply (null_at_ms false true [] p); auto; discriminate. Qed.

Fixpoint maxlen (r : re) : nat :=
  match r with
  | Cls _ => 1
  | Seq a b => maxlen a + maxlen b
  | Alt a b => Nat.max (maxlen a) (maxlen b)
  | Star a => 0
  | Rep a _ n => n * maxlen a
  | Grp _ a => maxlen a
  | _ => 0
  end.

Lemma ms_maxlen : forall r s p c s1 p1 c1, ms r s p c s1 p1 c1 -> star_free r = true ->
  p1 <= p + maxlen r.
Proof.
  induction 1; intros Hsf; simpl in *; try discriminate; try lia.
  - apply andb_true_iff in Hsf; destruct Hsf as [Ha Hb].
    specialize (IHms1 Ha); specialize (IHms2 Hb); lia.
  - apply andb_true_iff in Hsf; destruct Hsf as [Ha Hb]. specialize (IHms Ha); lia.
  - apply andb_true_iff in Hsf; destruct Hsf as [Ha Hb]. specialize (IHms Hb); lia.
  - specialize (IHms1 Hsf); specialize (IHms2 Hsf); lia.
  - specialize (IHms Hsf); lia.
Qed.

Fixpoint minlen (r : re) : nat :=
  match r with
  | Cls _ => 1
  | Seq a b => minlen a + minlen b
  | Alt a b => Nat.min (minlen a) (minlen b)
  | Rep a m _ => m * minlen a
  | Grp _ a => minlen a
  | _ => 0
  end.

Lemma matches_minlen : forall r w, matches r w -> minlen r <= length w.
Proof.
  induction 1; simpl in *; try rewrite app_length; try lia.
  destruct m as [|m]; simpl in *; lia.
Qed.

Fixpoint has_grp (g : nat) (r : re) : bool :=
  match r with
  | Grp k a => Nat.eqb g k || has_grp g a
  | Seq a b => has_grp g a || has_grp g b
  | Alt a b => has_grp g a || has_grp g b
  | Star a => has_grp g a
  | Rep a _ _ => has_grp g a
  | _ => false
  end.

Lemma ms_no_grp : forall g r s p c s1 p1 c1, ms r s p c s1 p1 c1 -> has_grp g r = false ->
  cap_lookup g c1 = cap_lookup g c.
Proof.
  induction 1; intros Hg; simpl in *; auto.
  - apply orb_false_iff in Hg; destruct Hg as [Ha Hb]. rewrite IHms2, IHms1; auto.
  - apply orb_false_iff in Hg; destruct Hg as [Ha Hb]; auto.
  - apply orb_false_iff in Hg; destruct Hg as [Ha Hb]; auto.
  - rewrite IHms2, IHms1; auto.
  - rewrite IHms2, IHms1; auto.
  - apply orb_false_iff in Hg; destruct Hg as [Ha Hb]. rewrite Ha; auto.
Qed.

(* no class of r contains the symbol x *)
Fixpoint sym_free (x : N) (r : re) : bool :=
  match r with
  | Cls rs => negb (in_cls x rs)
  | Seq a b => sym_free x a && sym_free x b
  | Alt a b => sym_free x a && sym_free x b
  | Star a => sym_free x a
  | Rep a _ _ => sym_free x a
  | Grp _ a => sym_free x a
  | _ => true
  end.

Lemma matches_sym_free : forall x r w, matches r w -> sym_free x r = true -> ~ In x w.
Proof.
  induction 1; intros Hf Hin; simpl in *; auto.
  - destruct Hin as [Hin|[]]; subst. rewrite H in Hf; discriminate.
  - apply andb_true_iff in Hf; destruct Hf as [F1 F2].
    apply in_app_or in Hin; destruct Hin as [Hi|Hi]; [apply (IHmatches1 F1 Hi)|apply (IHmatches2 F2 Hi)].
  - apply andb_true_iff in Hf; destruct Hf as [F1 F2]. apply (IHmatches F1 Hin).
  - apply andb_true_iff in Hf; destruct Hf as [F1 F2]. apply (IHmatches F2 Hin).
  - apply in_app_or in Hin; destruct Hin as [Hi|Hi]; [apply (IHmatches1 Hf Hi)|apply (IHmatches2 Hf Hi)].
  - apply in_app_or in Hin; destruct Hin as [Hi|Hi]; [apply (IHmatches1 Hf Hi)|apply (IHmatches2 Hf Hi)].
  - apply (IHmatches Hf Hin).
Qed.

Lemma search_complete : forall r k s pos,
  k <= length s -> match_here r (skipn k s) (pos + k) <> None ->
  exists k' en cs, search r s pos = Some (pos + k', en, cs) /\ k' <= k /\
                   match_here r (skipn k' s) (pos + k') = Some (en, cs).
Proof.
  intros r k; induction k as [|k IH]; intros s pos Hle Hm.
  - simpl in Hm. rewrite Nat.add_0_r in Hm.
    destruct s; simpl; destruct (match_here r _ pos) as [[e c]|] eqn:E; try contradiction;
      exists 0, e, c; rewrite Nat.add_0_r; simpl; auto.
  - destruct s as [|x s]; [simpl in Hle; lia|].
    simpl. destruct (match_here r (x :: s) pos) as [[e c]|] eqn:E.
    + exists 0, e, c; rewrite Nat.add_0_r; simpl; repeat split; auto; lia.
    + simpl in Hle. destruct (IH s (S pos)) as (k' & en & cs & Hs & Hk & Hm').
      * lia.
      * simpl in Hm. replace (S pos + k) with (pos + S k) by lia; auto.
      * exists (S k'), en, cs. replace (pos + S k') with (S pos + k') by lia.
        simpl; repeat split; auto; lia.
Qed.

Lemma search_sound : forall r s pos st en cs,
  search r s pos = Some (st, en, cs) ->
  exists k, k <= length s /\ st = pos + k /\ match_here r (skipn k s) st = Some (en, cs).
Proof.
  intros r s; induction s as [|x s IH]; intros pos st en cs H; simpl in H.
  - destruct (match_here r [] pos) as [[e c]|] eqn:E; [|discriminate].
    inversion H; subst. exists 0; simpl; rewrite Nat.add_0_r; auto.
  - destruct (match_here r (x :: s) pos) as [[e c]|] eqn:E.
    + inversion H; subst. exists 0; simpl; rewrite Nat.add_0_r; repeat split; auto; lia.
    + apply IH in H. destruct H as (k & Hk & Hst & Hm).
      exists (S k); simpl; repeat split; auto; lia.
Qed.
