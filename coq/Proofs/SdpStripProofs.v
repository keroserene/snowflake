(* SdpStripProofs.v — Model/SdpStrip.v: the stripping loop is the order-preserving filter [filter keep] per media
   section (C08: what is left, what is lost, when the text comes back unchanged), and the peer-address search
   [remote_ip] returns no local, unspecified or loopback address (C13). *)
From Coq Require Import List NArith Bool Lia.
From Snow Require Import Lib.Wire Model.IpClass Model.SdpStrip Proofs.IpClassProofs.
Import ListNotations.
Open Scope N_scope.

Definition keep (a : attr) : bool := negb (bad_host a).

(* the loop of the code is the order-preserving filter *)
Lemma strip_loop_filter : forall rest attrs, strip_loop rest attrs = attrs ++ filter keep rest.
Proof.
  induction rest as [|a rest IH]; intros attrs; cbn [filter]; [symmetry; apply app_nil_r|].
  transitivity (strip_loop rest (if keep a then attrs ++ [a] else attrs)).
  - unfold keep, bad_host. cbn [strip_loop]. destruct (a_class a) as [[] [ip|]| |]; try reflexivity.
    destruct (bad_addr ip); reflexivity.
  - rewrite IH. destruct (keep a); [rewrite <- app_assoc|]; reflexivity.
Qed.

Lemma strip_media_filter : forall m, strip_media m = filter keep m.
Proof. intros m. unfold strip_media. rewrite strip_loop_filter. reflexivity. Qed.

Lemma strip_filter : forall d, strip d = map (filter keep) d.
Proof. intros d. unfold strip. apply map_ext. apply strip_media_filter. Qed.

Lemma bad_host_spec : forall a,
  bad_host a = true <-> exists ip, a_class a = Cand Host (Some ip) /\ bad_addr ip = true.
Proof.
  intros a. unfold bad_host. split.
  - destruct (a_class a) as [t addr| |]; try discriminate. destruct t; try discriminate.
    destruct addr as [ip|]; try discriminate. intro H. exists ip. split; [reflexivity|exact H].
  - intros [ip [E H]]. rewrite E. exact H.
Qed.

Lemma strip_keeps_good : forall d m a, In m (strip d) -> In a m -> bad_host a = false.
Proof.
  intros d m a Hm Ha. rewrite strip_filter in Hm. apply in_map_iff in Hm.
  destruct Hm as [m0 [Em _]]. subst m. apply filter_In in Ha. destruct Ha as [_ Hk].
  apply negb_true_iff, Hk.
Qed.

Lemma no_local_host_left : forall d m a ip,
  In m (strip d) -> In a m -> a_class a = Cand Host (Some ip) ->
  is_local ip = false /\ is_unspecified ip = false /\ is_loopback ip = false.
Proof.
  intros d m a ip Hm Ha Hc. apply bad_addr_false_iff. rewrite <- (strip_keeps_good d m a Hm Ha).
  unfold bad_host. rewrite Hc. reflexivity.
Qed.

(* order-preserving sub-sequence *)
Inductive Sublist {A} : list A -> list A -> Prop :=
| sl_nil : Sublist [] []
| sl_skip : forall x l1 l2, Sublist l1 l2 -> Sublist l1 (x :: l2)
| sl_keep : forall x l1 l2, Sublist l1 l2 -> Sublist (x :: l1) (x :: l2).

Lemma filter_sublist : forall {A} (f : A -> bool) l, Sublist (filter f l) l.
Proof.
  intros A f l. induction l as [|x l IH]; cbn [filter]; [constructor|].
  destruct (f x); constructor; exact IH.
Qed.

Lemma sublist_len_filter : forall {A} (f : A -> bool) l s,
  Sublist s l -> Forall (fun x => f x = true) s -> (List.length s <= List.length (filter f l))%nat.
Proof.
  intros A f l s H. induction H as [|y a b H IH|y a b H IH]; intros Hall; cbn [filter List.length].
  - lia.
  - specialize (IH Hall). destruct (f y); cbn [List.length]; lia.
  - inversion Hall as [|? ? Hy Hr]; subst. rewrite Hy. cbn [List.length]. specialize (IH Hr). lia.
Qed.

(* a sub-sequence that holds only elements satisfying f and as many as the filter IS the filter:
   so the clauses of [rest_preserved] determine the output completely *)
Lemma sublist_filter_unique : forall {A} (f : A -> bool) l s,
  Sublist s l -> Forall (fun x => f x = true) s -> List.length s = List.length (filter f l) -> s = filter f l.
Proof.
  intros A f l s H. induction H as [|x l1 l2 H IH|x l1 l2 H IH]; intros Hall Hlen; cbn [filter] in *.
  - reflexivity.
  - destruct (f x) eqn:E.
    + exfalso. cbn [List.length] in Hlen. pose proof (sublist_len_filter f l2 l1 H Hall). lia.
    + apply IH; assumption.
  - inversion Hall as [|? ? Hx Hr]; subst. rewrite Hx in *. cbn [List.length] in Hlen. f_equal. apply IH; [assumption|lia].
Qed.

Lemma rest_preserved : forall d,
  List.length (strip d) = List.length d
  /\ Forall2 (fun m_in m_out =>
                m_out = filter keep m_in
                /\ Sublist m_out m_in
                /\ (forall a, In a m_out <-> In a m_in /\ bad_host a = false))
             d (strip d).
Proof.
  intros d. rewrite strip_filter. split; [apply map_length|].
  induction d as [|m d IH]; cbn [map]; constructor; [|exact IH].
  split; [reflexivity|]. split; [apply filter_sublist|].
  intros a. rewrite filter_In. unfold keep. rewrite negb_true_iff. tauto.
Qed.

Lemma filter_all : forall {A} (f : A -> bool) l, (forall x, In x l -> f x = true) -> filter f l = l.
Proof.
  intros A f l H. induction l as [|x l IH]; cbn [filter]; [reflexivity|].
  rewrite (H x (or_introl eq_refl)). f_equal. apply IH. intros y Hy. apply H. right. exact Hy.
Qed.

Lemma strip_identity : forall d,
  (forall m a, In m d -> In a m -> bad_host a = false) -> strip d = d.
Proof.
  intros d H. rewrite strip_filter. rewrite <- (map_id d) at 2. apply map_ext_in. intros m Hm.
  apply filter_all. intros a Ha. unfold keep. rewrite (H m a Hm Ha). reflexivity.
Qed.

(* the input comes back as it was exactly when one of the two library calls failed *)
Lemma strip_text_unchanged_iff : forall mok p, strip_text mok p = Unchanged <-> p = None \/ mok = false.
Proof.
  intros [|] [d|]; cbn [strip_text]; split; intros H; try reflexivity; try discriminate; auto.
  destruct H; discriminate.
Qed.

Lemma strip_text_stripped : forall mok p d', strip_text mok p = Stripped d' -> mok = true /\ exists d, p = Some d /\ d' = strip d.
Proof.
  intros [|] [d|] d' H; cbn [strip_text] in H; try discriminate. inversion H. split; [reflexivity|]. exists d. split; reflexivity.
Qed.

(* the first loop is the second one over the candidates' addresses *)
Definition cand_addr (a : attr) : option bytes := match a_class a with Cand _ addr => addr | _ => None end.

Lemma first_remote_pattern_eq : forall l, first_remote l = first_remote_pattern (map cand_addr l).
Proof.
  induction l as [|a l IH]; cbn [first_remote map first_remote_pattern]; [reflexivity|].
  unfold cand_addr at 1. destruct (a_class a) as [t [ip|]| |]; rewrite IH; reflexivity.
Qed.

Lemma first_remote_none : forall l, first_remote l = None ->
  forall a t ip, In a l -> a_class a = Cand t (Some ip) -> bad_addr ip = true.
Proof.
  induction l as [|a l IH]; intros H a' t ip Hin Hc; [destruct Hin|].
  cbn [first_remote] in H. destruct Hin as [E|Hin].
  - subst a'. rewrite Hc in H. destruct (bad_addr ip); [reflexivity|discriminate].
  - destruct (a_class a) as [t0 addr| |].
    + destruct addr as [q|]; [destruct (negb (bad_addr q)); [discriminate|]|]; apply (IH H a' t ip Hin Hc).
    + apply (IH H a' t ip Hin Hc).
    + apply (IH H a' t ip Hin Hc).
Qed.

Lemma first_remote_pattern_sound : forall caps ip, first_remote_pattern caps = Some ip ->
  bad_addr ip = false /\ In (Some ip) caps.
Proof.
  induction caps as [|c caps IH]; intros ip H; cbn [first_remote_pattern] in H; [discriminate|].
  destruct c as [q|].
  - destruct (bad_addr q) eqn:Eb; cbn [negb] in H.
    + destruct (IH ip H) as [Hb Hin]. split; [exact Hb|right; exact Hin].
    + inversion H; subst. split; [exact Eb|left; reflexivity].
  - destruct (IH ip H) as [Hb Hin]. split; [exact Hb|right; exact Hin].
Qed.

Lemma first_remote_sound : forall l ip, first_remote l = Some ip ->
  bad_addr ip = false /\ exists a t, In a l /\ a_class a = Cand t (Some ip).
Proof.
  intros l ip H. rewrite first_remote_pattern_eq in H. apply first_remote_pattern_sound in H as [Hb Hin].
  split; [exact Hb|]. apply in_map_iff in Hin as (a & E & Ha). exists a. unfold cand_addr in E.
  destruct (a_class a) as [t addr| |]; try discriminate. exists t. subst addr. auto.
Qed.

Lemma remote_ip_sound : forall p caps ip, remote_ip p caps = Some ip ->
  is_local ip = false /\ is_unspecified ip = false /\ is_loopback ip = false.
Proof.
  intros p caps ip H. apply bad_addr_false_iff.
  unfold remote_ip in H. destruct p as [d|]; [|discriminate].
  destruct (first_remote (concat d)) as [q|] eqn:E.
  - inversion H; subst. apply (first_remote_sound _ _ E).
  - apply (first_remote_pattern_sound _ _ H).
Qed.

Lemma remote_ip_total : forall p caps,
  remote_ip p caps = None
  \/ exists ip, remote_ip p caps = Some ip /\ is_local ip = false /\ is_unspecified ip = false /\ is_loopback ip = false.
Proof.
  intros p caps. destruct (remote_ip p caps) as [ip|] eqn:E; [right|left; reflexivity].
  exists ip. split; [reflexivity|]. apply (remote_ip_sound p caps ip E).
Qed.
