(* BrokerExchangeProofs.v — every exchange over the code's transport ends within the header timeout; without it a silent
   broker holds the attempt for ever. *)
From Coq Require Import Arith Bool Lia.
From Snow Require Import Model.BrokerExchange.

Lemma exchange_bounded : forall T b, exists d ok, exchange_end (mkXT (Some T)) b = Some (d, ok) /\ d <= T.
Proof.
  intros T b. destruct b as [| d ok |]; simpl.
  - exists 0, false. split; [reflexivity | lia].
  - destruct (d <=? T) eqn:E.
    + exists d, ok. split; [reflexivity | apply Nat.leb_le; exact E].
    + exists T, false. split; [reflexivity | lia].
  - exists T, false. split; [reflexivity | lia].
Qed.

Lemma code_exchange_bounded : forall b, exists d ok, exchange_end code_transport b = Some (d, ok) /\ d <= 15.
Proof. intro b. exact (exchange_bounded 15 b). Qed.

Lemma code_silent_fails_at_limit : exchange_end code_transport B_Silent = Some (15, false).
Proof. reflexivity. Qed.

(* refutation of the transport without the limit (e.g. the 15 s put on IdleConnTimeout instead) *)
Lemma unlimited_silent_for_ever : forall n, in_flight (mkXT None) B_Silent n = true.
Proof. intro n. reflexivity. Qed.

Lemma unlimited_silent_never_returns : negotiate_outcome (mkXT None) B_Silent = None.
Proof. reflexivity. Qed.
