(* BrokerLate.v — what survives a finished exchange (C02): an answer that was accepted for a poll whose exchange is over
   (the client has left its select, or the poll expired unmatched) is never taken out of that poll's answer channel by
   anybody: the record, its channels and their contents die with the exchange. *)
From Coq Require Import List NArith Bool.
From Snow Require Import Model.Broker Proofs.BrokerLocal Proofs.BrokerProofs Proofs.BrokerSteps Proofs.BrokerThms.
Import ListNotations.
Open Scope N_scope.

(* the exchange of this poll is over: it is in no heap, and either its client has left the select on the answer
   channel (response chosen, or already returned), or it has no client and its handler returned "no match" *)
Definition finished (e : entry) : bool :=
  negb (e_inheap e) &&
  match e_cl e with
  | Some c => match c_pc c with C_Cleanup _ | C_Done _ => true | _ => false end
  | None => match e_w e with W_Done PNoMatch => true | _ => false end
  end.

(* what its client was told (if it had one) *)
Definition told (e : entry) : option cresp :=
  match e_cl e with
  | Some c => match c_pc c with C_Cleanup r | C_Done r => Some r | _ => None end
  | None => None
  end.

Lemma fin_inheap e : finished e = true -> e_inheap e = false.
Proof. unfold finished. intros H. apply andb_prop in H. destruct H as [H _]. apply negb_true_iff. exact H. Qed.

Lemma fin_cl_none e : finished e = true -> e_cl e = None -> e_w e = W_Done PNoMatch /\ e_inheap e = false.
Proof.
  intros H Hc. split; [|apply fin_inheap; exact H]. unfold finished in H. rewrite Hc in H. apply andb_prop in H.
  destruct H as [_ Hw]. destruct (e_w e) as [| | | | |[| |]]; try discriminate. reflexivity.
Qed.

Lemma fin_cl_some e c : finished e = true -> e_cl e = Some c -> exists r, c_pc c = C_Cleanup r \/ c_pc c = C_Done r.
Proof.
  unfold finished. intros H Hc. rewrite Hc in H. apply andb_prop in H. destruct H as [_ H].
  destruct (c_pc c) as [| |r|r]; try discriminate; exists r; [left|right]; reflexivity.
Qed.

(* what a step can still do to a finished entry: its waiter may be on its way out, its client may do its last critical
   section, answers may be queued and even accepted into its channel; no guard that needs the client in its select,
   the poll in the heap, or the waiter before the hand-over is passed *)
Lemma estep_finished v s l e e' : estep v s l e e' -> finished e = true ->
  finished e' = true /\ told e' = told e /\ (forall p, l <> L_CTakeAnswer p) /\ (forall p, l <> L_RvAnswer p).
Proof.
  intros H F. pose proof (fin_inheap e F) as Hout.
  assert (NoCl : e_cl e = None -> e_w e = W_Done PNoMatch) by (intros Hn; apply (fin_cl_none e F Hn)).
  destruct H; try (destruct (fin_cl_some e c F Hc) as [r0 [X|X]]; congruence);
    (split; [|split; [|split; discriminate]]); unfold finished, told in *; cbn; rewrite ?Hc in *; cbn; rewrite ?Hpc in *;
    try reflexivity; try exact F.
  - (* E_WTake *) destruct (e_cl e); [exact F | specialize (NoCl eq_refl); congruence].
  - (* E_WExpire: e is not in the heap *) congruence.
  - (* E_WLate *) destruct (e_cl e); [exact F | specialize (NoCl eq_refl); congruence].
  - (* E_Client, [finished]: e is not in the heap *) apply eligible_inheap in Hel. destruct Hel. congruence.
  - (* E_Client, [told] *) apply eligible_inheap in Hel. destruct Hel. congruence.
  - (* E_RvForward *) destruct (e_cl e); [exact F | specialize (NoCl eq_refl); congruence].
  - (* E_AnswerPut, [finished] *) destruct (buf_free e); exact F.
  - (* E_AnswerPut, [told] *) destruct (buf_free e); reflexivity.
Qed.

(* one step: a finished entry stays finished, its client's response stays what it is, and the step is not a receive
   from this entry's answer channel *)
Theorem finished_step v s l s' p e :
  step v s l = Some s' -> nth_error (entries s) p = Some e -> finished e = true ->
  l <> L_CTakeAnswer p /\ l <> L_RvAnswer p /\
  exists e', nth_error (entries s') p = Some e' /\ finished e' = true /\ told e' = told e.
Proof.
  intros H Hp Hf. destruct (step_entry_fwd v s l s' p e H Hp) as [e' [Hp' [[Hn ->]|[_ Hes]]]].
  - split; [intros ->; apply Hn; reflexivity|]. split; [intros ->; apply Hn; reflexivity|]. exists e. auto.
  - destruct (estep_finished v s l e e' Hes Hf) as [A [B [C D]]]. split; [apply C|]. split; [apply D|]. exists e'. auto.
Qed.

(* along any run from a state in which the exchange of poll p is over: nobody ever receives from p's answer channel
   again (neither label occurs), the entry stays finished, and what its client was told never changes *)
Theorem finished_forever v : forall ls s s' p e,
  run v s ls = Some s' -> nth_error (entries s) p = Some e -> finished e = true ->
  ~ In (L_CTakeAnswer p) ls /\ ~ In (L_RvAnswer p) ls /\
  exists e', nth_error (entries s') p = Some e' /\ finished e' = true /\ told e' = told e.
Proof.
  intros ls s s' p e H. revert ls s s' H e.
  apply (run_ind v (fun s ls s' => forall e, nth_error (entries s) p = Some e -> finished e = true ->
    ~ In (L_CTakeAnswer p) ls /\ ~ In (L_RvAnswer p) ls /\
    exists e', nth_error (entries s') p = Some e' /\ finished e' = true /\ told e' = told e)).
  - intros s e Hp Hf. split; [intros []|]. split; [intros []|]. exists e. auto.
  - intros s l s1 ls s' Hs _ IH e Hp Hf.
    destruct (finished_step v s l s1 p e Hs Hp Hf) as [N1 [N2 [e1 [Hp1 [Hf1 Ht1]]]]].
    destruct (IH e1 Hp1 Hf1) as [M1 [M2 [e' [Hp' [Hf' Ht']]]]].
    split; [intros [E|X]; [exact (N1 E) | exact (M1 X)]|].
    split; [intros [E|X]; [exact (N2 E) | exact (M2 X)]|].
    exists e'. split; [exact Hp'|]. split; [exact Hf'|]. rewrite Ht'. exact Ht1.
Qed.

(* in reachable states a client that has left its select (timed out or answered), and a poll that expired unmatched,
   are finished in this sense *)
Lemma reachable_client_left_finished v br s p e c r :
  reachable v br s -> nth_error (entries s) p = Some e -> e_cl e = Some c ->
  (c_pc c = C_Cleanup r \/ c_pc c = C_Done r) -> finished e = true /\ told e = Some r.
Proof.
  intros R Hp Hc Hpc. unfold finished, told. rewrite Hc.
  assert (Hh : e_inheap e = false).
  { destruct (e_inheap e) eqn:Hh; [|reflexivity].
    destruct (proj1 (inheap_iff_waiting v br s p e R Hp) Hh) as [Hn _]. congruence. }
  rewrite Hh. destruct Hpc as [->| ->]; split; reflexivity.
Qed.

Lemma reachable_expired_finished v br s p e :
  reachable v br s -> nth_error (entries s) p = Some e -> e_cl e = None -> e_w e = W_Done PNoMatch -> finished e = true.
Proof.
  intros R Hp Hc Hw. unfold finished. rewrite Hc, Hw.
  destruct (e_inheap e) eqn:Hh; [|reflexivity].
  destruct (proj1 (inheap_iff_waiting v br s p e R Hp) Hh) as [_ Hww]. rewrite Hw in Hww. discriminate.
Qed.
