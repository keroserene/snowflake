(* EncapSweep.v — length prefixes, by bit arithmetic on their bytes: which byte strings are one complete
   prefix and what they announce, and that the prefixes the writers emit (dataPrefixForLength, the switch
   of WritePadding) announce the length that follows them. *)
From Coq Require Import List NArith Bool Lia.
From Coq Require Import ZifyN.
From Snow Require Import Lib.Wire Model.Encap Model.EncapPad.
Import ListNotations.
Open Scope N_scope.

Lemma land_small x k : x < 2 ^ k -> N.land x (N.ones k) = x.
Proof. intros H. rewrite N.land_ones. apply N.mod_small, H. Qed.

Lemma land_lt_pow2 b k : N.land b (N.ones k) < 2 ^ k.
Proof. rewrite N.land_ones. apply N.mod_lt. apply N.pow_nonzero. discriminate. Qed.

Lemma land63 b : N.land b 63 < 64. Proof. exact (land_lt_pow2 b 6). Qed.
Lemma land127 b : N.land b 127 < 128. Proof. exact (land_lt_pow2 b 7). Qed.
Lemma land63_small x : x < 64 -> N.land x 63 = x. Proof. exact (land_small x 6). Qed.
Lemma land127_mod n : N.land n 127 = n mod 128. Proof. exact (N.land_ones n 7). Qed.

Lemma land63_lt x : (N.land x 63 =? x) = (x <? 64).
Proof.
  destruct (N.ltb_spec x 64) as [H|H].
  - apply N.eqb_eq, land63_small, H.
  - apply N.eqb_neq. intros E. pose proof (land63 x). lia.
Qed.

Lemma small_bits_high c k n : c < 2 ^ k -> k <= n -> N.testbit c n = false.
Proof.
  intros Hc Hk. destruct (N.eq_dec c 0) as [->|Hnz]; [apply N.bits_0|].
  apply N.bits_above_log2. apply N.log2_lt_pow2; [lia|].
  apply N.lt_le_trans with (2 ^ k); [exact Hc|]. apply N.pow_le_mono_r; lia.
Qed.

Lemma land_shifted_small a c k : c < 2 ^ k -> N.land (a * 2 ^ k) c = 0.
Proof.
  intros Hc. apply N.bits_inj. intros n. rewrite N.land_spec, N.bits_0.
  destruct (N.ltb_spec n k) as [Hlt|Hge].
  - rewrite N.mul_pow2_bits_low by exact Hlt. reflexivity.
  - rewrite (small_bits_high c k n Hc Hge). apply andb_false_r.
Qed.

Lemma lor_shiftl_add a c k : c < 2 ^ k -> N.lor (N.shiftl a k) c = a * 2 ^ k + c.
Proof.
  intros Hc. rewrite N.shiftl_mul_pow2.
  pose proof (land_shifted_small a c k Hc) as H0.
  rewrite <- N.lxor_lor by exact H0.
  rewrite <- N.add_nocarry_lxor by exact H0. reflexivity.
Qed.

Lemma lor_shiftl7 a c : c < 128 -> N.lor (N.shiftl a 7) c = a * 128 + c.
Proof. exact (lor_shiftl_add a c 7). Qed.

(* a byte string that is exactly one complete length prefix *)
Definition hdr_exact (p : bytes) : option (bool * N) :=
  match p with
  | [b0] => if N.land b0 64 =? 0 then Some (negb (N.land b0 128 =? 0), N.land b0 63) else None
  | [b0; b1] =>
      if N.land b0 64 =? 0 then None
      else if N.land b1 128 =? 0
           then Some (negb (N.land b0 128 =? 0), N.lor (N.shiftl (N.land b0 63) 7) (N.land b1 127))
           else None
  | [b0; b1; b2] =>
      if N.land b0 64 =? 0 then None
      else if N.land b1 128 =? 0 then None
      else if N.land b2 128 =? 0
           then Some (negb (N.land b0 128 =? 0),
                      N.lor (N.shiftl (N.lor (N.shiftl (N.land b0 63) 7) (N.land b1 127)) 7) (N.land b2 127))
           else None
  | _ => None
  end.

Lemma parse_one_hdr_exact p isd v rest :
  hdr_exact p = Some (isd, v) -> parse_one (p ++ rest) = take_body isd v rest.
Proof.
  destruct p as [|b0 [|b1 [|b2 [|b3 p]]]]; cbn [hdr_exact app parse_one]; try discriminate.
  - destruct (N.land b0 64 =? 0); [|discriminate]. intros H; injection H as <- <-. reflexivity.
  - destruct (N.land b0 64 =? 0); [discriminate|].
    destruct (N.land b1 128 =? 0); [|discriminate]. intros H; injection H as <- <-. reflexivity.
  - destruct (N.land b0 64 =? 0); [discriminate|].
    destruct (N.land b1 128 =? 0); [discriminate|].
    destruct (N.land b2 128 =? 0); [|discriminate]. intros H; injection H as <- <-. reflexivity.
Qed.

(* parse_one, read through hdr_exact: the four ways a byte string can begin *)
Inductive parse_view : bytes -> pres -> Prop :=
| PV_end : parse_view [] PEnd
| PV_hdr p isd v rest : hdr_exact p = Some (isd, v) -> parse_view (p ++ rest) (take_body isd v rest)
| PV_short s : (1 <= length s <= 2)%nat -> parse_view s PShort
| PV_long b0 b1 b2 r : N.land b0 64 <> 0 -> N.land b1 128 <> 0 -> N.land b2 128 <> 0 ->
    parse_view (b0 :: b1 :: b2 :: r) PLong.

Lemma parse_one_view s : parse_view s (parse_one s).
Proof.
  destruct s as [|b0 s1]; cbn [parse_one]; [constructor|].
  destruct (N.eqb_spec (N.land b0 64) 0) as [E0|E0].
  { apply (PV_hdr [b0]). cbn [hdr_exact]. rewrite E0. reflexivity. }
  apply N.eqb_neq in E0 as E0'.
  destruct s1 as [|b1 s2]; [apply PV_short; cbn [length]; lia|].
  destruct (N.eqb_spec (N.land b1 128) 0) as [E1|E1].
  { apply (PV_hdr [b0; b1]). cbn [hdr_exact]. rewrite E0', E1. reflexivity. }
  apply N.eqb_neq in E1 as E1'.
  destruct s2 as [|b2 s3]; [apply PV_short; cbn [length]; lia|].
  destruct (N.eqb_spec (N.land b2 128) 0) as [E2|E2].
  { apply (PV_hdr [b0; b1; b2]). cbn [hdr_exact]. rewrite E0', E1', E2. reflexivity. }
  apply PV_long; assumption.
Qed.

(* the value announced by any complete 1..3 byte prefix, as arithmetic, and its bound:
   the decoder never allocates more than 2^20 - 1 bytes *)
Theorem hdr_exact_value p isd v : hdr_exact p = Some (isd, v) ->
  v < 1048576 /\
  match p with
  | [b0] => v = N.land b0 63
  | [b0; b1] => v = N.land b0 63 * 128 + N.land b1 127
  | [b0; b1; b2] => v = (N.land b0 63 * 128 + N.land b1 127) * 128 + N.land b2 127
  | _ => False
  end.
Proof.
  destruct p as [|b0 [|b1 [|b2 [|b3 p]]]]; cbn [hdr_exact]; try discriminate;
    pose proof (land63 b0) as L0.
  - destruct (N.land b0 64 =? 0); [|discriminate]. intros H; injection H as _ <-.
    split; [lia | reflexivity].
  - destruct (N.land b0 64 =? 0); [discriminate|].
    destruct (N.land b1 128 =? 0); [|discriminate]. intros H; injection H as _ <-.
    pose proof (land127 b1) as L1. rewrite (lor_shiftl7 _ _ L1).
    split; [lia | reflexivity].
  - destruct (N.land b0 64 =? 0); [discriminate|].
    destruct (N.land b1 128 =? 0); [discriminate|].
    destruct (N.land b2 128 =? 0); [|discriminate]. intros H; injection H as _ <-.
    pose proof (land127 b1) as L1. pose proof (land127 b2) as L2.
    rewrite (lor_shiftl7 _ _ L1), (lor_shiftl7 _ _ L2).
    split; [lia | reflexivity].
Qed.

(* The three spellings of a prefix: flag bits or-ed with a 6-bit field, then 7-bit fields.
   Every byte below is a flag pattern t or-ed with a field (land e m) under a mask that avoids the
   flags.  A test (land _ k) of hdr_exact then splits into a constant and a mask of the field. *)
Lemma land_field t e m k :
  N.land (N.lor t (N.land e m)) k = N.lor (N.land t k) (N.land e (N.land m k)).
Proof. rewrite N.land_lor_distr_l, N.land_assoc. reflexivity. Qed.

(* split every test by land_field and evaluate the constants; what is left of a field is
   (land e 0) where the test looks at a flag and (land e m) where it extracts the field *)
Local Ltac masks := rewrite ?land_field, <- ?N.land_assoc;
  cbn [N.land Pos.land N.lor Pos.lor Pos.Nsucc_double Pos.Ndouble N.eqb Pos.eqb negb]; rewrite ?N.land_0_r;
  cbn [N.lor N.eqb Pos.eqb negb].

Lemma hdr_exact_1 (d : bool) a : a < 64 -> hdr_exact [N.lor (if d then 128 else 0) a] = Some (d, a).
Proof.
  intros Ha. rewrite <- (land_small a 6 Ha). cbn [hdr_exact]. destruct d; masks; reflexivity.
Qed.

Lemma hdr_exact_2 (d : bool) a b : a < 64 -> b < 128 ->
  hdr_exact [N.lor (if d then 192 else 64) a; b] = Some (d, a * 128 + b).
Proof.
  intros Ha Hb. rewrite <- (lor_shiftl7 a b Hb).
  rewrite <- (land_small a 6 Ha), <- (land_small b 7 Hb). cbn [hdr_exact]. destruct d; masks; reflexivity.
Qed.

Lemma hdr_exact_3 (d : bool) a b c : a < 64 -> b < 128 -> c < 128 ->
  hdr_exact [N.lor (if d then 192 else 64) a; N.lor 128 b; c] = Some (d, (a * 128 + b) * 128 + c).
Proof.
  intros Ha Hb Hc. rewrite <- (lor_shiftl7 a b Hb), <- (lor_shiftl7 _ c Hc).
  rewrite <- (land_small a 6 Ha), <- (land_small b 7 Hb), <- (land_small c 7 Hc).
  cbn [hdr_exact]. destruct d; masks; reflexivity.
Qed.

Definition plen (n : N) : nat := if n <? 64 then 1%nat else if n <? 8192 then 2%nat else 3%nat.

Lemma plen_mono a b : a <= b -> (plen a <= plen b)%nat.
Proof.
  intros H. unfold plen. destruct (N.ltb_spec b 64) as [B1|B1]; [|destruct (N.ltb_spec b 8192) as [B2|B2]].
  - destruct (N.ltb_spec a 64); lia.
  - destruct (N.ltb_spec a 64); [lia|]. destruct (N.ltb_spec a 8192); lia.
  - destruct (a <? 64), (a <? 8192); lia.
Qed.

Lemma plen_le_self n : 0 < n -> N.of_nat (plen n) <= n.
Proof. intros H. unfold plen. destruct (N.ltb_spec n 64); [lia|]. destruct (N.ltb_spec n 8192); lia. Qed.

(* n = (n / 16384) * 128 * 128 + (n / 128 mod 128) * 128 + n mod 128, each field under its mask *)
Lemma prefix_for_ok n : n < 1048576 ->
  exists p, prefix_for n = Some p /\ hdr_exact p = Some (true, n) /\ length p = plen n.
Proof.
  intros Hn. unfold prefix_for, plen. rewrite !land63_lt, !N.shiftr_div_pow2.
  change (2 ^ 7) with 128. change (2 ^ 14) with 16384.
  destruct (N.ltb_spec n 64) as [H1|H1]; [|destruct (N.ltb_spec (n / 128) 64) as [H2|H2]].
  - eexists. split; [reflexivity|]. split; [|reflexivity].
    rewrite (land63_small n H1). exact (hdr_exact_1 true n H1).
  - eexists. split; [reflexivity|]. split; [|destruct (N.ltb_spec n 8192); [reflexivity|lia]].
    rewrite (land63_small _ H2), (hdr_exact_2 true _ _ H2 (land127 n)), land127_mod.
    do 2 f_equal. lia.
  - assert (H3 : n / 16384 < 64) by (apply N.div_lt_upper_bound; lia).
    rewrite (proj2 (N.ltb_lt _ _) H3).
    eexists. split; [reflexivity|]. split; [|destruct (N.ltb_spec n 8192); [lia|reflexivity]].
    rewrite (land63_small _ H3), (hdr_exact_3 true _ _ _ H3 (land127 _) (land127 n)), !land127_mod.
    do 2 f_equal. lia.
Qed.

Lemma prefix_for_none n : 1048576 <= n -> prefix_for n = None.
Proof.
  intros Hn. unfold prefix_for. rewrite !land63_lt. rewrite !N.shiftr_div_pow2.
  change (2 ^ 7) with 128. change (2 ^ 14) with 16384.
  assert (64 <= n / 128) by (apply N.div_le_lower_bound; lia).
  assert (64 <= n / 16384) by (apply N.div_le_lower_bound; lia).
  destruct (N.ltb_spec n 64); [lia|].
  destruct (N.ltb_spec (n / 128) 64); [lia|].
  destruct (N.ltb_spec (n / 16384) 64); [lia|]. reflexivity.
Qed.

(* Up to 8193 only the first two cases of the switch are taken, and they are spelled right.  The
   three-byte case masks its middle byte with 0x3f; of the batch sizes admitted here only 8194
   reaches it, with (8194 - 3) / 128 = 63, which that mask leaves alone. *)
Lemma pad_prefix_ok p : 1 <= p -> p <= PADBATCH_MAX ->
  hdr_exact (fst (pad_prefix p)) = Some (false, snd (pad_prefix p)) /\
  snd (pad_prefix p) + blen (fst (pad_prefix p)) = p /\
  (p <= 8193 -> (1 <= length (fst (pad_prefix p)) <= 2)%nat).
Proof.
  unfold PADBATCH_MAX. intros H1 H2. unfold pad_prefix. rewrite !land63_lt, !N.shiftr_div_pow2.
  change (2 ^ 7) with 128.
  destruct (N.ltb_spec (p - 1) 64) as [L1|L1]; [|destruct (N.ltb_spec ((p - 2) / 128) 64) as [L2|L2]];
    cbn [fst snd].
  - rewrite (land63_small _ L1). split; [exact (hdr_exact_1 false _ L1)|]. cbn. lia.
  - rewrite (land63_small _ L2), (hdr_exact_2 false _ _ L2 (land127 _)), land127_mod.
    split; [do 2 f_equal; lia|]. cbn. lia.
  - assert (p = 8194) as -> by lia. split; [reflexivity|]. split; [reflexivity|]. intros; lia.
Qed.

Lemma pad_prefix_short p : 1 <= p -> p <= 8193 -> (1 <= length (fst (pad_prefix p)) <= 2)%nat.
Proof. intros H1 H2. apply (pad_prefix_ok p H1); unfold PADBATCH_MAX; lia. Qed.
