(* SessDescCallersProofs.v — proofs about Model/SessDescCallers.v (C13: no caller touches the nil
   result of a failed deserialisation). *)
From Coq Require Import List NArith.
From Snow Require Import Model.SessDesc Model.SessDescCallers Proofs.SessDescProofs.
Import ListNotations.
Open Scope N_scope.

(* the description a caller may touch: the pointer of the Go pair, nil unless the deserialiser accepted *)
Definition ok_of (o : outcome) : option desc := match o with Ok d => Some d | _ => None end.

Lemma ok_of_some : forall o d, ok_of o = Some d <-> o = Ok d.
Proof. intros [d'|e|] d; cbn [ok_of]; split; congruence. Qed.

Lemma ok_of_none : forall j, ok_of (deserialize j) = None <-> exists e, deserialize j = Err e.
Proof.
  intros j. pose proof (total j) as T. destruct (deserialize j) as [d|e|]; cbn [ok_of].
  - split; [discriminate | intros [e H]; discriminate].
  - split; [eauto | reflexivity].
  - destruct (T eq_refl).
Qed.

(* the pair the repaired deserialiser returns is coherent: (nil, err) or (ptr, nil), nothing else *)
Lemma go_pair_code : forall j,
  go_pair (deserialize j) = Some (match ok_of (deserialize j) with Some d => (Some d, false) | None => (None, true) end).
Proof. intros j. pose proof (total j) as T. destruct (deserialize j); [reflexivity | reflexivity | destruct (T eq_refl)]. Qed.

(* with its guard, each caller returns without touching anything, or uses exactly that description *)
Lemma natprobe_code_eq : forall post outer,
  natprobe_code post outer = CRet (if post then match outer with Some j => ok_of (deserialize j) | None => None end else None).
Proof.
  intros [|] [j|]; try reflexivity. unfold natprobe_code, natprobe. cbn [negb]. rewrite go_pair_code.
  destruct (ok_of (deserialize j)); reflexivity.
Qed.

Lemma poll_offer_code_offer : forall j rs, poll_offer_code (PollOffer j :: rs) = Some (ok_of (deserialize j)).
Proof.
  intros j rs. unfold poll_offer_code. cbn [poll_offer]. rewrite go_pair_code. destruct (ok_of (deserialize j)); reflexivity.
Qed.

Definition answer_of (r : cresp) : option desc := match r with RespAnswer j => ok_of (deserialize j) | _ => None end.

Lemma negotiate_code_eq : forall r,
  negotiate_code r = Some (match answer_of r with Some d => (Some d, false) | None => (None, true) end).
Proof. intros [| | |j]; try reflexivity. apply go_pair_code. Qed.

Lemma connect_code_eq : forall r, connect_code r = CRet (answer_of r).
Proof.
  intros r. unfold connect_code, connect. fold (negotiate_code r). rewrite negotiate_code_eq.
  destruct (answer_of r); reflexivity.
Qed.

Lemma natprobe_code_uses : forall post outer d,
  natprobe_code post outer = CRet (Some d) <-> post = true /\ exists j, outer = Some j /\ deserialize j = Ok d.
Proof.
  intros post outer d. rewrite natprobe_code_eq. destruct post, outer as [j|].
  - split; [intros [= H]; apply ok_of_some in H; eauto | intros [_ (j' & [= <-] & H)]; f_equal; apply ok_of_some, H].
  - split; [discriminate | intros [_ (j' & H & _)]; discriminate].
  - split; [discriminate | intros [H _]; discriminate].
  - split; [discriminate | intros [H _]; discriminate].
Qed.

Lemma natprobe_code_returns : forall post outer,
  natprobe_code post outer = CRet None <->
  post = false \/ outer = None \/ exists j e, outer = Some j /\ deserialize j = Err e.
Proof.
  intros post outer. rewrite natprobe_code_eq. destruct post, outer as [j|]; [|split; auto..].
  split.
  - intros [= H]. apply ok_of_none in H as [e H]. right. right. exists j, e. auto.
  - intros [H|[H|(j' & e & [= <-] & H)]]; try discriminate. f_equal. apply ok_of_none. eauto.
Qed.

Lemma natprobe_code_never_panics : forall post outer, natprobe_code post outer <> CPanic.
Proof. intros post outer. rewrite natprobe_code_eq. discriminate. Qed.

Lemma natprobe_lost_return_witness : natprobe false deserialize true (Some None) = CPanic.
Proof. reflexivity. Qed.

(* the pinned deserialiser took the caller down with it *)
Lemma natprobe_v0_panics : natprobe true deserialize_v0 true (Some v0_witness) = CPanic.
Proof. reflexivity. Qed.

Lemma poll_offer_code_total : forall rs, exists p, poll_offer_code rs = Some p.
Proof.
  induction rs as [|[| |j] rs IH]; [exists None; reflexivity | exists None; reflexivity | exact IH |].
  rewrite poll_offer_code_offer. eauto.
Qed.

(* what pollOffer returns: the description of the first answer that is not "no match", when that
   answer carries an offer the deserialiser accepts; nil in every other case *)
Lemma poll_offer_code_spec : forall rs d,
  poll_offer_code rs = Some (Some d) <->
  exists n j rest, rs = repeat PollNoMatch n ++ PollOffer j :: rest /\ deserialize j = Ok d.
Proof.
  induction rs as [|r rs IH]; intros d.
  - split; [discriminate|]. intros ([|n] & j & rest & E & _); discriminate.
  - destruct r as [| |j].
    + split; [discriminate|]. intros ([|n] & j & rest & E & _); discriminate.
    + change (poll_offer_code (PollNoMatch :: rs)) with (poll_offer_code rs). rewrite IH. split.
      * intros (n & j & rest & -> & H). exists (S n), j, rest. auto.
      * intros ([|n] & j & rest & [= ->] & H); eauto.
    + rewrite poll_offer_code_offer. split.
      * intros [= H]. apply ok_of_some in H. exists 0%nat, j, rs. auto.
      * intros ([|n] & j' & rest & [= <- _] & H); f_equal; f_equal. apply ok_of_some, H.
Qed.

Lemma run_session_code_never_panics : forall rs relay_ok, run_session_code rs relay_ok <> CPanic.
Proof.
  intros rs relay_ok. unfold run_session_code, run_session.
  destruct (poll_offer_code_total rs) as [p E]. unfold poll_offer_code in E. rewrite E.
  destruct p as [d|]; [destruct relay_ok; discriminate|discriminate].
Qed.

Lemma run_session_code_uses : forall rs relay_ok d,
  run_session_code rs relay_ok = CRet (Some d) <-> relay_ok = true /\ poll_offer_code rs = Some (Some d).
Proof.
  intros rs relay_ok d. unfold run_session_code, run_session, poll_offer_code.
  destruct (poll_offer_code_total rs) as [p E]. unfold poll_offer_code in E. rewrite E.
  destruct p as [d0|]; cbn [deref].
  - destruct relay_ok; cbn [deref]; split; try discriminate.
    + intro H. inversion H. split; reflexivity.
    + intros [_ H]. inversion H. reflexivity.
    + intros [H _]. discriminate.
  - split; [discriminate|]. intros [_ H]. discriminate.
Qed.

(* both checks are needed: pollOffer's `if err != nil { return nil }` keeps the error from being
   dropped (the nil would then be caught by runSession), runSession's `if offer == nil` keeps the
   nil from reaching makePeerConnectionFromOffer *)
Lemma run_session_nil_check_needed : forall relay_ok,
  run_session true false deserialize [PollOffer None] true = CPanic
  /\ run_session true false deserialize [PollBad] true = CPanic
  /\ run_session_code [PollOffer None] relay_ok = CRet None.
Proof. intros relay_ok. repeat split; reflexivity. Qed.

Lemma poll_offer_err_check_not_the_last_line : forall relay_ok,
  run_session false true deserialize [PollOffer None] relay_ok = CRet None.
Proof. intros relay_ok. reflexivity. Qed.

(* Negotiate returns (nil, err) or (description, nil), never (nil, nil) and never panics *)
Lemma negotiate_code_coherent : forall r,
  (exists d, negotiate_code r = Some (Some d, false)) \/ negotiate_code r = Some (None, true).
Proof. intros r. rewrite negotiate_code_eq. destruct (answer_of r) as [d|]; eauto. Qed.

Lemma answer_of_some : forall r d, answer_of r = Some d <-> exists j, r = RespAnswer j /\ deserialize j = Ok d.
Proof.
  intros [| | |j] d; cbn [answer_of]; try (split; [discriminate | intros (j & H & _); discriminate]).
  rewrite ok_of_some. split; [eauto | intros (j' & [= <-] & H); exact H].
Qed.

Lemma negotiate_code_spec : forall r d,
  negotiate_code r = Some (Some d, false) <-> exists j, r = RespAnswer j /\ deserialize j = Ok d.
Proof.
  intros r d. rewrite <- answer_of_some, negotiate_code_eq. destruct (answer_of r); split; congruence.
Qed.

Lemma connect_code_never_panics : forall r, connect_code r <> CPanic.
Proof. intros r. rewrite connect_code_eq. discriminate. Qed.

Lemma connect_code_uses : forall r d,
  connect_code r = CRet (Some d) <-> exists j, r = RespAnswer j /\ deserialize j = Ok d.
Proof. intros r d. rewrite <- answer_of_some, connect_code_eq. split; congruence. Qed.

Lemma connect_err_check_needed :
  connect false deserialize ExchErr = CPanic
  /\ connect false deserialize (RespAnswer None) = CPanic
  /\ connect_code (RespAnswer None) = CRet None.
Proof. repeat split; reflexivity. Qed.
