(* BrokerWireProofs.v — the NAT type on the wire (common/messages, Model/Messages.v) as the matching machine
   (Model/Broker.v) reads it: [natty_of], the same reading as in Model/BrokerGate.v. The wire theorems of
   Properties/C03.v compose it with the pool selection. *)
From Coq Require Import List NArith Bool.
From Snow Require Import Lib.Wire Model.Messages Model.Broker.
Import ListNotations.
Open Scope N_scope.

(* how the broker reads a decoded NAT string: ipc.go / broker.go compare with the constant NATUnrestricted only
   when choosing a heap; anything else goes with the restricted/unknown proxies *)
Definition natty_of (n : bytes) : natty :=
  if beq n NAT_UNRESTRICTED then NatUnrestricted
  else if beq n NAT_RESTRICTED then NatRestricted else NatUnknown.

Lemma natty_of_unknown : natty_of NAT_UNKNOWN = NatUnknown.
Proof. reflexivity. Qed.

Lemma norm_nat_unrestricted : norm_nat NAT_UNRESTRICTED = Some NAT_UNRESTRICTED.
Proof. reflexivity. Qed.
