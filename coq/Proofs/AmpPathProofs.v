(* AmpPathProofs.v — the URL-safe base64 of Model/B64Url.v decodes what it encodes and refuses exactly the strings with a
   character outside its alphabet or a length that is 1 modulo 4; DecodePath (Model/AmpPath.v) on each shape of path,
   the shape read off its outcome, and its round trip with the client's encoder for any padding. *)
From Coq Require Import List NArith Lia Bool Arith.
From Coq Require Import ZifyBool.
From Snow Require Import Lib.Wire Lib.ListFacts Model.B64Url Model.AmpPath.
Import ListNotations.
Open Scope N_scope.

Definition wf_bytes (l : bytes) : Prop := Forall (fun b => b < 256) l.

Lemma u_dec_upper : forall c, 65 <= c <= 90 -> u_dec_char c = Some (c - 65).
Proof. intros c H. unfold u_dec_char. replace ((65 <=? c) && (c <=? 90)) with true by lia. reflexivity. Qed.

Lemma u_dec_lower : forall c, 97 <= c <= 122 -> u_dec_char c = Some (c - 71).
Proof.
  intros c H. unfold u_dec_char. replace ((65 <=? c) && (c <=? 90)) with false by lia.
  replace ((97 <=? c) && (c <=? 122)) with true by lia. reflexivity.
Qed.

Lemma u_dec_digit : forall c, 48 <= c <= 57 -> u_dec_char c = Some (c + 4).
Proof.
  intros c H. unfold u_dec_char. replace ((65 <=? c) && (c <=? 90)) with false by lia.
  replace ((97 <=? c) && (c <=? 122)) with false by lia. replace ((48 <=? c) && (c <=? 57)) with true by lia. reflexivity.
Qed.

Lemma u_dec_enc_char : forall v, v < 64 -> u_dec_char (u_enc_char v) = Some v.
Proof.
  intros v Hv. unfold u_enc_char.
  destruct (N.ltb_spec v 26); [rewrite u_dec_upper by lia; f_equal; lia|].
  destruct (N.ltb_spec v 52); [rewrite u_dec_lower by lia; f_equal; lia|].
  destruct (N.ltb_spec v 62); [rewrite u_dec_digit by lia; f_equal; lia|].
  destruct (N.eqb_spec v 62) as [->|]; [reflexivity|]. replace v with 63 by lia. reflexivity.
Qed.

Lemma u_enc_char_in_alphabet : forall v, u_dec_char (u_enc_char v) <> None.
Proof.
  intros v. destruct (N.lt_ge_cases v 63) as [H|H]; [rewrite u_dec_enc_char by lia; discriminate|].
  unfold u_enc_char. replace (v <? 26) with false by lia. replace (v <? 52) with false by lia.
  replace (v <? 62) with false by lia. replace (v =? 62) with false by lia. discriminate.
Qed.

Definition in_alphabet (c : N) : Prop := u_dec_char c <> None.

Lemma slash_not_in_alphabet : ~ in_alphabet 47.
Proof. unfold in_alphabet. vm_compute. congruence. Qed.
Lemma nl_not_in_alphabet : forall c, is_nl c = true -> ~ in_alphabet c.
Proof.
  intros c H. unfold is_nl in H. apply orb_true_iff in H. destruct H as [H|H]; apply N.eqb_eq in H; subst;
    unfold in_alphabet; vm_compute; congruence.
Qed.

Lemma u_encode_alphabet : forall d, Forall in_alphabet (u_encode d).
Proof.
  intros d. induction d using list_ind3; cbn [u_encode];
    repeat (apply Forall_cons; [apply u_enc_char_in_alphabet|]); auto.
Qed.

Lemma u_encode_no_slash : forall d, ~ In 47 (u_encode d).
Proof.
  intros d H. pose proof (u_encode_alphabet d) as F. rewrite Forall_forall in F.
  apply (slash_not_in_alphabet (F _ H)).
Qed.

Lemma strip_nl_alphabet : forall s, Forall in_alphabet s -> strip_nl s = s.
Proof.
  induction s as [|c s IH]; intros F; [reflexivity|]. inversion F; subst.
  unfold strip_nl in *. cbn [filter]. destruct (is_nl c) eqn:E.
  - exfalso. eapply nl_not_in_alphabet; eauto.
  - cbn. f_equal. auto.
Qed.

(* the 6-bit values the encoder emits *)
Fixpoint u_sextets (l : bytes) : list N :=
  match l with
  | a :: b :: c :: r =>
      let n := a * 65536 + b * 256 + c in
      n / 262144 :: (n / 4096) mod 64 :: (n / 64) mod 64 :: n mod 64 :: u_sextets r
  | [a; b] => let n := a * 65536 + b * 256 in [n / 262144; (n / 4096) mod 64; (n / 64) mod 64]
  | [a] => let n := a * 65536 in [n / 262144; (n / 4096) mod 64]
  | [] => []
  end.

Lemma u_encode_sextets : forall d, u_encode d = map u_enc_char (u_sextets d).
Proof.
  intros d. induction d using list_ind3; cbn [u_encode u_sextets map]; try reflexivity.
  rewrite IHd. reflexivity.
Qed.

Lemma wf_bytes_cons : forall a l, wf_bytes (a :: l) <-> a < 256 /\ wf_bytes l.
Proof. intros a l. split; [intros H; inversion H; auto|intros [H1 H2]; constructor; assumption]. Qed.

Lemma u_sextets_small : forall d, wf_bytes d -> Forall (fun v => v < 64) (u_sextets d).
Proof.
  assert (M : forall n, n mod 64 < 64) by (intros; apply N.mod_lt; discriminate).
  assert (D : forall n, n < 16777216 -> n / 262144 < 64) by (intros; apply N.div_lt_upper_bound; lia).
  intros d. induction d using list_ind3; rewrite ?wf_bytes_cons; intros W; cbn [u_sextets].
  - constructor.
  - repeat constructor; [apply D; lia|apply M].
  - repeat constructor; [apply D; lia|apply M..].
  - repeat (constructor; [first [apply M|apply D; lia]|]). tauto.
Qed.

Lemma u_vals_map_enc : forall vs, Forall (fun v => v < 64) vs -> u_vals (map u_enc_char vs) = Some vs.
Proof.
  induction vs as [|v vs IH]; intros F; [reflexivity|]. inversion F; subst.
  cbn [map u_vals]. rewrite u_dec_enc_char by assumption. rewrite IH by assumption. reflexivity.
Qed.

(* the four base-64 digits of n, put back together: one division with remainder per digit *)
Lemma sextets_sum : forall n,
  n / 262144 * 262144 + (n / 4096) mod 64 * 4096 + (n / 64) mod 64 * 64 + n mod 64 = n.
Proof.
  intros n. change 262144 with (64 * 64 * 64). change 4096 with (64 * 64). rewrite <- !N.div_div by discriminate.
  pose proof (N.div_mod n 64). pose proof (N.div_mod (n / 64) 64). pose proof (N.div_mod (n / 64 / 64) 64). lia.
Qed.

(* a final quantum of two bytes (one byte) has its last digit (last two digits) zero *)
Lemma sextets_sum3 : forall n k, n = k * 64 ->
  n / 262144 * 262144 + (n / 4096) mod 64 * 4096 + (n / 64) mod 64 * 64 = n.
Proof. intros n k ->. pose proof (sextets_sum (k * 64)) as S. rewrite N.mod_mul in S by discriminate. lia. Qed.

Lemma sextets_sum2 : forall n k, n = k * 4096 -> n / 262144 * 262144 + (n / 4096) mod 64 * 4096 = n.
Proof.
  intros n k ->. pose proof (sextets_sum3 (k * 4096) (k * 64)) as S.
  replace (k * 4096 / 64) with (k * 64) in S by (apply N.div_unique with 0; lia).
  rewrite N.mod_mul in S by discriminate. lia.
Qed.

Lemma bytes_of_sum : forall n a b c, n = a * 65536 + b * 256 + c -> b < 256 -> c < 256 ->
  n / 65536 = a /\ (n / 256) mod 256 = b /\ n mod 256 = c.
Proof.
  intros n a b c -> Hb Hc. split; [|split]; symmetry.
  - apply N.div_unique with (b * 256 + c); lia.
  - rewrite <- (N.div_unique _ 256 (a * 256 + b) c) by lia. apply N.mod_unique with a; lia.
  - apply N.mod_unique with (a * 256 + b); lia.
Qed.

Lemma u_quanta_sextets : forall d, wf_bytes d -> u_quanta (u_sextets d) = Some d.
Proof.
  intros d. induction d using list_ind3; rewrite ?wf_bytes_cons; intros W; cbn [u_sextets u_quanta].
  - reflexivity.
  - rewrite (sextets_sum2 _ (a * 16)) by lia.
    destruct (bytes_of_sum (a * 65536) a 0 0) as [-> _]; [lia..|reflexivity].
  - rewrite (sextets_sum3 _ (a * 1024 + b * 4)) by lia.
    destruct (bytes_of_sum (a * 65536 + b * 256) a b 0) as (-> & -> & _); [lia..|reflexivity].
  - rewrite sextets_sum, IHd by tauto.
    destruct (bytes_of_sum (a * 65536 + b * 256 + c) a b c) as (-> & -> & ->); [lia..|reflexivity].
Qed.

Lemma u_decode_encode : forall d, wf_bytes d -> u_decode (u_encode d) = Some d.
Proof.
  intros d W. unfold u_decode. rewrite strip_nl_alphabet by apply u_encode_alphabet.
  rewrite u_encode_sextets. rewrite u_vals_map_enc by (apply u_sextets_small; assumption).
  apply u_quanta_sextets; assumption.
Qed.

Lemma u_vals_none : forall l, u_vals l = None <-> Exists (fun c => u_dec_char c = None) l.
Proof.
  induction l as [|c l IH]; cbn [u_vals].
  - rewrite Exists_nil. split; [discriminate|tauto].
  - rewrite Exists_cons, <- IH. destruct (u_dec_char c), (u_vals l); intuition congruence.
Qed.

Lemma u_vals_length : forall l vs, u_vals l = Some vs -> length vs = length l.
Proof.
  induction l as [|c l IH]; cbn [u_vals]; intros vs H.
  - inversion H. reflexivity.
  - destruct (u_dec_char c); [|discriminate]. destruct (u_vals l) eqn:E; [|discriminate].
    inversion H; subst. cbn [length]. f_equal. apply IH. reflexivity.
Qed.

Lemma u_quanta_none : forall vs, u_quanta vs = None <-> (length vs mod 4 = 1)%nat.
Proof.
  intros vs. induction vs using list_ind4; cbn [u_quanta length]; try (split; [discriminate|cbn; discriminate]).
  - split; reflexivity.
  - replace (S (S (S (S (length vs))))) with (length vs + 1 * 4)%nat by lia. rewrite Nat.mod_add, <- IHvs by discriminate.
    destruct (u_quanta vs); split; congruence.
Qed.

(* the decoder refuses exactly: a character outside the alphabet (other than CR/LF, which
   are skipped), or a number of alphabet characters that is 1 modulo 4 *)
Lemma u_decode_none : forall s,
  u_decode s = None <->
  (exists c, In c s /\ is_nl c = false /\ ~ in_alphabet c) \/ (length (strip_nl s) mod 4 = 1)%nat.
Proof.
  intros s.
  assert (A : u_vals (strip_nl s) = None <-> exists c, In c s /\ is_nl c = false /\ ~ in_alphabet c).
  { rewrite u_vals_none, Exists_exists. unfold strip_nl, in_alphabet. split; intros (c & H1 & H2); exists c.
    - apply filter_In in H1. rewrite negb_true_iff in H1. intuition congruence.
    - rewrite filter_In, negb_true_iff. destruct (u_dec_char c); [exfalso; apply H2; discriminate|tauto]. }
  unfold u_decode. rewrite <- A. destruct (u_vals (strip_nl s)) eqn:E.
  - rewrite u_quanta_none, (u_vals_length _ _ E). split; [auto|intros [H|H]; [discriminate|exact H]].
  - split; auto.
Qed.

Lemma after_last_none : forall sep l, after_last sep l = None <-> ~ In sep l.
Proof.
  intros sep. induction l as [|c l IH]; cbn [after_last In]; [tauto|].
  destruct (after_last sep l).
  - split; [discriminate|]. intros H. apply IH. tauto.
  - destruct (N.eqb_spec c sep); split; try discriminate; tauto.
Qed.

Lemma after_last_app : forall sep pre t, ~ In sep t -> after_last sep (pre ++ sep :: t) = Some t.
Proof.
  intros sep pre t H. induction pre as [|c pre IH]; cbn [app after_last].
  - rewrite (proj2 (after_last_none sep t) H), N.eqb_refl. reflexivity.
  - rewrite IH. reflexivity.
Qed.

Lemma after_last_some : forall sep l t,
  after_last sep l = Some t <-> exists pre, l = pre ++ sep :: t /\ ~ In sep t.
Proof.
  intros sep l t. split; [|intros (pre & -> & H); apply after_last_app; exact H].
  induction l as [|c l IH]; cbn [after_last]; [discriminate|].
  destruct (after_last sep l) eqn:E.
  - intros H. destruct (IH H) as (pre & -> & Hn). exists (c :: pre). auto.
  - destruct (N.eqb_spec c sep) as [->|]; [|discriminate]. intros [= ->].
    exists []. split; [reflexivity|]. apply after_last_none. exact E.
Qed.

(* DecodePath on each of the four shapes a path can have *)
Lemma decode_path_unknown : forall v rest, v <> ZERO_CH -> decode_path (v :: rest) = PErr UnknownFormat.
Proof. intros v rest H. cbn [decode_path]. apply N.eqb_neq in H. rewrite H. reflexivity. Qed.

Lemma decode_path_nodata : forall rest, ~ In SLASH rest -> decode_path (ZERO_CH :: rest) = PErr MissingData.
Proof. intros rest H. cbn [decode_path]. rewrite N.eqb_refl, (proj2 (after_last_none _ _) H). reflexivity. Qed.

(* whatever precedes the final slash is ignored: any padding, with any number of slashes *)
Lemma decode_path_data : forall pre t, ~ In SLASH t ->
  decode_path (ZERO_CH :: pre ++ SLASH :: t) = match u_decode t with Some d => POk d | None => PErr BadBase64 end.
Proof. intros pre t H. cbn [decode_path]. rewrite N.eqb_refl, after_last_app by exact H. reflexivity. Qed.

(* ... and the shape of the path read off the outcome *)
Lemma decode_path_inv : forall p,
  match decode_path p with
  | PErr MissingFormat => p = []
  | PErr UnknownFormat => exists v rest, p = v :: rest /\ v <> ZERO_CH
  | PErr MissingData => exists rest, p = ZERO_CH :: rest /\ ~ In SLASH rest
  | PErr BadBase64 => exists pre t, p = ZERO_CH :: pre ++ SLASH :: t /\ ~ In SLASH t /\ u_decode t = None
  | POk d => exists pre t, p = ZERO_CH :: pre ++ SLASH :: t /\ ~ In SLASH t /\ u_decode t = Some d
  end.
Proof.
  intros [|v rest]; [reflexivity|]. cbn [decode_path].
  destruct (N.eqb_spec v ZERO_CH) as [->|Hv]; [|eauto].
  destruct (after_last SLASH rest) as [t|] eqn:E.
  - apply after_last_some in E. destruct E as (pre & -> & Hn). destruct (u_decode t) eqn:Ed; eauto.
  - apply after_last_none in E. eauto.
Qed.

Lemma path_roundtrip : forall pad data, wf_bytes data ->
  decode_path (encode_path_with_pad pad data) = POk data.
Proof.
  intros pad data W. unfold encode_path_with_pad.
  rewrite decode_path_data, u_decode_encode by (assumption || apply u_encode_no_slash). reflexivity.
Qed.

Lemma path_roundtrip_encoder : forall cb data, wf_bytes data ->
  decode_path (encode_path cb data) = POk data.
Proof. intros. apply path_roundtrip. assumption. Qed.

(* the mutation LastIndexByte -> IndexByte is observable: padding with a slash *)
Lemma first_slash_differs : exists pad data,
  after_first SLASH (pad ++ SLASH :: u_encode data) <> after_last SLASH (pad ++ SLASH :: u_encode data).
Proof. exists [SLASH], [65]. vm_compute. discriminate. Qed.
