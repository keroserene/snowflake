(* StalenessProofs.v — the staleness watchdog of a client-side peer (Model/Staleness.v): a peer whose proxy
   falls silent is closed, a peer that keeps hearing from its proxy is not, and a watchdog armed only by the
   first message would never close a peer whose proxy is silent from the start. *)
From Coq Require Import List NArith Bool Lia.
From Snow Require Import Model.Staleness.
Import ListNotations.
Open Scope N_scope.

Lemma w_step_closed timeout s e : w_closed s = true -> w_step timeout s e = s.
Proof. intros H. unfold w_step. rewrite H. reflexivity. Qed.
Lemma w_step_tick timeout s t : w_closed s = false -> w_step timeout s (WTick t) = w_tick timeout s t.
Proof. intros H. unfold w_step. rewrite H. reflexivity. Qed.

Lemma w_closed_stays step_timeout : forall evs s, w_closed s = true ->
  w_closed (fold_left (w_step step_timeout) evs s) = true.
Proof.
  induction evs as [|e evs IH]; intros s H; cbn [fold_left]; [exact H|].
  apply IH. rewrite w_step_closed; exact H.
Qed.

(* invariant while the proxy may still be talking: armed, and the last receipt is not later than T *)
Lemma armed_until : forall timeout T pre s,
  recv_by T pre = true -> w_armed s = true -> w_last s <= T ->
  let s' := fold_left (w_step timeout) pre s in
  w_closed s' = true \/ (w_armed s' = true /\ w_last s' <= T).
Proof.
  induction pre as [|e pre IH]; intros s Hr Ha Hl; cbn [fold_left].
  - right. split; assumption.
  - destruct (w_closed s) eqn:Ec.
    { left. apply w_closed_stays. rewrite w_step_closed; exact Ec. }
    destruct e as [t|t|t]; cbn [recv_by] in Hr; [discriminate| |].
    + apply andb_prop in Hr. destruct Hr as [Ht Hr]. apply N.leb_le in Ht.
      apply IH; [exact Hr| |]; unfold w_step; rewrite Ec; cbn [w_armed w_last]; assumption.
    + rewrite w_step_tick by exact Ec. unfold w_tick.
      destruct (w_armed s && (timeout <? t - w_last s)).
      * left. apply w_closed_stays. reflexivity.
      * apply IH; assumption.
Qed.

(* A peer whose proxy goes silent is closed: the data channel opens at t0; whatever arrives afterwards arrives by T
   (t0 <= T; possibly NOTHING arrives at all); then any turn of the watchdog later than T + timeout closes the peer,
   and it stays closed. *)
Theorem silent_peer_closed : forall timeout t0 T pre t post,
  t0 <= T -> recv_by T pre = true -> T + timeout < t ->
  w_closed (w_run (w_step timeout) (WOpen t0 :: pre ++ [WTick t] ++ post)) = true.
Proof.
  intros timeout t0 T pre t post H0 Hr Ht. unfold w_run. cbn [fold_left].
  rewrite fold_left_app. cbn [app fold_left].
  set (s0 := w_step timeout w_init (WOpen t0)).
  pose proof (armed_until timeout T pre s0 Hr eq_refl H0) as Hpre. cbv zeta in Hpre.
  set (s1 := fold_left (w_step timeout) pre s0) in *.
  apply w_closed_stays.
  destruct (w_closed s1) eqn:Ec; [rewrite w_step_closed; exact Ec|].
  destruct Hpre as [Hc|[Ha' Hl']]; [discriminate|].
  rewrite w_step_tick by exact Ec. unfold w_tick. rewrite Ha'. cbn [andb].
  destruct (N.ltb_spec timeout (t - w_last s1)) as [_|Hge]; [reflexivity|lia].
Qed.

(* ... and only such a peer: while every turn of the watchdog finds the last message (or the opening) at most
   [timeout] old, the peer is not closed *)
Lemma fresh_not_closed : forall timeout evs s, w_closed s = false ->
  fresh timeout (w_last s) evs = true -> w_closed (fold_left (w_step timeout) evs s) = false.
Proof.
  induction evs as [|e evs IH]; intros s Hc Hf; cbn [fold_left]; [exact Hc|].
  destruct e as [t|t|t]; cbn [fresh] in Hf.
  - apply IH; unfold w_step; rewrite Hc; cbn [w_closed w_last]; [reflexivity | exact Hf].
  - apply IH; unfold w_step; rewrite Hc; cbn [w_closed w_last]; [reflexivity | exact Hf].
  - apply andb_prop in Hf. destruct Hf as [Ht Hf]. apply N.leb_le in Ht.
    assert (E : w_step timeout s (WTick t) = s).
    { unfold w_step. rewrite Hc. unfold w_tick.
      destruct (N.ltb_spec timeout (t - w_last s)) as [Hlt|_]; [lia|]. rewrite andb_false_r. reflexivity. }
    rewrite E. apply IH; assumption.
Qed.

(* the watchdog started by the first message: a proxy that is silent from the start is never declared stale *)
Lemma lazy_never_armed : forall timeout evs s,
  w_armed s = false -> w_closed s = false ->
  forallb (fun e => match e with WRecv _ => false | _ => true end) evs = true ->
  w_closed (fold_left (w_step_lazy timeout) evs s) = false.
Proof.
  induction evs as [|e evs IH]; intros s Ha Hc Hn; cbn [fold_left]; [exact Hc|].
  cbn [forallb] in Hn. apply andb_prop in Hn. destruct Hn as [He Hn].
  assert (E : w_step_lazy timeout s e = s).
  { unfold w_step_lazy. rewrite Hc. destruct e as [t|t|t]; [reflexivity|discriminate|].
    unfold w_tick. rewrite Ha. reflexivity. }
  rewrite E. apply IH; assumption.
Qed.

