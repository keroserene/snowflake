(* BrokerHttpProofs.v — the broker's HTTP handlers (Model/BrokerHttp.v): the repaired code answers every request
   (no panic), a legacy client request is its versioned twin under the total map [legacy_map], and the handlers
   at the granularity of the Go statements that can fail compute the same responses and touch the broker state
   through IPC only. *)
From Coq Require Import List NArith Bool String Arith Lia.
From Snow Require Import Lib.Wire Lib.WireFacts Model.BrokerHttp.
Import ListNotations.
Open Scope N_scope.

Section HandlerProofs.
  Variable enc_req : bytes -> bytes -> bytes.
  Variable dec_resp : bytes -> option cpresp.
  Variable enc_err : bytes -> bytes.
  Variable amp_dec : bytes -> option bytes.
  Variable amp_arm : bytes -> bytes.
  Variable ipc_client ipc_proxy ipc_answer : bytes -> ipcres.

  (* the versioned encoding starts with the version line, never with '{' *)
  Hypothesis enc_not_legacy : forall o n, is_legacy (enc_req o n) = false.

  (* the statuses of the legacy shim; only the pinned code has the panic *)
  Lemma legacy_map_status : forall v response,
    match legacy_map dec_resp v response with
    | HResp st _ => st = 200 \/ st = 400 \/ st = 500 \/ st = 503 \/ st = 504
    | HPanic => v = H0
    end.
  Proof.
    intros v response. unfold legacy_map. destruct (dec_resp response) as [r|]; [|auto].
    destruct (r_error r) as [|b e]; [auto|].
    destruct (beq (b :: e) STR_NO_PROXIES); [auto|].
    destruct (beq (b :: e) STR_TIMED_OUT); [auto 6|]. destruct v; auto.
  Qed.

  Lemma legacy_map_total_v1 : forall response, legacy_map dec_resp H1 response <> HPanic.
  Proof. intros response E. pose proof (legacy_map_status H1 response) as S. rewrite E in S. discriminate. Qed.

  Theorem handlers_total_v1 :
    (forall rd h, client_offers enc_req dec_resp ipc_client H1 rd h <> HPanic) /\
    (forall rd, proxy_polls ipc_proxy rd <> HPanic) /\
    (forall rd, proxy_answers ipc_answer rd <> HPanic) /\
    (forall ok path, amp_client_offers enc_err amp_dec amp_arm ipc_client ok path <> HPanic).
  Proof.
    repeat split.
    - intros [body|] h; cbn; [|discriminate].
      destruct (is_legacy body); destruct (ipc_client _); try discriminate. apply legacy_map_total_v1.
    - intros [body|]; cbn; [|discriminate]. destruct (ipc_proxy body); discriminate.
    - intros [body|]; cbn; [|discriminate]. destruct (ipc_answer body); discriminate.
    - intros ok path. unfold amp_client_offers. destruct ok; cbn; [|discriminate].
      destruct (amp_dec path) as [body|]; [|discriminate]. destruct (ipc_client body); discriminate.
  Qed.

  (* a legacy request is treated exactly like its versioned equivalent: same IPC call, and the response is
     the total image [legacy_map] of the versioned response *)
  Theorem legacy_equiv : forall v offer nat_header,
    is_legacy offer = true ->
    N.of_nat (List.length (enc_req offer nat_header)) <= READ_LIMIT_N ->
    client_offers enc_req dec_resp ipc_client v (ReadOk offer) nat_header =
    match client_offers enc_req dec_resp ipc_client v (versioned_twin enc_req offer nat_header) nat_header with
    | HResp 200 response => legacy_map dec_resp v response
    | other => other
    end.
  Proof.
    intros v offer h Hl Hfit. unfold versioned_twin, read_body.
    replace (READ_LIMIT_N <? _) with false by (symmetry; apply N.ltb_ge; exact Hfit).
    cbn [client_offers]. rewrite Hl, enc_not_legacy.
    destruct (ipc_client (enc_req offer h)); reflexivity.
  Qed.

  (* ... and only within it: the shim does not put the encoded body through the read limit. A legacy body that was read
     (so: within the limit) whose versioned encoding is beyond the limit is answered per IPC, while that encoding
     POSTed directly is a 400. (No use of enc_not_legacy.) *)
  Theorem legacy_diverges_over_limit : forall v offer nat_header,
    is_legacy offer = true ->
    READ_LIMIT_N < N.of_nat (List.length (enc_req offer nat_header)) ->
    client_offers enc_req dec_resp ipc_client v (ReadOk offer) nat_header =
      match ipc_client (enc_req offer nat_header) with
      | IpcOk response => legacy_map dec_resp v response
      | _ => HResp 500 []
      end /\
    client_offers enc_req dec_resp ipc_client v (versioned_twin enc_req offer nat_header) nat_header = HResp 400 [].
  Proof.
    intros v offer h Hl Hbig. split.
    - cbn [client_offers]. rewrite Hl. reflexivity.
    - unfold versioned_twin, read_body. apply N.ltb_lt in Hbig. rewrite Hbig. reflexivity.
  Qed.

  Theorem legacy_map_cases : forall response,
    match dec_resp response with
    | None => legacy_map dec_resp H1 response = HResp 500 []
    | Some r =>
        (r_error r = [] -> legacy_map dec_resp H1 response = HResp 200 (r_answer r)) /\
        (r_error r = STR_NO_PROXIES -> legacy_map dec_resp H1 response = HResp 503 []) /\
        (r_error r = STR_TIMED_OUT -> legacy_map dec_resp H1 response = HResp 504 []) /\
        (r_error r <> [] -> r_error r <> STR_NO_PROXIES -> r_error r <> STR_TIMED_OUT ->
           legacy_map dec_resp H1 response = HResp 400 [])
    end.
  Proof.
    intros response. unfold legacy_map. destruct (dec_resp response) as [r|]; [|reflexivity].
    repeat split.
    - intros ->. reflexivity.
    - intros ->. reflexivity.
    - intros ->. reflexivity.
    - intros Ne Nn Nt. destruct (r_error r) as [|b e] eqn:E; [congruence|].
      destruct (beq (b :: e) STR_NO_PROXIES) eqn:B1; [apply beq_eq in B1; contradiction|].
      destruct (beq (b :: e) STR_TIMED_OUT) eqn:B2; [apply beq_eq in B2; contradiction | reflexivity].
  Qed.

  Theorem v0_legacy_panics : forall offer h r,
    is_legacy offer = true -> ipc_client (enc_req offer h) = IpcOk r ->
    dec_resp r = Some {| r_answer := []; r_error := bs "invalid NAT type" |} ->
    client_offers enc_req dec_resp ipc_client H0 (ReadOk offer) h = HPanic.
  Proof.
    intros offer h r Hl Hi Hd. cbn [client_offers]. rewrite Hl, Hi. unfold legacy_map. rewrite Hd. reflexivity.
  Qed.

  Theorem status_set : forall v rd h,
    match client_offers enc_req dec_resp ipc_client v rd h with
    | HResp st _ => st = 200 \/ st = 400 \/ st = 500 \/ st = 503 \/ st = 504
    | HPanic => v = H0
    end.
  Proof.
    intros v [body|] h; cbn; [|auto].
    destruct (is_legacy body); destruct (ipc_client _); auto. apply legacy_map_status.
  Qed.
End HandlerProofs.

Lemma has_prefix_split : forall pre s, has_prefix pre s = true -> s = pre ++ skipn (List.length pre) s.
Proof.
  induction pre as [|a pre IH]; intros [|b s] H; cbn in *; try reflexivity; try discriminate.
  apply andb_prop in H. destruct H as [E H]. apply N.eqb_eq in E. subst. f_equal. apply IH. exact H.
Qed.

Lemma has_prefix_app : forall pre t, has_prefix pre (pre ++ t) = true.
Proof. induction pre as [|a pre IH]; intros t; cbn; [reflexivity|]. rewrite N.eqb_refl, IH. reflexivity. Qed.

Lemma slice_from_guarded : forall pre s, has_prefix pre s = true -> slice_from s (List.length pre) = Ret (skipn (List.length pre) s).
Proof.
  intros pre s H. unfold slice_from. replace (List.length pre <=? List.length s)%nat with true; [reflexivity|].
  symmetry. apply Nat.leb_le. pose proof (f_equal (@List.length N) (has_prefix_split pre s H)) as L. rewrite app_length in L. lia.
Qed.

Lemma beq_length_neq : forall a b, List.length a <> List.length b -> beq a b = false.
Proof. intros a b H. apply beq_neq. congruence. Qed.

Lemma write_header_ok : forall code w, 100 <= code -> code <= 999 -> exists w', write_header code w = Ret w' /\ w_cors w' = w_cors w.
Proof.
  intros code w Hlo Hhi. unfold write_header.
  replace (code <? 100) with false by (symmetry; apply N.ltb_ge; lia).
  replace (999 <? code) with false by (symmetry; apply N.ltb_ge; lia). cbn.
  destruct (w_code w); eexists; split; reflexivity.
Qed.

Lemma write_header_total : forall code w, 100 <= code -> code <= 999 -> write_header code w <> Panicked.
Proof. intros code w Hlo Hhi E. destruct (write_header_ok code w Hlo Hhi) as [w' [E' _]]. congruence. Qed.

Lemma first_byte_legacy : forall body, exists b0,
  (if (0 <? List.length body)%nat then index_at body 0 else Ret 0) = Ret b0 /\
  ((0 <? List.length body)%nat && (b0 =? 123)) = is_legacy body.
Proof. intros [|b body]; cbn; eauto. Qed.

Section ServeProofs.
  Variable St : Type.
  Variable view : St -> bview.
  Variable enc_req : bytes -> bytes -> bytes.
  Variable dec_resp : bytes -> option cpresp.
  Variable enc_err : bytes -> bytes.
  Variable amp_dec : bytes -> option bytes.
  Variable amp_arm : bytes -> bytes.
  Variable ipc_client ipc_proxy ipc_answer : St -> bytes -> ipcres * St.

  Notation handle_ := (handle St view enc_req dec_resp enc_err amp_dec amp_arm ipc_client ipc_proxy ipc_answer).
  Notation serve_ := (serve_req St view enc_req dec_resp enc_err amp_dec amp_arm ipc_client ipc_proxy ipc_answer).
  Notation run_ := (run_reqs St view enc_req dec_resp enc_err amp_dec amp_arm ipc_client ipc_proxy ipc_answer).
  Notation reaches_ := (reaches_ipc amp_dec).

  Definition hresp_of (o : outc rw) : hresp :=
    match o with Ret w => HResp (match w_code w with Some c => c | None => 200 end) (w_body w) | Panicked => HPanic end.

  (* the client handler written statement by statement computes [client_offers] *)
  Theorem client_offers_refines : forall v s q,
    hresp_of (fst (client_offers_w St enc_req dec_resp ipc_client v s q (set_cors rw_new))) =
    client_offers enc_req dec_resp (fun b => fst (ipc_client s b)) v (read_body (q_sent q)) (header_get (q_hdrs q) NAT_HEADER).
  Proof.
    intros v s q. unfold client_offers_w, client_offers. destruct (read_body (q_sent q)) as [body|]; [|reflexivity].
    destruct body as [|b0 body].
    - cbn. destruct (ipc_client s []) as [[response| | |] s']; reflexivity.
    - cbn [List.length Nat.ltb Nat.leb index_at nth_error is_legacy andb].
      destruct (b0 =? 123); destruct (ipc_client s _) as [[response| | |] s']; cbn; try reflexivity.
      unfold legacy_w, legacy_map. destruct (dec_resp response) as [r|]; [|reflexivity].
      destruct (r_error r) as [|c e]; [reflexivity|].
      destruct (beq (c :: e) STR_NO_PROXIES); [reflexivity|]. destruct (beq (c :: e) STR_TIMED_OUT); [reflexivity|].
      destruct v; reflexivity.
  Qed.

  Theorem post_refines : forall ipc s q,
    hresp_of (fst (post_w St ipc s q (set_cors rw_new))) =
    ipc_status (match read_body (q_sent q) with ReadOk b => fst (ipc s b) | ReadTooLarge => IpcBadRequest end).
  Proof.
    intros ipc s q. unfold post_w. destruct (read_body (q_sent q)) as [body|]; [|reflexivity].
    destruct (ipc s body) as [[response| | |] s']; reflexivity.
  Qed.

  Lemma hresp_of_ok : forall o, hresp_of o <> HPanic -> o <> Panicked.
  Proof. intros o H ->. apply H. reflexivity. Qed.

  Lemma amp_w_total : forall s q w, fst (amp_w St enc_err amp_dec amp_arm ipc_client s q w) <> Panicked.
  Proof.
    intros s q w. assert (W : forall b, match write_header 200 w with Ret w' => Ret (write b w') | Panicked => Panicked end <> Panicked).
    { intros b. destruct (write_header_ok 200 w) as [w' [-> _]]; [lia | lia | discriminate]. }
    unfold amp_w, wstatus. destruct (has_prefix AMP_ROUTE_B (q_path q)) eqn:P.
    - rewrite (slice_from_guarded _ _ P). destruct (beq _ (q_path q)); [apply write_header_total; lia|].
      destruct (amp_dec _) as [body|]; [|apply W].
      destruct (ipc_client s body) as [[response| | |] s']; cbn [fst]; first [apply W | apply write_header_total; lia].
    - rewrite beq_refl. apply write_header_total; lia.
  Qed.

  Lemma not_found_w_total : forall w, not_found_w w <> Panicked.
  Proof. intros w. unfold not_found_w. destruct (write_header_ok 404 w) as [w' [-> _]]; [lia | lia | discriminate]. Qed.

  (* no request reaches a panic in the repaired code: the client route and the two POST routes compute the total
     functions [client_offers] and [ipc_status]; elsewhere every slice is guarded by HasPrefix and every status code
     is within 100..999 *)
  Theorem serve_never_panics_v1 : forall r s q,
    fst (handle_ H1 r s q) <> Panicked /\ fst (serve_ H1 s q) <> Panicked.
  Proof.
    assert (Hh : forall r s q, fst (handle_ H1 r s q) <> Panicked).
    { intros r s q.
      assert (Post : forall ipc, fst (post_w St ipc s q (set_cors rw_new)) <> Panicked).
      { intros ipc. apply hresp_of_ok. rewrite post_refines. destruct (read_body (q_sent q)) as [b|]; [destruct (fst (ipc s b))|]; discriminate. }
      destruct r; cbn [handle]; unfold cors_wrap; try destruct (beq (q_method q) OPTIONS); cbn [fst]; try discriminate;
        try apply Post; try apply not_found_w_total.
      - apply hresp_of_ok. rewrite client_offers_refines.
        apply (handlers_total_v1 enc_req dec_resp enc_err amp_dec amp_arm (fun b => fst (ipc_client s b)) (fun b => fst (ipc_proxy s b)) (fun b => fst (ipc_answer s b))).
      - unfold metrics_w. destruct (v_metrics (view s)); [discriminate | apply not_found_w_total].
      - apply amp_w_total. }
    intros r s q. split; [apply Hh|]. unfold serve_req. specialize (Hh (route_of (q_path q)) s q).
    destruct (handle_ H1 (route_of (q_path q)) s q) as [o s']. cbn in *. destruct o; [discriminate|congruence].
  Qed.

  (* the pinned code: the legacy shim panics on any other error string *)
  Theorem serve_v0_panics : forall s q offer r s',
    route_of (q_path q) = RClient -> beq (q_method q) OPTIONS = false ->
    read_body (q_sent q) = ReadOk offer -> is_legacy offer = true ->
    ipc_client s (enc_req offer (header_get (q_hdrs q) NAT_HEADER)) = (IpcOk r, s') ->
    dec_resp r = Some {| r_answer := []; r_error := bs "invalid NAT type" |} ->
    fst (serve_ H0 s q) = Panicked.
  Proof.
    intros s q offer r s' Hr Hm Hb Hl Hi Hd. unfold serve_req. rewrite Hr. cbn [handle]. unfold cors_wrap. rewrite Hm.
    unfold client_offers_w. rewrite Hb. destruct offer as [|b0 offer]; [discriminate|]. cbn in Hl. cbn [List.length Nat.ltb Nat.leb index_at nth_error].
    cbn. rewrite Hl. cbn in Hi. rewrite Hi. unfold legacy_w. rewrite Hd. reflexivity.
  Qed.

  (* the mux lets only paths with the prefix through to ampClientOffers, and then the prefix branch is dead *)
  Theorem route_amp_prefix : forall p, route_of p = RAmp -> exists t, p = AMP_ROUTE_B ++ t.
  Proof.
    intros p H. destruct (has_prefix AMP_ROUTE_B p) eqn:P; [eexists; apply has_prefix_split; exact P|].
    exfalso. revert H. unfold route_of. rewrite P. repeat (destruct (beq p _); [discriminate|]). discriminate.
  Qed.

  Theorem amp_via_mux_no_prefix_error : forall s q w t,
    q_path q = AMP_ROUTE_B ++ t ->
    amp_w St enc_err amp_dec amp_arm ipc_client s q w =
    match amp_dec t with
    | Some body => let (r, s') := ipc_client s body in
                   match r with
                   | IpcOk response => (match write_header 200 w with Ret w' => Ret (write (amp_arm response) w') | Panicked => Panicked end, s')
                   | _ => wstatus St 500 w s'
                   end
    | None => (match write_header 200 w with
               | Ret w' => Ret (write (amp_arm (enc_err (bs "cannot decode URL path"))) w')
               | Panicked => Panicked end, s)
    end.
  Proof.
    intros s q w t Hp. unfold amp_w. rewrite Hp, has_prefix_app, (slice_from_guarded _ _ (has_prefix_app _ _)).
    rewrite skipn_app, skipn_all, Nat.sub_diag. cbn [skipn app].
    rewrite beq_length_neq; [reflexivity|]. rewrite app_length. cbn. lia.
  Qed.

  (* a path that does not start with the prefix (reachable only by calling the handler directly) is a 500 *)
  Theorem amp_wrong_prefix : forall s q w, has_prefix AMP_ROUTE_B (q_path q) = false ->
    amp_w St enc_err amp_dec amp_arm ipc_client s q w = wstatus St 500 w s.
  Proof. intros s q w H. unfold amp_w. rewrite H, beq_refl. reflexivity. Qed.

  (* CORS preflight: every wrapped route answers OPTIONS with an empty 200 and does not touch the state *)
  Definition wrapped (r : route) : bool :=
    match r with RProxy | RClient | RAnswer | RDebug | RMetrics | RAmp => true | _ => false end.
  Theorem options_early_return : forall v r s q, wrapped r = true -> q_method q = OPTIONS ->
    handle_ v r s q = (Ret (set_cors rw_new), s) /\
    respond q (Ret (set_cors rw_new)) = Ret {| p_status := 200; p_body := []; p_cors := true |}.
  Proof.
    intros v r s q Hw Hm. split.
    - destruct r; try discriminate; cbn [handle]; unfold cors_wrap; rewrite Hm, beq_refl; reflexivity.
    - unfold respond, finish. cbn. destruct (beq (q_method q) _); reflexivity.
  Qed.

  (* bodies beyond the limit: 400 on the three POST routes, state untouched *)
  Theorem oversize_is_400 : forall v r s q, (r = RProxy \/ r = RClient \/ r = RAnswer) ->
    beq (q_method q) OPTIONS = false -> READ_LIMIT_N < N.of_nat (List.length (q_sent q)) ->
    handle_ v r s q = (Ret {| w_code := Some 400; w_body := []; w_cors := true |}, s).
  Proof.
    intros v r s q Hr Hm Hl. assert (R : read_body (q_sent q) = ReadTooLarge).
    { unfold read_body. apply N.ltb_lt in Hl. rewrite Hl. reflexivity. }
    destruct Hr as [->|[->| ->]]; cbn [handle]; unfold cors_wrap; rewrite Hm; unfold post_w, client_offers_w; rewrite R; reflexivity.
  Qed.

  Theorem within_limit_read : forall q, N.of_nat (List.length (q_sent q)) <= READ_LIMIT_N -> read_body (q_sent q) = ReadOk (q_sent q).
  Proof. intros q H. unfold read_body. replace (READ_LIMIT_N <? _) with false; [reflexivity|]. symmetry. apply N.ltb_ge. exact H. Qed.

  (* handlers change the broker state through IPC only: a request that gets as far as an IPC call leaves exactly the
     state that call leaves, any other request leaves the state alone *)
  Lemma serve_state : forall v s q,
    if reaches_ q then exists ipc body, In ipc [ipc_client; ipc_proxy; ipc_answer] /\ snd (serve_ v s q) = snd (ipc s body)
    else snd (serve_ v s q) = s.
  Proof.
    intros v s q. unfold serve_req, reaches_ipc, within_limit.
    assert (Post : forall ipc w, snd (post_w St ipc s q w) =
              match read_body (q_sent q) with ReadOk b => snd (ipc s b) | ReadTooLarge => s end).
    { intros ipc w. unfold post_w. destruct (read_body (q_sent q)) as [b|]; [destruct (ipc s b)|]; reflexivity. }
    destruct (handle_ v (route_of (q_path q)) s q) as [o s'] eqn:E. apply (f_equal snd) in E. cbn [snd] in E |- *. subst s'.
    destruct (route_of (q_path q)) eqn:R; cbn [handle]; unfold cors_wrap;
      destruct (beq (q_method q) OPTIONS); cbn [negb andb snd]; try reflexivity.
    - rewrite Post. destruct (read_body (q_sent q)) as [b|]; [exists ipc_proxy, b; cbn; auto | reflexivity].
    - unfold client_offers_w. destruct (read_body (q_sent q)) as [body|]; [|reflexivity].
      destruct (first_byte_legacy body) as [b0 [-> _]].
      exists ipc_client, (if (0 <? List.length body)%nat && (b0 =? 123) then enc_req body (header_get (q_hdrs q) NAT_HEADER) else body).
      split; [cbn; auto|]. destruct (ipc_client s _) as [[response| | |] s2]; reflexivity.
    - rewrite Post. destruct (read_body (q_sent q)) as [b|]; [exists ipc_answer, b; cbn; auto | reflexivity].
    - destruct (route_amp_prefix _ R) as [t Ht]. rewrite (amp_via_mux_no_prefix_error s q _ t Ht).
      rewrite Ht, skipn_app, skipn_all, Nat.sub_diag. cbn [skipn app].
      destruct (amp_dec t) as [body|]; [|reflexivity]. exists ipc_client, body. split; [cbn; auto|].
      destruct (ipc_client s body) as [[response| | |] s2]; reflexivity.
  Qed.

  Theorem no_ipc_state_unchanged : forall v s q, reaches_ q = false -> snd (serve_ v s q) = s.
  Proof. intros v s q H. pose proof (serve_state v s q) as X. rewrite H in X. exact X. Qed.

  Theorem ipc_state : forall v s q, reaches_ q = true ->
    exists ipc body, In ipc [ipc_client; ipc_proxy; ipc_answer] /\ snd (serve_ v s q) = snd (ipc s body).
  Proof. intros v s q H. pose proof (serve_state v s q) as X. rewrite H in X. exact X. Qed.

  (* history: taking any set of requests that do not reach IPC (malformed AMP paths, oversize bodies, preflights,
     unknown routes, /debug, /metrics, /prometheus, /robots.txt ...) out of a history changes no other response *)
  Theorem history_drop : forall v (drop : hreq -> bool),
    (forall q, drop q = true -> reaches_ q = false) ->
    forall qs s,
      filter (fun p => negb (drop (fst p))) (run_ v s qs) = run_ v s (filter (fun q => negb (drop q)) qs).
  Proof.
    intros v drop Hd. induction qs as [|q qs IH]; intros s; [reflexivity|].
    cbn [run_reqs filter]. destruct (serve_ v s q) as [o s'] eqn:E. cbn [filter fst].
    destruct (drop q) eqn:D; cbn [negb].
    - assert (s' = s) by (rewrite <- (no_ipc_state_unchanged v s q (Hd q D)), E; reflexivity). subst s'. apply IH.
    - cbn [run_reqs]. rewrite E. f_equal. apply IH.
  Qed.

  Lemma run_app_nonempty : forall v pre q s, run_ v s (pre ++ [q]) <> [].
  Proof. intros v [|p pre] q s; cbn [app run_reqs]; destruct (serve_req _ _ _ _ _ _ _ _ _ _ _ _ _); discriminate. Qed.

  (* that the response to a request is a function of (broker state, request) is how [serve_req] is typed; what
     needs proof is that a prefix of state-preserving requests is invisible *)
  Corollary malformed_prefix_invisible : forall v pre s q,
    Forall (fun p => reaches_ p = false) pre ->
    fst (serve_ v s q) = match last (run_ v s (pre ++ [q])) (q, Panicked) with (_, o) => o end.
  Proof.
    intros v pre. induction pre as [|p pre IH]; intros s q Hf.
    - cbn. destruct (serve_ v s q). reflexivity.
    - inversion Hf as [|? ? Hp Hr]; subst. cbn [app run_reqs]. destruct (serve_ v s p) as [o s'] eqn:E.
      assert (s' = s) by (rewrite <- (no_ipc_state_unchanged v s p Hp), E; reflexivity). subst s'.
      rewrite (IH s q Hr). destruct (run_ v s (pre ++ [q])) eqn:R; [|reflexivity].
      exfalso. exact (run_app_nonempty v pre q s R).
  Qed.

  (* a legacy request and its versioned twin: same IPC call, same state afterwards, response = image under legacy_map *)
  Hypothesis enc_not_legacy : forall o n, is_legacy (enc_req o n) = false.

  Theorem legacy_twin_same_state : forall v s q q' offer,
    route_of (q_path q) = RClient -> route_of (q_path q') = RClient ->
    beq (q_method q) OPTIONS = false -> beq (q_method q') OPTIONS = false ->
    read_body (q_sent q) = ReadOk offer -> is_legacy offer = true ->
    q_sent q' = enc_req offer (header_get (q_hdrs q) NAT_HEADER) ->
    N.of_nat (List.length (enc_req offer (header_get (q_hdrs q) NAT_HEADER))) <= READ_LIMIT_N ->
    snd (serve_ v s q) = snd (serve_ v s q') /\
    hresp_of (fst (handle_ v RClient s q)) =
      match hresp_of (fst (handle_ v RClient s q')) with
      | HResp 200 response => legacy_map dec_resp v response
      | other => other
      end.
  Proof.
    intros v s q q' offer Hr Hr' Hm Hm' Hb Hl Hs Hfit.
    assert (Hb' : read_body (q_sent q') = ReadOk (q_sent q')) by (apply within_limit_read; rewrite Hs; exact Hfit).
    split.
    - unfold serve_req. rewrite Hr, Hr'. cbn [handle]. unfold cors_wrap. rewrite Hm, Hm'. unfold client_offers_w. rewrite Hb, Hb'.
      destruct (first_byte_legacy offer) as [b0 [F0 L0]]. destruct (first_byte_legacy (q_sent q')) as [b1 [F1 L1]].
      rewrite F0, F1, L0, L1, Hl. rewrite Hs at 1. rewrite enc_not_legacy. rewrite Hs.
      destruct (ipc_client s _) as [[response| | |] s']; reflexivity.
    - cbn [handle]. unfold cors_wrap. rewrite Hm, Hm'. rewrite !client_offers_refines. rewrite Hb, Hb', Hs.
      cbn [client_offers]. rewrite Hl, enc_not_legacy. destruct (fst (ipc_client s _)); reflexivity.
  Qed.

  (* the divergence of the shim at the size limit, at the level of whole requests: the legacy request (body within the
     limit) makes the IPC call on the encoded body - whatever its size - leaves the state that call leaves and answers
     with the image of its outcome; the encoded body POSTed directly is beyond the limit: 400, no IPC call, state
     untouched *)
  Theorem legacy_twin_over_limit : forall v s q q' offer,
    route_of (q_path q) = RClient -> route_of (q_path q') = RClient ->
    beq (q_method q) OPTIONS = false -> beq (q_method q') OPTIONS = false ->
    read_body (q_sent q) = ReadOk offer -> is_legacy offer = true ->
    q_sent q' = enc_req offer (header_get (q_hdrs q) NAT_HEADER) ->
    READ_LIMIT_N < N.of_nat (List.length (enc_req offer (header_get (q_hdrs q) NAT_HEADER))) ->
    let call := ipc_client s (enc_req offer (header_get (q_hdrs q) NAT_HEADER)) in
    snd (serve_ v s q) = snd call /\
    hresp_of (fst (handle_ v RClient s q)) =
      match fst call with
      | IpcOk response => legacy_map dec_resp v response
      | _ => HResp 500 []
      end /\
    handle_ v RClient s q' = (Ret {| w_code := Some 400; w_body := []; w_cors := true |}, s) /\
    snd (serve_ v s q') = s.
  Proof.
    intros v s q q' offer Hr Hr' Hm Hm' Hb Hl Hs Hbig call.
    assert (H400 : handle_ v RClient s q' = (Ret {| w_code := Some 400; w_body := []; w_cors := true |}, s)).
    { apply oversize_is_400; [right; left; reflexivity | exact Hm' | rewrite Hs; exact Hbig]. }
    split; [|split; [|split; [exact H400|]]].
    - unfold serve_req. rewrite Hr. cbn [handle]. unfold cors_wrap. rewrite Hm. unfold client_offers_w. rewrite Hb.
      destruct (first_byte_legacy offer) as [b0 [F0 L0]]. rewrite F0, L0, Hl. subst call.
      destruct (ipc_client s _) as [[response| | |] s']; reflexivity.
    - cbn [handle]. unfold cors_wrap. rewrite Hm. rewrite client_offers_refines. rewrite Hb.
      cbn [client_offers]. rewrite Hl. subst call. destruct (fst (ipc_client s _)); reflexivity.
    - unfold serve_req. rewrite Hr', H400. reflexivity.
  Qed.
End ServeProofs.

Lemma canon_aux_idem : forall l u, canon_aux u (canon_aux u l) = canon_aux u l.
Proof.
  induction l as [|c l IH]; intros u; [reflexivity|]. cbn [canon_aux].
  set (c' := if u && is_lower c then c - 32 else if negb u && is_upper c then c + 32 else c).
  assert (E : (if u && is_lower c' then c' - 32 else if negb u && is_upper c' then c' + 32 else c') = c').
  { subst c'. unfold is_lower, is_upper. destruct u; cbn.
    - destruct ((97 <=? c) && (c <=? 122)) eqn:A.
      + apply andb_prop in A. destruct A as [A1 A2]. apply N.leb_le in A1. apply N.leb_le in A2.
        replace (97 <=? c - 32) with false by (symmetry; apply N.leb_gt; lia). reflexivity.
      + rewrite A. reflexivity.
    - destruct ((65 <=? c) && (c <=? 90)) eqn:A.
      + apply andb_prop in A. destruct A as [A1 A2]. apply N.leb_le in A1. apply N.leb_le in A2.
        replace (c + 32 <=? 90) with false by (symmetry; apply N.leb_gt; lia). rewrite andb_false_r. reflexivity.
      + rewrite A. reflexivity. }
  rewrite E. f_equal. apply IH.
Qed.

Theorem header_get_skip : forall k v rest key, canon_key k <> canon_key key -> header_get ((k, v) :: rest) key = header_get rest key.
Proof.
  intros k v rest key H. unfold header_get. cbn. destruct (beq (canon_key k) (canon_key key)) eqn:E; [|reflexivity].
  apply beq_eq in E. contradiction.
Qed.

(* lengths of bodies built by repetition, without building them *)
Lemma flat_map_repeat_length {A B} (f : A -> list B) a n :
  List.length (flat_map f (repeat a n)) = (n * List.length (f a))%nat.
Proof. induction n as [|n IH]; cbn [repeat flat_map Nat.mul]; [reflexivity|]. rewrite app_length, IH. reflexivity. Qed.
