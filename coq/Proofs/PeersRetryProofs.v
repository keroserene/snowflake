(* PeersRetryProofs.v — "a failed attempt to obtain a peer is reported and retried later" over the Peers
   interleaving machine (Model/Peers.v).  A failed attempt = the in-flight Catch returning an error
   (label Catch_err; Collect then returns R_Fail to connectLoop, which logs it and comes round again): the collector
   gets back to idle with the lock free and room in the pool, and a new attempt is enabled whenever the collection
   has not been ended. *)
From Coq Require Import List Arith Bool Lia.
From Snow Require Import Lib.ListFacts Model.Peers Proofs.PeersProofs.
Import ListNotations.

Definition failing (c : col_pc) : bool :=
  match c with C_Unlock R_Fail | C_Done R_Fail => true | _ => false end.

(* while Collect is on its way out with the error, the pool is strictly below its maximum: the slot the
   attempt had reserved is free again *)
Definition inv_failroom (s : state) : Prop := failing (col s) = true -> length (active s) < cap s.

Lemma inv_failroom_step : forall v s l s', inv_bound s -> inv_failroom s -> step v s l = Some s' -> inv_failroom s'.
Proof.
  intros v s l s' Hb Hf H. unfold inv_failroom, inv_bound in *.
  step_cases H; intros Hc; try discriminate; try (apply Hf; assumption).
  - (* Catch_err: the slot reserved for the attempt is free again *) lia.
  - specialize (Hf Hc). lia.
Qed.

Lemma reach_failroom : forall v max s, reachable v max s -> inv_failroom s.
Proof.
  intros v max s R. induction R.
  - unfold inv_failroom. cbn. discriminate.
  - eapply inv_failroom_step; eauto. eapply reach_bound; eauto.
Qed.

Lemma failure_returns_idle : forall v max s, reachable v max s -> panicked s = false -> col s = C_Unlock R_Fail ->
  exists s', run v s [Col_unlock; Col_return] = Some s' /\ s' = set_col (set_lock s None) C_Idle /\
             lock s = Some T_Col.
Proof.
  intros v max s R Hp Hc. assert (Hl : lock s = Some T_Col) by (apply (lock_col _ (reach_lock _ _ _ R)); rewrite Hc; reflexivity).
  eexists. split; [|split; [reflexivity|exact Hl]].
  cbn [run]. unfold step at 1. rewrite Hp, Hc.
  unfold step. cbn. rewrite Hp. reflexivity.
Qed.

Lemma idle_unmelted_lock_free : forall v max s, reachable v max s -> melted s = false -> col s = C_Idle ->
  lock s = None.
Proof.
  intros v max s R Hm Hc.
  pose proof (reach_lock _ _ _ R) as L. pose proof (reach_end _ _ _ R) as (_ & B & _).
  destruct (lock s) as [[|j]|] eqn:El; [| |reflexivity].
  - apply (proj1 L) in El. rewrite Hc in El. discriminate.
  - destruct (lock_end_inv _ _ L El) as (e & He & Hcr).
    assert (melted s = true) by (apply (B j e He); destruct e; try discriminate; reflexivity). congruence.
Qed.

(* From EVERY reachable state in which the collection has not been ended (melt open) and the collector is
   between two calls of Collect: Collect gets the lock at once, and its check starts a rendezvous attempt
   exactly when fewer than Max peers are held - whatever happened before (any number of failed attempts:
   the statement quantifies over all reachable states). *)
Lemma retry_enabled : forall v max s, reachable v max s -> panicked s = false -> melted s = false -> col s = C_Idle ->
  exists s1 s2, step v s Col_lock = Some s1 /\ step v s1 Col_check = Some s2 /\
    (length (filter (live s) (active s)) < max -> col s2 = C_Catching) /\
    (max <= length (filter (live s) (active s)) -> col s2 = C_Unlock R_AtCap).
Proof.
  intros v max s R Hp Hm Hc.
  pose proof (idle_unmelted_lock_free _ _ _ R Hm Hc) as Hl. pose proof (reach_cap _ _ _ R) as Hcap.
  unfold step. rewrite Hp, Hc, Hl. eexists.
  destruct (max <=? length (filter (live s) (active s))) eqn:E; eexists; (split; [reflexivity|]);
    cbn; rewrite Hp, Hm, Hcap; change (live (set_col (set_lock s (Some T_Col)) C_Locked)) with (live s); rewrite E.
  - split; [reflexivity|]. apply Nat.leb_le in E. split; intros; [lia|reflexivity].
  - split; [reflexivity|]. apply Nat.leb_gt in E. split; intros; [reflexivity|lia].
Qed.

(* Right after a failed attempt there is always room: unless the collection is ended meanwhile, the next
   four steps of the collector (unlock, return to connectLoop, Collect again, check) put a new rendezvous
   attempt in flight. *)
Lemma retry_after_failure : forall v max s, reachable v max s -> panicked s = false -> melted s = false ->
  col s = C_Unlock R_Fail ->
  exists s', run v s [Col_unlock; Col_return; Col_lock; Col_check] = Some s' /\ col s' = C_Catching /\
             next_peer s' = next_peer s /\ chan s' = chan s /\ closedf s' = closedf s /\
             active s' = filter (live s) (active s).
Proof.
  intros v max s R Hp Hm Hc.
  pose proof (reach_failroom _ _ _ R) as Hr. unfold inv_failroom in Hr. rewrite Hc in Hr. specialize (Hr eq_refl).
  pose proof (filter_length_le (live s) (active s)) as Hle.
  cbn [run]. unfold step. rewrite Hp, Hc. cbn. rewrite Hp. cbn. rewrite Hp. cbn. rewrite Hp, Hm.
  assert (E : (cap s <=? length (filter (live (set_col (set_lock (set_col (set_col (set_lock s None) (C_Done R_Fail)) C_Idle) (Some T_Col)) C_Locked))
                                        (active s))) = false).
  { apply Nat.leb_gt. change (length (filter (live s) (active s)) < cap s). lia. }
  cbn in E. cbn. rewrite E. eexists. split; [reflexivity|]. cbn. repeat split; reflexivity.
Qed.

Definition collect_fail : list label := [Col_lock; Col_check; Catch_err; Col_unlock; Col_return].

Fixpoint times (k : nat) (tr : list label) : list label :=
  match k with O => [] | S k' => tr ++ times k' tr end.

(* Count()'s purge is the only thing a failed Collect does to the state *)
Definition purged (s : state) : state := set_active s (filter (live s) (active s)).

Definition can_attempt (s : state) : Prop :=
  col s = C_Idle /\ lock s = None /\ melted s = false /\ panicked s = false /\
  length (filter (live s) (active s)) < cap s.

Lemma filter_idem : forall A (f : A -> bool) l, filter f (filter f l) = filter f l.
Proof.
  induction l as [|a l IH]; simpl; [reflexivity|]. destruct (f a) eqn:E; simpl; [rewrite E, IH|]; auto.
Qed.

(* a second purge finds nothing to drop *)
Lemma purged_active : forall s, filter (live (purged s)) (active (purged s)) = filter (live s) (active s).
Proof. intros s. exact (filter_idem _ (live s) (active s)). Qed.

Lemma purged_idem : forall s, purged (purged s) = purged s.
Proof. intros s. unfold purged at 1. rewrite purged_active. reflexivity. Qed.

Lemma can_attempt_purged : forall s, can_attempt s -> can_attempt (purged s).
Proof. intros s (H1 & H2 & H3 & H4 & H5). unfold can_attempt. rewrite purged_active. repeat split; assumption. Qed.

Lemma one_failure : forall v s, can_attempt s -> run v s collect_fail = Some (purged s).
Proof.
  intros v s (H1 & H2 & H3 & H4 & H5).
  destruct s as [cp ch cc ac cf me lk co po en on np pa]. cbn in H1, H2, H3, H4, H5. subst.
  unfold collect_fail, purged, set_active. cbn [run].
  unfold step at 1. cbn.
  apply Nat.leb_gt in H5. unfold live in *. cbn in *. rewrite H5. cbn. reflexivity.
Qed.

(* a reachable state in which the premises of the lemmas hold: Max 2, one peer held, the second attempt failing *)
Definition trace_one_held_then_failing : list label := collect_ok ++ [Col_lock; Col_check; Catch_err].

