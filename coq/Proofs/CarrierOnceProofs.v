(* CarrierOnceProofs.v — exactly-once, in-order delivery of outgoing packets across carriers:
   for every ClientID the packets accepted by WriteTo are, in order, the packets consumed so far
   followed by those still queued; every consumed packet went to exactly one carrier (or was lost with
   a failing WriteData), and that carrier presented the queue's ClientID. *)
From Coq Require Import List NArith Bool Arith Lia.
From Snow Require Import Lib.Wire Lib.ListFacts Lib.WireFacts Model.Encap Model.CarrierLayer Model.CarrierTimed
  Proofs.CarrierFragProofs Proofs.CarrierProofs.
Import ListNotations.
Open Scope N_scope.

Definition for_cid (c : bytes) (x : bytes * bytes) : bool := beq c (fst x).
Definition acc_for (c : bytes) (l : list (bytes * bytes)) : list bytes := map snd (filter (for_cid c) l).
Definition cons_for (c : bytes) (l : list (option nat * bytes * bytes)) : list bytes :=
  map snd (filter (fun x => beq c (snd (fst x))) l).
Definition owner_is (i : nat) (x : option nat * bytes * bytes) : bool :=
  match fst (fst x) with Some j => Nat.eqb i j | None => false end.
Definition down_of (i : nat) (l : list (option nat * bytes * bytes)) : list bytes := map snd (filter (owner_is i) l).

Record OInv (s : sstate) : Prop := {
  oi_fifo : forall c, acc_for c (accepted s) = cons_for c (consumed s) ++ q_lookup c (sendqs s);
  oi_down : forall i k, nth_error (carriers s) i = Some k -> k_down k = down_of i (consumed s);
  oi_owner : forall i c p, In (Some i, c, p) (consumed s) ->
             exists k, nth_error (carriers s) i = Some k /\ k_cid k = c /\ ~ pre_open k;
  oi_range : forall i c p, In (Some i, c, p) (consumed s) -> (i < length (carriers s))%nat
}.

Lemma oinv_init : OInv sinit.
Proof.
  constructor; cbn.
  - intros c. reflexivity.
  - intros [|i] k H; discriminate.
  - intros i c p [].
  - intros i c p [].
Qed.

Lemma down_of_none l i : (forall j c p, In (Some j, c, p) l -> j <> i) -> down_of i l = [].
Proof.
  induction l as [|[[o c] p] l IH]; intros H; cbn; [reflexivity|].
  unfold owner_is at 1. cbn [fst]. destruct o as [j|].
  - destruct (Nat.eqb_spec i j) as [->|Hne].
    + exfalso. apply (H j c p); [left; reflexivity | reflexivity].
    + apply IH. intros j' c' p' Hin. apply (H j' c' p'). right. exact Hin.
  - apply IH. intros j' c' p' Hin. apply (H j' c' p'). right. exact Hin.
Qed.

Lemma down_of_snoc j l o c p :
  down_of j (l ++ [(o, c, p)]) = down_of j l ++ (match o with Some i => if Nat.eqb j i then [p] else [] | None => [] end).
Proof. unfold down_of. rewrite map_filter_snoc. unfold owner_is. cbn [fst]. destruct o; reflexivity. Qed.

(* the carrier that owns a log entry keeps owning it *)
Lemma owner_kept c f l i j :
  (forall x, nth_error l i = Some x -> kstep x (f x)) ->
  (exists k, nth_error l j = Some k /\ k_cid k = c /\ ~ pre_open k) ->
  exists k, nth_error (kupd i f l) j = Some k /\ k_cid k = c /\ ~ pre_open k.
Proof.
  intros Hf. apply kupd_keeps. intros x Hx (Hc & Hnp).
  destruct (kstep_tag _ _ (Hf x Hx) Hnp) as (A & B & _). split; [congruence | exact A].
Qed.

(* the read side of carrier i moved: nothing downstream did *)
Lemma oinv_read s i f ps rq : OInv s -> (forall k, nth_error (carriers s) i = Some k -> pump_ok k (f k) ps) ->
  OInv {| carriers := kupd i f (carriers s); recvq := rq; sendqs := sendqs s; accepted := accepted s;
          delivered := delivered s; consumed := consumed s |}.
Proof.
  intros [Ifi Ido Iow Ira] Hf. constructor; cbn [carriers sendqs accepted consumed].
  - exact Ifi.
  - refine (kupd_all _ _ _ _ (fun j kj _ => Ido j kj) _). intros x Hx. rewrite (po_down _ _ _ (Hf x Hx)). exact (Ido i x Hx).
  - intros j c p Hin. apply owner_kept; [|exact (Iow j c p Hin)]. intros x Hx. left. exists ps. exact (Hf x Hx).
  - intros j c p Hin. rewrite kupd_length. exact (Ira j c p Hin).
Qed.

(* the head of c's queue moves to the log, whoever took it *)
Lemma fifo_pop s (o : option nat) c p q' :
  (forall c0, acc_for c0 (accepted s) = cons_for c0 (consumed s) ++ q_lookup c0 (sendqs s)) ->
  q_lookup c (sendqs s) = p :: q' ->
  forall c0, acc_for c0 (accepted s) = cons_for c0 (consumed s ++ [(o, c, p)]) ++ q_lookup c0 (q_set c q' (sendqs s)).
Proof.
  intros Ifi Eq c0. rewrite Ifi, q_lookup_set. unfold cons_for. rewrite map_filter_snoc. cbn [fst snd].
  destruct (beq c0 c) eqn:E; [|rewrite app_nil_r; reflexivity].
  apply beq_eq in E. subst c0. rewrite Eq, <- app_assoc. reflexivity.
Qed.

Lemma oinv_drop s i k p q' : OInv s -> q_lookup (k_cid k) (sendqs s) = p :: q' -> OInv (drop_state s i k p q').
Proof.
  intros O Eq. destruct (oinv_read s i kill [] (recvq s) O (fun k _ => pump_ok_kill k)) as [Ifi Ido Iow Ira].
  constructor; cbn [drop_state carriers sendqs accepted consumed] in *.
  - apply fifo_pop; [exact (oi_fifo s O) | exact Eq].
  - intros j kj Hj. rewrite down_of_snoc, app_nil_r. exact (Ido j kj Hj).
  - intros j c p0 Hin. apply in_app_or in Hin. destruct Hin as [Hin|[Hin|[]]]; [exact (Iow j c p0 Hin) | discriminate].
  - intros j c p0 Hin. apply in_app_or in Hin. destruct Hin as [Hin|[Hin|[]]]; [exact (Ira j c p0 Hin) | discriminate].
Qed.

Theorem sstep_oinv s o : OInv s -> OInv (sstep s o).
Proof.
  intros O. destruct o.
  - destruct O as [Ifi Ido Iow Ira]. constructor; cbn.
    + exact Ifi.
    + intros i k H. destruct (nth_error_snoc _ _ _ _ H) as [Ho|[-> ->]]; [apply Ido; exact Ho|].
      cbn. symmetry. apply down_of_none. intros j c p Hin Hj. subst j. apply Ira in Hin. lia.
    + intros i c p Hin. destruct (Iow i c p Hin) as [k [Hk R]]. exists k. split; [|exact R].
      rewrite nth_error_app1; [exact Hk | eapply nth_error_lt; eauto].
    + intros i c p Hin. rewrite app_length. apply Ira in Hin. cbn. lia.
  - destruct (nth_error (carriers s) i) as [k|] eqn:Hk; [|cbn [sstep]; rewrite Hk; exact O].
    rewrite (sstep_recv_feed s i b k Hk). apply (oinv_read s i _ (snd (feed k b)) _ O).
    intros k0 E. rewrite Hk in E. injection E as <-. apply feed_ok.
  - exact (oinv_read s i kill [] (recvq s) O (fun k _ => pump_ok_kill k)).
  - cbn [sstep]. destruct (_ <? _)%nat; [|exact O]. destruct O as [Ifi Ido Iow Ira].
    constructor; cbn; try assumption.
    intros c. unfold acc_for. rewrite map_filter_snoc. fold (acc_for c (accepted s)). rewrite Ifi, q_lookup_set.
    unfold for_cid. cbn [fst snd]. destruct (beq c cid) eqn:E; [apply beq_eq in E; subst c; rewrite app_assoc | rewrite app_nil_r]; reflexivity.
  - cbn [sstep]. destruct (nth_error (carriers s) i) as [k|] eqn:Hk; [|exact O].
    destruct (k_state k) eqn:Es; try exact O.
    destruct (q_lookup (k_cid k) (sendqs s)) as [|p q'] eqn:Eq; [exact O|].
    destruct (write_data p) as [w|] eqn:Ew; [|exact (oinv_drop s i k p q' O Eq)].
    assert (Hs : forall x, nth_error (carriers s) i = Some x -> kstep x (open_carrier x p w))
      by (intros x Hx; right; split; [congruence | exists p, w; reflexivity]).
    destruct O as [Ifi Ido Iow Ira]. constructor; cbn [carriers consumed sendqs accepted].
    + apply fifo_pop; assumption.
    + intros j kj Hj. rewrite down_of_snoc. revert j kj Hj. apply kupd_all.
      * intros j kj Hne Hj. destruct (Nat.eqb_spec j i) as [->|_]; [congruence|]. rewrite app_nil_r. exact (Ido j kj Hj).
      * intros x Hx. cbn [open_carrier k_down]. rewrite Nat.eqb_refl, (Ido i x Hx). reflexivity.
    + intros j c p0 Hin. apply owner_kept; [exact Hs|]. apply in_app_or in Hin. destruct Hin as [Hin|[Hin|[]]]; [exact (Iow j c p0 Hin)|].
      injection Hin as <- <- <-. exists k. split; [exact Hk | split; [reflexivity | exact (open_not_pre k Es)]].
    + intros j c p0 Hin. rewrite kupd_length. apply in_app_or in Hin. destruct Hin as [Hin|[Hin|[]]];
        [exact (Ira j c p0 Hin) | injection Hin as <- _ _; eapply nth_error_lt; eauto].
  - cbn [sstep]. destruct (recvq s); [exact O|]. destruct O. constructor; assumption.
Qed.

Theorem srun_oinv : forall ops, OInv (srun ops).
Proof. intros ops. apply (fold_left_inv OInv sstep sstep_oinv), oinv_init. Qed.
