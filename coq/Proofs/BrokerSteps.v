(* BrokerSteps.v — every step of the broker machine preserves the invariant *)
From Coq Require Import List NArith ZArith Bool Arith Lia.
From Snow Require Import Lib.ListFacts Model.Broker Proofs.BrokerLocal Proofs.BrokerProofs.
Import ListNotations.
Open Scope N_scope.

(* what the state-level parts of the invariant read of the rewritten entry *)

Lemma estep_sid v s l e e' : estep v s l e e' -> e_sid e' = e_sid e.
Proof. destruct 1; try reflexivity. destruct (buf_free e); reflexivity. Qed.

(* an entry stops being registered exactly when its binding and its unit of the gauge are taken away *)
Lemma estep_live v s l e e' : estep v s l e e' -> shape_ok e = true ->
  if unregisters l e then e_live e = true /\ e_live e' = false else e_live e' = e_live e.
Proof.
  intros H S. destruct H; cbn [unregisters]; rewrite ?Hh; try reflexivity.
  - split; [apply (shape_inheap e S Hh) | reflexivity].
  - destruct (shape_client e c S Hc) as [_ X]. rewrite Hpc in X. split; [apply X | reflexivity].
  - destruct (buf_free e); reflexivity.
Qed.

Lemma estep_posted v s l e e' a : estep v s l e e' -> In a (e_posted e') -> In a (e_posted e) \/ exists sd, l = L_Answer sd a.
Proof.
  destruct 1; cbn; try (left; assumption).
  - intros [<-|X]; [right; eexists; reflexivity | left; exact X].
  - destruct (buf_free e); left; assumption.
Qed.

(* the client of an entry is put there by an accepted client request and keeps what that request fixed *)
Lemma estep_cl v s l e e' c' : estep v s l e e' -> shape_ok e = true -> e_cl e' = Some c' ->
  (exists c, e_cl e = Some c /\ cstatic c' = cstatic c) \/
  (e_cl e = None /\ exists n ofp o u p, l = L_Client n ofp o (Some p) /\ lookup (fp_of ofp) (bridges s) = Some u /\
                                       c' = new_client s n ofp o u).
Proof.
  intros H S. destruct H; cbn; intros E; try (left; exists c'; split; [exact E | reflexivity]);
    try (injection E as <-; left; exists c; split; [exact Hc | reflexivity]).
  - injection E as <-. right. apply eligible_inheap in Hel. split; [apply (shape_inheap e S (proj1 Hel))|]. repeat eexists. exact Hu.
  - left. exists c'. split; [destruct (buf_free e); exact E | reflexivity].
Qed.

(* the ghost [e_posted] grows only by the answer of a request whose lookup resolved to this very entry *)
Theorem posted_step v s l s' p e' a :
  Inv v s -> step v s l = Some s' -> nth_error (entries s') p = Some e' -> In a (e_posted e') ->
  exists e, nth_error (entries s) p = Some e /\ e_sid e = e_sid e' /\
    (In a (e_posted e) \/ (l = L_Answer (e_sid e) a /\ lookup (e_sid e) (idmap s) = Some p)).
Proof.
  intros I H Hp Ha.
  destruct (step_entry_bwd v s l s' p e' H Hp) as [[_ (sd & n & pt & cl & _ & ->)] | [e [He [[_ ->]|[Ht Hes]]]]].
  - destruct Ha.
  - exists e. auto.
  - exists e. split; [exact He|]. split; [symmetry; eapply estep_sid; exact Hes|].
    destruct (estep_posted v s l e e' a Hes Ha) as [Hold|[sd ->]]; [left; exact Hold | right]. cbn [touched] in Ht.
    (* the id map binds a session id only to an entry registered under it *)
    destruct (inv_idmap v s I sd p (lookup_in _ _ _ Ht)) as [x [Hx [Hsid _]]].
    rewrite He in Hx. injection Hx as <-. rewrite Hsid. split; [reflexivity | exact Ht].
Qed.

Theorem step_preserves_inv v s l s' : Inv v s -> step v s l = Some s' -> Inv v s'.
Proof.
  intros I H. destruct (step_inv v s l s' H) as [F Sp]. pose proof I as [Ie Ii Ig Ipo Ic Id Ih].
  assert (Sh : forall p e, nth_error (entries s) p = Some e -> shape_ok e = true) by (intros p e Hp; apply (Ie p e Hp)).
  constructor.
  - intros q e' Hq.
    destruct (step_entry_bwd v s l s' q e' H Hq) as [[_ (sd & n & pt & cl & _ & ->)] | [e [He [[_ ->]|[_ Hes]]]]].
    + apply entry_ok_new.
    + apply (entry_ok_frame v s l s' e F). apply (Ie q e He).
    + apply (entry_ok_estep v s l s' e e' F Hes Ih). apply (Ie q e He).
  - intros sd q Hin. destruct Sp as [sd0 n pt cl -> Hes Hid _ | p e e' Ht Hp Hes Hent Hid _ | _ _ Hent Hid _]; rewrite Hid in Hin.
    + rewrite Hes. destruct Hin as [E|Hin].
      * injection E as <- <-. exists (new_entry sd0 n pt cl). split; [|split; reflexivity].
        rewrite nth_error_app2, Nat.sub_diag by apply Nat.le_refl. reflexivity.
      * apply in_remove_key in Hin. destruct (Ii sd q (proj1 Hin)) as [e [Hq X]]. exists e. split; [|exact X].
        rewrite nth_error_app1; [exact Hq | eapply nth_error_lt; exact Hq].
    + assert (Hin' : In (sd, q) (idmap s) /\ (unregisters l e = true -> sd <> e_sid e)).
      { destruct (unregisters l e); [apply in_remove_key in Hin; split; [apply Hin | intros _; apply Hin] | split; [exact Hin | discriminate]]. }
      destruct Hin' as [Hin' Hne]. destruct (Ii sd q Hin') as [e0 [Hq [Hs Hl]]]. rewrite Hent.
      destruct (Nat.eq_dec p q) as [->|Hpq]; [|exists e0; rewrite nth_upd_neq by exact Hpq; auto].
      rewrite Hp in Hq. injection Hq as <-. exists e'. split; [apply (nth_upd_eq _ _ _ _ Hp)|].
      split; [rewrite (estep_sid v s l e e' Hes); exact Hs|].
      pose proof (estep_live v s l e e' Hes (Sh q e Hp)) as L.
      destruct (unregisters l e); [elim (Hne eq_refl); symmetry; exact Hs | rewrite L; exact Hl].
    + rewrite Hent. apply Ii. exact Hin.
  - destruct Sp as [sd0 n pt cl -> Hes _ Hg | p e e' Ht Hp Hes Hent _ Hg | _ _ Hent _ Hg]; rewrite Hg, Ig.
    + rewrite Hes, count_live_app. cbn. lia.
    + rewrite Hent, (count_live_upd _ _ _ _ Hp). pose proof (estep_live v s l e e' Hes (Sh p e Hp)) as L.
      destruct (unregisters l e); [destruct L as [-> ->] | rewrite L; destruct (e_live e)]; lia.
    + rewrite Hent. reflexivity.
  - intros q e' a Hq Ha. rewrite (fr_log _ _ _ F).
    destruct (posted_step v s l s' q e' a I H Hq Ha) as [e [He [Hsid [Hold|[-> Hlk]]]]]; rewrite <- Hsid.
    + destruct (Ipo q e a He Hold) as [aid Hlog]. exists aid. destruct l; try exact Hlog. right. exact Hlog.
    + exists (next_aid s). left. reflexivity.
  - (* a client id is in at most one entry: ids are kept, and a fresh one is larger than all in use *)
    assert (Old : forall q e' c', nth_error (entries s') q = Some e' -> e_cl e' = Some c' ->
              (exists e c, nth_error (entries s) q = Some e /\ e_cl e = Some c /\ c_id c' = c_id c) \/
              (touched s l = Some q /\ c_id c' = next_cid s)).
    { intros q e' c' Hq Hc'.
      destruct (step_entry_bwd v s l s' q e' H Hq) as [[_ (sd & n & pt & cl & _ & ->)] | [e [He [[_ ->]|[Ht Hes]]]]].
      - discriminate.
      - left. exists e, c'. auto.
      - destruct (estep_cl v s l e e' c' Hes (Sh q e He) Hc') as [[c [Hc E]]|[_ (n & ofp & o & u & p & _ & _ & ->)]].
        + left. exists e, c. split; [exact He|]. split; [exact Hc|]. unfold cstatic in E. congruence.
        + right. split; [exact Ht | reflexivity]. }
    assert (Lt : forall q e c, nth_error (entries s) q = Some e -> e_cl e = Some c -> (c_id c < next_cid s)%nat).
    { intros q e c Hq Hc. destruct (Ie q e Hq) as [_ [_ [Hcl _]]]. apply (Hcl c Hc). }
    intros q1 q2 e1 e2 c1 c2 H1 H2 Hc1 Hc2 Heq.
    destruct (Old q1 e1 c1 H1 Hc1) as [(x1 & d1 & X1 & D1 & E1)|[T1 E1]];
      destruct (Old q2 e2 c2 H2 Hc2) as [(x2 & d2 & X2 & D2 & E2)|[T2 E2]].
    + apply (Ic q1 q2 x1 x2 d1 d2 X1 X2 D1 D2). congruence.
    + pose proof (Lt q1 x1 d1 X1 D1). lia.
    + pose proof (Lt q2 x2 d2 X2 D2). lia.
    + congruence.
  - intros cid n fp o r Hin. rewrite (fr_done _ _ _ F) in Hin. rewrite (fr_cid _ _ _ F).
    destruct l as [| | | |n0 ofp o0 [p|]| | | | | | | | | |]; try (apply Id in Hin; auto).
    destruct Hin as [E|Hin]; [injection E as <- _ _ _ _; apply Nat.lt_succ_diag_r | apply Id in Hin; auto].
  - rewrite (fr_hist _ _ _ F), (fr_bridges _ _ _ F). destruct l; try exact Ih. reflexivity.
Qed.

Definition reachable (v : version) (br : list (fpr * url)) (s : state) : Prop :=
  exists ls, run v (init br) ls = Some s.

Lemma run_preserves_inv v : forall ls s s', Inv v s -> run v s ls = Some s' -> Inv v s'.
Proof.
  intros ls s s' I H. revert ls s s' H I. apply (run_ind v (fun s _ s' => Inv v s -> Inv v s')).
  - intros s I. exact I.
  - intros s l s1 ls s' Hs _ IH I. apply IH. eapply step_preserves_inv; eassumption.
Qed.

Theorem reachable_inv v br s : reachable v br s -> Inv v s.
Proof. intros [ls H]. eapply run_preserves_inv; [apply inv_init | exact H]. Qed.

Lemma reachable_step v br s l s' : reachable v br s -> step v s l = Some s' -> reachable v br s'.
Proof. intros [ls H] Hs. exists (ls ++ [l]). eapply run_snoc; eassumption. Qed.

(* the ghost history of installed lists means what it says: it grows by exactly the installed list *)
Lemma step_hist v s l s' : step v s l = Some s' ->
  bridges s' = (match l with L_Install br => br | _ => bridges s end) /\
  br_hist s' = (match l with L_Install br => br :: br_hist s | _ => br_hist s end).
Proof. intros H. destruct (step_inv v s l s' H) as [[A B _ _ _] _]. split; assumption. Qed.

Definition no_install (l : label) : bool := match l with L_Install _ => false | _ => true end.

Lemma step_bridges v s l s' : no_install l = true -> step v s l = Some s' ->
  bridges s' = bridges s /\ br_hist s' = br_hist s.
Proof. intros Hl Hs. destruct (step_hist v s l s' Hs) as [-> ->]. destruct l; try discriminate; split; reflexivity. Qed.

Lemma run_bridges v : forall ls s s', forallb no_install ls = true -> run v s ls = Some s' ->
  bridges s' = bridges s /\ br_hist s' = br_hist s.
Proof.
  intros ls s s' Hn H. revert ls s s' H Hn.
  apply (run_ind v (fun s ls s' => forallb no_install ls = true -> bridges s' = bridges s /\ br_hist s' = br_hist s)).
  - intros s _. split; reflexivity.
  - intros s l s1 ls s' Hs _ IH Hn. cbn [forallb] in Hn. apply andb_prop in Hn. destruct Hn as [Hl Hls].
    destruct (IH Hls) as [-> ->]. exact (step_bridges v s l s1 Hl Hs).
Qed.
