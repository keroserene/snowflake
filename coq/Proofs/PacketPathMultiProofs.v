(* PacketPathMultiProofs.v — C01 over ANY number of carriers of one session, composed with the server's carrier
   layer [srun] (Model/CarrierLayer.v).

   PacketPathProofs.upstream_stream_prefix takes as a PREMISE that every packet the receiving KCP endpoint is handed
   was queued from some one carrier fed an honest, cut stream ([queued_from], one fresh carrier).  Here that premise
   is PROVED from the carrier-layer model for every schedule [ops] — any number of carriers of this and of other
   sessions, interleaved arrivals in any fragmentation, cuts and closes at any point, overlapping carriers of the
   same session: if the bytes sent on every carrier that presented ClientID [cid] are a prefix of an honest sender's
   carrier stream (token, cid, framed packets of the session's sending endpoint), then every packet that surfaces
   under [cid] is an unmodified packet of that endpoint; hence, under the ARQ hypothesis, stream = prefix.
   Downstream likewise from C05's invariants (what a carrier of [cid] was written was addressed to [cid]). *)
From Coq Require Import List NArith Bool Arith Lia.
From Snow Require Import Lib.Wire Model.CarrierLayer
  Proofs.CarrierProofs Proofs.CarrierMultiProofs Proofs.PacketPathProofs.
Import ListNotations.
Open Scope N_scope.

Lemma is_prefix_firstn {A} (a b : list A) : is_prefix a b -> a = firstn (length a) b.
Proof. intros [c ->]. rewrite firstn_app, Nat.sub_diag, firstn_all. cbn. rewrite app_nil_r. reflexivity. Qed.

(* what carrier i of a reachable state queued, when the bytes sent on it are a prefix of an honest stream:
   exactly [queued_from] at some cut *)
Theorem carrier_queued_from : forall ops i k cid w,
  nth_error (carriers (srun ops)) i = Some k ->
  is_prefix (sent_on i ops) (carrier_stream cid w) ->
  exists cut, k_up k = queued_from cid w cut /\
              (k_state k <> K_Dead -> cut = length (sent_on i ops)).
Proof.
  intros ops i k cid w Hk Hpre.
  destruct (carrier_up_decoded ops i k Hk) as [n [Hn [Hal [Hup _]]]]. cbn zeta in Hup.
  rewrite (is_prefix_firstn _ _ Hpre) in Hup. rewrite firstn_firstn in Hup.
  exists (Nat.min n (length (sent_on i ops))). split; [exact Hup|].
  intros H. rewrite (Hal H). apply Nat.min_id.
Qed.

Definition honest_carriers (ops : list sop) (cid : bytes) (sent : list bytes) : Prop :=
  forall i k, nth_error (carriers (srun ops)) i = Some k -> k_cid k = cid -> ~ pre_open k ->
    exists ps w, wire_of ps = Some w /\ (forall p, In p ps -> In p sent) /\
                 is_prefix (sent_on i ops) (carrier_stream cid w).

(* packet integrity across all carriers of the session, proved from the carrier layer *)
Theorem session_packets_are_senders : forall ops cid sent p,
  length cid = 8%nat -> honest_carriers ops cid sent ->
  In (p, cid) (surfaced (srun ops)) -> In p sent.
Proof.
  intros ops cid sent p Hc Hh Hin.
  destruct (si_up _ (srun_inv ops) p cid Hin) as [i [k [Hk [Hcid [Hu Hnp]]]]].
  destruct (Hh i k Hk Hcid Hnp) as [ps [w [Hw [Hsub Hpre]]]].
  destruct (carrier_queued_from ops i k cid w Hk Hpre) as [cut [Hq _]]. rewrite Hq in Hu.
  apply Hsub. eapply queued_from_sub; eassumption.
Qed.

Section ArqBoundaryMulti.
  Variable packets_of : bytes -> list bytes -> Prop.
  Variable stream_of : list bytes -> bytes.
  Hypothesis arq_safe : forall written sent recv,
    packets_of written sent -> (forall p, In p recv -> In p sent) -> is_prefix (stream_of recv) written.

  Theorem upstream_stream_prefix_multi : forall written sent cid ops recv,
    length cid = 8%nat -> packets_of written sent -> honest_carriers ops cid sent ->
    (forall p, In p recv -> In (p, cid) (surfaced (srun ops))) ->
    is_prefix (stream_of recv) written.
  Proof.
    intros written sent cid ops recv Hc Hpk Hh Hrecv. apply (arq_safe written sent recv Hpk).
    intros p Hin. eapply session_packets_are_senders; eauto.
  Qed.

  (* downstream: the client reads, from any of its carriers cut anywhere under any reader behaviour, only packets
     the server's endpoint of this session wrote *)
  Theorem downstream_stream_prefix_multi : forall written sent cid ops recv,
    packets_of written sent ->
    (forall p, In (cid, p) (accepted (srun ops)) -> In p sent) ->
    (forall p, In p recv -> exists i k cut sc, nth_error (carriers (srun ops)) i = Some k /\ k_cid k = cid /\
                                            In p (read_from (k_wire k) cut sc)) ->
    is_prefix (stream_of recv) written.
  Proof.
    intros written sent cid ops recv Hpk Hacc Hrecv. apply (arq_safe written sent recv Hpk).
    intros p Hin. destruct (Hrecv p Hin) as [i [k [cut [sc [Hk [Hcid Hr]]]]]].
    apply Hacc. rewrite <- Hcid. apply (si_down _ (srun_inv ops) i k p Hk).
    eapply read_from_sub; [apply (si_wire _ (srun_inv ops) i k Hk) | exact Hr].
  Qed.
End ArqBoundaryMulti.

(* the session's packets, in order: an order-preserving merge of the carriers' decoded sequences *)
Definition entry_cid (c : bytes) (x : nat * bytes * bytes) : bool := beq c (snd (fst x)).
Definition tagged (c : bytes) (x : bytes * bytes) : bool := beq c (snd x).

Lemma tagged_offered c : forall l,
  map fst (filter (tagged c) (map tag_of l)) = pkts_of (filter (entry_cid c) l).
Proof.
  unfold pkts_of. induction l as [|[[i c'] p] l IH]; [reflexivity|].
  cbn [map filter]. unfold tagged at 1, entry_cid at 1, tag_of at 1. cbn [fst snd].
  destruct (beq c c'); cbn [map fst snd]; rewrite IH; reflexivity.
Qed.

Theorem session_packets_in_order : forall ops c,
  subseq (map fst (filter (tagged c) (surfaced (srun ops)))) (pkts_of (filter (entry_cid c) (offered ops))).
Proof.
  intros ops c. pose proof (queue_is_subsequence_of_offered ops) as H.
  apply (subseq_filter (tagged c)) in H. apply (subseq_map fst) in H.
  rewrite <- tagged_offered. exact H.
Qed.
