(* PeerLifeProofs.v — the WebRTCPeer life cycle (Model/PeerLife.v) over the Peers machine: what Pop hands out and what
   Count()/purgeClosedPeers drops, stated over "Close has begun" instead of the atomic closed flag. *)
From Coq Require Import List Arith Bool Lia.
From Snow Require Import Model.Peers Model.PeerLife Proofs.PeersProofs.
Import ListNotations.

Inductive lreachable (v : version) (o : close_order) (max : nat) : lstate -> Prop :=
| lreach_init : lreachable v o max (linit max)
| lreach_step : forall s l s', lreachable v o max s -> lstep v o s l = Some s' -> lreachable v o max s'.

Lemma lrun_reachable : forall v o max tr s s', lreachable v o max s -> lrun v o s tr = Some s' -> lreachable v o max s'.
Proof.
  induction tr as [|l tr IH]; simpl; intros s s' R H.
  - inversion H; subst; assumption.
  - destruct (lstep v o s l) eqn:E; [|discriminate]. eapply IH; [|exact H]. eapply lreach_step; eauto.
Qed.

Ltac lstep_inv H :=
  cbn [lstep] in H;
  repeat match type of H with
    | match ?x with _ => _ end = Some _ => destruct x eqn:?; try discriminate
    | (if ?x then _ else _) = Some _ => destruct x eqn:?; try discriminate
  end;
  inversion H; subst; clear H.

Lemma lstep_P_step : forall v o s pl s', lstep v o s (LL_P pl) = Some s' -> step v (lp s) pl = Some (lp s').
Proof. intros v o s pl s' H. destruct pl; lstep_inv H; cbn [lp]; first [assumption|reflexivity]. Qed.

Lemma lstep_proj : forall v s l s', lstep v FlagFirst s l = Some s' ->
  lp s' = lp s \/ exists pl, step v (lp s) pl = Some (lp s').
Proof.
  intros v s l s' H. destruct l as [pl|p|p|p|p].
  - right. exists pl. exact (lstep_P_step _ _ _ _ _ H).
  - right. exists (Peer_closes p). lstep_inv H. cbn [lp]. first [assumption|reflexivity].
  - left. lstep_inv H. reflexivity.
  - left. lstep_inv H. reflexivity.
  - left. lstep_inv H. reflexivity.
Qed.

Lemma lreach_proj : forall v max s, lreachable v FlagFirst max s -> reachable v max (lp s).
Proof.
  intros v max s R. induction R as [|s l s' R IH H].
  - apply reach_init.
  - destruct (lstep_proj _ _ _ _ H) as [E|(pl & E)].
    + rewrite E. exact IH.
    + eapply reach_step; eauto.
Qed.

Lemma step_closedf_frame : forall v s l s', step v s l = Some s' ->
  (forall p, l <> Peer_closes p) -> (forall i, l <> End_closepeers i) -> closedf s' = closedf s.
Proof.
  intros v s l s' H Hp He. step_cases H; try reflexivity.
  - exfalso. eapply Hp. reflexivity.
  - exfalso. eapply He. reflexivity.
Qed.

Definition inv_life (s : lstate) : Prop :=
  (forall p, begun s p = closedf (lp s) p) /\ (forall p, torn s p = true -> begun s p = true).

Lemma step_closepeers_closedf : forall v s i s', step v s (End_closepeers i) = Some s' ->
  closedf s' = close_all (closedf s) (active s).
Proof. intros v s i s' H. step_inv H. reflexivity. Qed.

Lemma step_peer_closes_closedf : forall v s p s', step v s (Peer_closes p) = Some s' ->
  closedf s' = close_peer (closedf s) p.
Proof. intros v s p s' H. step_inv H. reflexivity. Qed.

Lemma inv_life_step : forall v s l s', inv_life s -> lstep v FlagFirst s l = Some s' -> inv_life s'.
Proof.
  intros v s l s' [Hb Ht] H. unfold inv_life. destruct l as [pl|p|p|p|p].
  - destruct pl;
      try (lstep_inv H; cbn [lp begun torn];
           match goal with E : step _ _ _ = Some _ |- _ =>
             rewrite (step_closedf_frame _ _ _ _ E) by (intros; congruence) end;
           split; assumption).
    + lstep_inv H. cbn [lp begun torn].
      match goal with E : step _ _ _ = Some _ |- _ => rewrite (step_closepeers_closedf _ _ _ _ E) end.
      unfold end_closes. split.
      * intros p. destruct (in_dec Nat.eq_dec p (active (lp s))) as [Hi|Hi].
        -- rewrite (close_all_in _ _ _ Hi). unfold live.
           destruct (closedf (lp s) p) eqn:Ec.
           ++ apply close_all_mono. rewrite Hb. exact Ec.
           ++ apply close_all_in. apply filter_In. split; [exact Hi|]. unfold live. rewrite Ec. reflexivity.
        -- rewrite (close_all_notin _ _ _ Hi). rewrite close_all_notin; [apply Hb|].
           intros Hf. apply filter_In in Hf. tauto.
      * intros p Hp. destruct (in_dec Nat.eq_dec p (filter (live (lp s)) (active (lp s)))) as [Hi|Hi].
        -- apply close_all_in. exact Hi.
        -- rewrite close_all_notin in Hp by exact Hi. apply close_all_mono. apply Ht. exact Hp.
  - lstep_inv H. cbn [lp begun torn].
    match goal with E : step _ _ _ = Some _ |- _ => rewrite (step_peer_closes_closedf _ _ _ _ E) end.
    split.
    + intros q. unfold close_peer. rewrite Hb. reflexivity.
    + intros q Hq. apply close_peer_mono. apply Ht. exact Hq.
  - lstep_inv H. cbn [lp begun torn]. split; [exact Hb|].
    intros q Hq. unfold close_peer in Hq. destruct (Nat.eqb_spec q p) as [E0|_].
    + rewrite E0. match goal with E : _ && _ = true |- _ => apply andb_true_iff in E; destruct E as [E _]; exact E end.
    + apply Ht. exact Hq.
  - lstep_inv H. split; assumption.
  - lstep_inv H. split; assumption.
Qed.

Lemma lreach_life : forall v max s, lreachable v FlagFirst max s -> inv_life s.
Proof.
  intros v max s R. induction R as [|s l s' R IH H].
  - split; cbn; intros; [reflexivity|discriminate].
  - eapply inv_life_step; eauto.
Qed.

Lemma lstep_pops : forall v o s l s', lstep v o s l = Some s' -> (forall pl, l <> LL_P pl) -> pops (lp s') = pops (lp s).
Proof.
  intros v o s l s' H Hn. destruct l as [pl|p|p|p|p]; [exfalso; eapply Hn; reflexivity| | | |];
    destruct o; lstep_inv H; cbn [lp]; try reflexivity;
    match goal with E : step _ _ (Peer_closes _) = Some _ |- _ => step_inv E; reflexivity end.
Qed.

(* whenever a Pop call comes to return a peer - by whatever step of whatever thread - nobody had begun to close that
   peer (so nothing of it had been torn down), and it is the popper's own test of Closed() that has just passed *)
Lemma pop_hands_out_untouched : forall v max s l s' i p, lreachable v FlagFirst max s -> lstep v FlagFirst s l = Some s' ->
  nth_error (pops (lp s')) i = Some (P_Ret (Some p)) -> nth_error (pops (lp s)) i <> Some (P_Ret (Some p)) ->
  l = LL_P (Pop_check i) /\ begun s p = false /\ torn s p = false /\ begun s' p = false.
Proof.
  intros v max s l s' i p R H Hr Hn.
  destruct (lreach_life _ _ _ R) as [Hb Ht].
  destruct l as [pl|q|q|q|q];
    try (exfalso; apply Hn; rewrite <- (lstep_pops _ _ _ _ _ H) by (intros; discriminate); exact Hr).
  pose proof (lstep_P_step _ _ _ _ _ H) as Hs.
  pose proof (pop_ret_only_by_check _ _ _ _ _ _ Hs Hr Hn) as ->.
  destruct (pop_returns_checked _ _ _ _ _ Hs Hr) as [_ Hc].
  assert (Hbp : begun s p = false) by (rewrite Hb; exact Hc).
  split; [reflexivity|]. split; [exact Hbp|]. split.
  - destruct (torn s p) eqn:Et; [|reflexivity]. rewrite (Ht _ Et) in Hbp. discriminate.
  - lstep_inv H. cbn [begun]. exact Hbp.
Qed.

Lemma purge_exact : forall v max s s', lreachable v FlagFirst max s ->
  lstep v FlagFirst s (LL_P Col_check) = Some s' -> melted (lp s) = false ->
  active (lp s') = filter (untouched s) (active (lp s)) /\ begun s' = begun s /\ quiet s' = quiet s.
Proof.
  intros v max s s' R H Hm. destruct (lreach_life _ _ _ R) as [Hbc _].
  assert (Hext : filter (live (lp s)) (active (lp s)) = filter (untouched s) (active (lp s))).
  { apply filter_ext. intros p. unfold live, untouched. rewrite Hbc. reflexivity. }
  lstep_inv H. cbn [lp begun quiet].
  match goal with E : step _ _ Col_check = Some _ |- _ => destruct (step_Step _ _ _ _ E) as [_ St] end.
  inversion St; subst; fields.
  - (* melt is closed: excluded *) congruence.
  - (* the purge, at capacity or not, is Count's filter *) auto.
  - auto.
Qed.

Definition trace_flag_last : list llabel :=
  map LL_P (collect_ok ++ collect_ok) ++ [LL_CloseBegin 0; LL_P Pop_call; LL_P (Pop_recv 0); LL_P (Pop_check 0)].

(* a quiet peer in use, Max 1: the purge keeps it and Collect is refused *)
Definition trace_quiet : list llabel :=
  map LL_P collect_ok ++ [LL_P Pop_call; LL_P (Pop_recv 0); LL_P (Pop_check 0); LL_Quiet 0; LL_P Col_lock].

(* End while somebody else's Close of peer 0 is inside its teardown: End returns without waiting for it (peer 0 is
   purged by Count()), peer 1 is closed and torn down by End itself *)
Definition trace_end_life : list llabel :=
  map LL_P (collect_ok ++ collect_ok) ++ [LL_CloseBegin 0] ++
  map LL_P [End_call; End_once 0; End_melt 0; End_lock 0; End_closechan 0; End_closepeers 0; End_unlock 0; End_finish 0].

