(* RedialCapacityProofs.v — the queues of RedialPacketConn at their capacity (Model/Redial.v with its
   explicit qcap; Model/RedialQueue.v for the contents): a full queue drops, silently; WriteTo and
   ReadFrom report no error before Close / a dial failure however many packets are written or arrive. *)
From Coq Require Import List Arith Bool Lia.
From Snow Require Import Model.Redial Model.RedialQueue Proofs.RedialProofs.
Import ListNotations.

Lemma queues_bounded_step : forall ecap qcap s l s',
  step ecap qcap s l = Some s' -> r_sendq s <= qcap /\ r_recvq s <= qcap ->
  r_sendq s' <= qcap /\ r_recvq s' <= qcap.
Proof.
  intros ecap qcap s l s' Hs [H1 H2]. destruct (step_counters _ _ _ _ _ Hs) as [-> ->]. split.
  - unfold sendq_after. destruct l; try lia. destruct (r_closed s), (Nat.ltb_spec (r_sendq s) qcap); lia.
  - unfold recvq_after. destruct l; try lia.
    + destruct (Nat.ltb_spec (r_recvq s) qcap); lia.
    + destruct (r_closed s); lia.
Qed.

Theorem redial_queues_bounded : forall ecap qcap s,
  reachable ecap qcap s -> r_sendq s <= qcap /\ r_recvq s <= qcap.
Proof.
  intros ecap qcap. apply (reachable_induction ecap qcap (fun s => r_sendq s <= qcap /\ r_recvq s <= qcap)).
  - simpl. lia.
  - intros s l s' _ H Hs. eapply queues_bounded_step; eauto.
Qed.

Lemma not_closed_before_close_or_dial_failure : forall ecap qcap s,
  reachable ecap qcap s -> g_close_called s = false -> g_dial_failed s = false -> r_closed s = false.
Proof.
  intros ecap qcap s Hr Hc Hd. destruct (r_closed s) eqn:E; [| reflexivity].
  destruct (redial_closed_only_by_close_or_dial_failure ecap qcap s Hr E); congruence.
Qed.

(* after ANY history (any number of writes, any schedule, any carrier behaviour) in which the user has not
   called Close and no dial has failed: WriteTo returns (len, nil) - also when the send queue is full,
   in which case the state does not change at all (the packet is dropped, nothing is signalled) - and
   ReadFrom returns a packet or blocks *)
Theorem redial_write_never_errors_before_close_or_dial_failure :
  forall ecap qcap tr s, run_trace ecap qcap tr rs_init = Some s ->
    g_close_called s = false -> g_dial_failed s = false ->
    user_result s LUWrite = UOk /\
    (user_result s LURead = UPacket \/ user_result s LURead = UWouldBlock) /\
    r_sendq s <= qcap /\ r_recvq s <= qcap /\
    exists s', step ecap qcap s LUWrite = Some s' /\
      r_closed s' = false /\ g_close_called s' = false /\ g_dial_failed s' = false /\
      (r_sendq s < qcap -> r_sendq s' = S (r_sendq s)) /\
      (r_sendq s = qcap -> s' = s).
Proof.
  intros ecap qcap tr s Htr Hc Hd.
  assert (Hr: reachable ecap qcap s) by (exists tr; exact Htr).
  pose proof (not_closed_before_close_or_dial_failure _ _ _ Hr Hc Hd) as Hcl.
  destruct (redial_queues_bounded _ _ _ Hr) as [B1 B2].
  split; [unfold user_result; rewrite Hcl; reflexivity |].
  split; [unfold user_result; rewrite Hcl; destruct (r_recvq s =? 0); auto |].
  split; [exact B1 |]. split; [exact B2 |].
  cbn [step]. rewrite Hcl. eexists. split; [reflexivity |]. cbn [r_closed r_sendq g_close_called g_dial_failed].
  split; [reflexivity |]. split; [exact Hc |]. split; [exact Hd |]. split.
  - intro L. apply Nat.ltb_lt in L. rewrite L. reflexivity.
  - intro E. assert (L: (r_sendq s <? qcap) = false) by (apply Nat.ltb_ge; lia). rewrite L.
    destruct s as [f1 f2 f3 f4 f5 f6 f7 f8]; cbn [r_closed r_err r_d r_cs r_sendq r_recvq g_close_called g_dial_failed] in *. congruence.
Qed.

(* the state in which the queue is full IS reached: n writes while nothing drains the queue (the first
   dial has not returned) leave min n qcap packets queued, the connection open, and the next write ok *)
Lemma writes_from : forall ecap qcap n s,
  r_closed s = false -> r_sendq s <= qcap ->
  exists s', run_trace ecap qcap (repeat LUWrite n) s = Some s' /\
    r_sendq s' = Nat.min (r_sendq s + n) qcap /\ r_closed s' = false /\
    g_close_called s' = g_close_called s /\ g_dial_failed s' = g_dial_failed s /\ r_d s' = r_d s /\ r_cs s' = r_cs s.
Proof.
  intros ecap qcap n. induction n as [| n IH]; intros s Hcl Hb.
  - exists s. split; [reflexivity |]. rewrite Nat.add_0_r. repeat split; auto. lia.
  - cbn [repeat run_trace step]. rewrite Hcl.
    match goal with |- context [run_trace _ _ _ ?s1] => set (s1' := s1) end.
    destruct (IH s1') as (s' & R & Q & C & G1 & G2 & D & CS).
    + reflexivity.
    + unfold s1'. cbn [r_sendq]. destruct (r_sendq s <? qcap) eqn:L; [apply Nat.ltb_lt in L; lia | exact Hb].
    + exists s'. split; [exact R |]. unfold s1' in *. cbn [r_closed r_err r_d r_cs r_sendq r_recvq g_close_called g_dial_failed] in *. repeat split; auto.
      rewrite Q. destruct (r_sendq s <? qcap) eqn:L; [apply Nat.ltb_lt in L | apply Nat.ltb_ge in L]; lia.
Qed.

Section Contents.
  Variable A : Type.

  Lemma bq_push_length : forall cap (q : list A) x,
    length (bq_push A cap q x) = if length q <? cap then S (length q) else length q.
  Proof.
    intros cap q x. unfold bq_push, bq_accepts. destruct (length q <? cap); [| reflexivity].
    rewrite app_length. cbn. lia.
  Qed.

  Lemma bq_pop_length : forall (q : list A), length (snd (bq_pop A q)) = length q - 1.
  Proof. intros [| x t]; cbn; lia. Qed.

  (* first in, first out, of what was accepted: taken ++ left = initially queued ++ accepted *)
  Theorem bq_fifo : forall cap ops (q : list A),
    let '(out, acc, q') := bq_exec A cap ops q in out ++ q' = q ++ acc.
  Proof.
    intros cap ops. induction ops as [| [x |] ops IH]; intro q.
    - cbn. rewrite app_nil_r. reflexivity.
    - cbn [bq_exec]. specialize (IH (bq_push A cap q x)).
      destruct (bq_exec A cap ops (bq_push A cap q x)) as [[out acc] q']. rewrite IH.
      unfold bq_push. destruct (bq_accepts A cap q); [rewrite <- app_assoc |]; reflexivity.
    - cbn [bq_exec]. specialize (IH (snd (bq_pop A q))).
      destruct (bq_exec A cap ops (snd (bq_pop A q))) as [[out acc] q'].
      destruct q as [| y t]; cbn [bq_pop fst snd] in *; [exact IH |].
      cbn [app]. rewrite IH. reflexivity.
  Qed.

  Theorem bq_bounded : forall cap ops (q : list A),
    length q <= cap -> let '(_, _, q') := bq_exec A cap ops q in length q' <= cap.
  Proof.
    intros cap ops. induction ops as [| [x |] ops IH]; intros q Hb.
    - exact Hb.
    - cbn [bq_exec]. specialize (IH (bq_push A cap q x)).
      destruct (bq_exec A cap ops (bq_push A cap q x)) as [[out acc] q']. apply IH.
      rewrite bq_push_length. destruct (length q <? cap) eqn:L; [apply Nat.ltb_lt in L; lia | exact Hb].
    - cbn [bq_exec]. specialize (IH (snd (bq_pop A q))).
      destruct (bq_exec A cap ops (snd (bq_pop A q))) as [[out acc] q']. apply IH.
      rewrite bq_pop_length. lia.
  Qed.

  (* the contents follow the machine: along every step the lengths of the two content queues are the
     machine's counters r_sendq / r_recvq *)
  Theorem redial_contents_refine_counters : forall ecap qcap s l s' (sq rq : list A) (x : A),
    step ecap qcap s l = Some s' -> r_sendq s = length sq -> r_recvq s = length rq ->
    r_sendq s' = length (ghost_send A qcap s l sq x) /\ r_recvq s' = length (ghost_recv A qcap s l rq x).
  Proof.
    intros ecap qcap s l s' sq rq x Hs E1 E2. destruct (step_counters _ _ _ _ _ Hs) as [-> ->].
    unfold sendq_after, recvq_after, ghost_send, ghost_recv. rewrite E1, E2.
    destruct (r_closed s), l; rewrite ?bq_push_length, ?bq_pop_length; split; reflexivity.
  Qed.
End Contents.

(* a carrier is active and its WriteTo does not return: one packet is with the carrier, qcap are queued,
   every further write is dropped and answered ok (qcap = 3, seven writes) *)
Example capacity_with_blocked_carrier :
  exists s, run_trace 1 3 ([LDTop; LDialOk; LUWrite; LWSelPkt 0] ++ repeat LUWrite 6) rs_init = Some s /\
    r_sendq s = 3 /\ g_close_called s = false /\ g_dial_failed s = false /\
    user_result s LUWrite = UOk /\ step 1 3 s LUWrite = Some s.
Proof. eexists. split; [vm_compute; reflexivity |]. repeat split. Qed.
