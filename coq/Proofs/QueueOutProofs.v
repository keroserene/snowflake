(* QueueOutProofs.v — the client map (Model/ClientMap.v) seen from a client address: [rec_of c a] is
   the record of address a (last seen, queue identity, queue contents).  What SendQueue, the two
   channel operations and removeExpired do to the record of every address; the trace projections in
   which the per-address theorems about QueuePacketConn (Proofs/QueueRetentionProofs.v) are stated. *)
From Coq Require Import List NArith ZArith Bool Arith Permutation.
From Snow Require Import Model.GoHeap Model.ClientMap Model.QueueConn.
From Snow Require Import Proofs.GoHeapProofs Proofs.ClientMapProofs Proofs.QueueConnProofs Lib.ListFacts.
Import ListNotations.

Definition rec_of (c : cmap) (a : N) : option crec := find (fun r => N.eqb (c_addr r) a) (byAge c).
Definition out_q (c : cmap) (a : N) : list payload := match rec_of c a with Some r => c_q r | None => [] end.

Local Notation afind a l := (find (fun r => N.eqb (c_addr r) a) l).

Lemma afind_some : forall a l r, afind a l = Some r -> In r l /\ c_addr r = a.
Proof.
  intros a l r H. apply find_some in H. destruct H as [H1 H2]. apply N.eqb_eq in H2. auto.
Qed.

Lemma afind_none : forall a l, afind a l = None -> forall r, In r l -> c_addr r <> a.
Proof.
  intros a l H r Hr E. pose proof (find_none _ _ H r Hr) as X. simpl in X.
  apply N.eqb_neq in X. auto.
Qed.

Lemma afind_none_intro : forall a l, (forall r, In r l -> c_addr r <> a) -> afind a l = None.
Proof.
  induction l as [|h t IH]; simpl; intros H; auto.
  destruct (N.eqb (c_addr h) a) eqn:E.
  - apply N.eqb_eq in E. exfalso. apply (H h); auto.
  - apply IH. intros; apply H; right; auto.
Qed.

Lemma afind_in : forall l r, NoDup (map c_addr l) -> In r l -> afind (c_addr r) l = Some r.
Proof.
  induction l as [|h t IH]; intros r Hnd Hin; [destruct Hin|].
  simpl in Hnd. inversion Hnd; subst. simpl. destruct Hin as [->|Hin].
  - rewrite N.eqb_refl. auto.
  - destruct (N.eqb (c_addr h) (c_addr r)) eqn:E.
    + apply N.eqb_eq in E. exfalso. apply H1. rewrite E. apply in_map; auto.
    + apply IH; auto.
Qed.

Lemma afind_perm : forall a l l', NoDup (map c_addr l) -> Permutation l l' -> afind a l = afind a l'.
Proof.
  intros a l l' Hnd Hp.
  assert (Hnd' : NoDup (map c_addr l')).
  { eapply Permutation_NoDup; [apply Permutation_map; exact Hp | auto]. }
  destruct (afind a l) as [r|] eqn:E.
  - apply afind_some in E. destruct E as [Hin Ha]. subst a. symmetry. apply afind_in; auto.
    eapply Permutation_in; eauto.
  - symmetry. apply afind_none_intro. intros r Hr. eapply afind_none; eauto.
    eapply Permutation_in; [apply Permutation_sym; eauto | auto].
Qed.

Lemma afind_set_nth : forall l i r r' a, NoDup (map c_addr l) -> nth_error l i = Some r ->
  c_addr r' = c_addr r ->
  afind a (set_nth i r' l) = if N.eqb (c_addr r) a then Some r' else afind a l.
Proof.
  induction l as [|h t IH]; intros [|i] r r' a Hnd Hn Ha; simpl in *; try discriminate.
  - inversion Hn; subst h. rewrite Ha. destruct (N.eqb (c_addr r) a); auto.
  - inversion Hnd; subst. destruct (N.eqb (c_addr h) a) eqn:E.
    + destruct (N.eqb (c_addr r) a) eqn:E2; auto. apply N.eqb_eq in E, E2. exfalso.
      apply H1. rewrite E, <- E2. apply in_map. eapply nth_error_In; eauto.
    + apply (IH i r r' a); auto.
Qed.

Lemma rec_of_some : forall c a r, rec_of c a = Some r -> In r (byAge c) /\ c_addr r = a.
Proof. intros c a r H. apply afind_some; auto. Qed.

Lemma rec_of_in : forall c r, cm_inv c -> In r (byAge c) -> rec_of c (c_addr r) = Some r.
Proof. intros c r H Hin. unfold rec_of. apply afind_in; auto. apply cm_inv_nodup_addr; auto. Qed.

Lemma rec_of_amap : forall c a, cm_inv c ->
  rec_of c a = match amap_get a (byAddr c) with Some i => nth_error (byAge c) i | None => None end.
Proof.
  intros c a Hinv. pose proof (cm_inv_idx c Hinv) as Hidx.
  destruct (amap_get a (byAddr c)) as [i|] eqn:G.
  - apply Hidx in G. unfold addr_at in G. destruct (nth_error (byAge c) i) as [r|] eqn:Hr; [|discriminate].
    simpl in G. injection G as <-. apply rec_of_in; [exact Hinv | eapply nth_error_In; eauto].
  - apply afind_none_intro. intros r Hr E. apply In_nth_error in Hr. destruct Hr as [k Hk].
    apply addr_at_nth in Hk. rewrite E in Hk. apply Hidx in Hk. congruence.
Qed.

Lemma qid_unique : forall c r1 r2, cm_inv c -> In r1 (byAge c) -> In r2 (byAge c) ->
  c_qid r1 = c_qid r2 -> r1 = r2.
Proof. intros c r1 r2 H. apply NoDup_map_inj_in, cm_inv_qids, H. Qed.

(* SendQueue, exactly: the record of [a] afterwards is the old one with LastSeen := now (same queue,
   same contents), or a new record with a fresh queue identity and an empty queue; nothing else
   changes; no queue is closed; identities are handed out in increasing order. *)
Definition touch_rec (a : N) (now : Z) (nq : nat) (ro : option crec) : crec :=
  match ro with Some r => set_seen r now | None => mkrec a now nq [] end.

Lemma send_queue_full : forall a now c, cm_inv c ->
  cm_inv (fst (send_queue a now c)) /\
  rec_of (fst (send_queue a now c)) a = Some (touch_rec a now (next_qid c) (rec_of c a)) /\
  snd (send_queue a now c) = c_qid (touch_rec a now (next_qid c) (rec_of c a)) /\
  (forall b, b <> a -> rec_of (fst (send_queue a now c)) b = rec_of c b) /\
  dead (fst (send_queue a now c)) = dead c /\
  next_qid (fst (send_queue a now c)) = match rec_of c a with Some _ => next_qid c | None => S (next_qid c) end.
Proof.
  intros a now c Hinv. destruct (send_queue_spec a now c Hinv) as (Hinv1 & Hdead & H).
  split; [exact Hinv1|].
  (* lookups by address do not see the order the heap put the records in *)
  assert (Hperm : forall L b, Permutation (byAge (fst (send_queue a now c))) L ->
                              rec_of (fst (send_queue a now c)) b = afind b L).
  { intros L b Hp. apply afind_perm; [apply cm_inv_nodup_addr, Hinv1 | exact Hp]. }
  rewrite (rec_of_amap c a Hinv). destruct (amap_get a (byAddr c)) as [i|] eqn:G.
  - destruct H as (r & Hr & Hk & Hp & Hnq). rewrite Hr. simpl touch_rec.
    assert (Ha : c_addr r = a).
    { apply (cm_inv_idx c Hinv) in G. rewrite (addr_at_nth _ _ _ Hr) in G. congruence. }
    assert (Hfind : forall b, rec_of (fst (send_queue a now c)) b =
                              if N.eqb a b then Some (set_seen r now) else rec_of c b).
    { intro b. rewrite (Hperm _ b Hp), <- Ha.
      apply afind_set_nth; [apply cm_inv_nodup_addr, Hinv | exact Hr | reflexivity]. }
    split; [rewrite Hfind, N.eqb_refl; reflexivity|]. split; [exact Hk|].
    split; [|split; [exact Hdead | exact Hnq]].
    intros b Hb. rewrite Hfind. destruct (N.eqb_spec a b); [congruence | reflexivity].
  - destruct H as (Hk & Hp & Hnq). simpl touch_rec.
    assert (Hfind : forall b, rec_of (fst (send_queue a now c)) b =
                              if N.eqb a b then Some (mkrec a now (next_qid c) []) else rec_of c b).
    { intro b. rewrite (Hperm _ b Hp). reflexivity. }
    split; [rewrite Hfind, N.eqb_refl; reflexivity|]. split; [exact Hk|].
    split; [|split; [exact Hdead | exact Hnq]].
    intros b Hb. rewrite Hfind. destruct (N.eqb_spec a b); [congruence | reflexivity].
Qed.

Lemma find_qid_nth : forall l i r, NoDup (map c_qid l) -> nth_error l i = Some r ->
  find_qid (c_qid r) l = Some i.
Proof.
  induction l as [|h t IH]; intros [|i] r Hnd Hn; simpl in *; try discriminate.
  - inversion Hn; subst. rewrite Nat.eqb_refl. auto.
  - inversion Hnd; subst. destruct (Nat.eqb (c_qid h) (c_qid r)) eqn:E.
    + apply Nat.eqb_eq in E. exfalso. apply H1. rewrite E. apply in_map. eapply nth_error_In; eauto.
    + rewrite (IH i r); auto.
Qed.

Lemma find_qid_some : forall l k i, find_qid k l = Some i -> exists r, nth_error l i = Some r /\ c_qid r = k.
Proof.
  induction l as [|h t IH]; intros k i H; simpl in *; try discriminate.
  destruct (Nat.eqb (c_qid h) k) eqn:E.
  - inversion H; subst. apply Nat.eqb_eq in E. exists h. auto.
  - destruct (find_qid k t) as [j|] eqn:F; simpl in H; [|discriminate].
    inversion H; subst. simpl. apply IH; auto.
Qed.

Lemma nth_set_nth_seen : forall l i x r k y, nth_error l i = Some r -> c_seen x = c_seen r ->
  nth_error (set_nth i x l) k = Some y -> exists y0, nth_error l k = Some y0 /\ c_seen y0 = c_seen y.
Proof.
  intros l i x r k y Hr Hs Hk. destruct (Nat.eq_dec k i).
  - subst. rewrite nth_error_set_nth_eq in Hk by (eapply nth_error_lt; eauto). inversion Hk; subst.
    exists r. auto.
  - rewrite nth_error_set_nth_neq in Hk by auto. eauto.
Qed.

Lemma set_q_id : forall r, set_q r (c_q r) = r.
Proof. destruct r; reflexivity. Qed.

Lemma cm_inv_set_q : forall c i r q, cm_inv c -> nth_error (byAge c) i = Some r ->
  cm_inv (set_byAge c (set_nth i (set_q r q) (byAge c))).
Proof.
  intros c i r q Hinv Hr. pose proof Hinv as (Hh & Hidx & Hks & Hlen & Hnd & Hb).
  unfold cm_inv, set_byAge; simpl.
  split; [|split; [|split; [|split; [|split]]]]; auto.
  - intros p ch a b Hc Ha Hb'.
    destruct (nth_set_nth_seen (byAge c) i (set_q r q) r p a Hr eq_refl Ha) as (a0 & Ha0 & Sa).
    destruct (nth_set_nth_seen (byAge c) i (set_q r q) r ch b Hr eq_refl Hb') as (b0 & Hb0 & Sb).
    pose proof (Hh p ch a0 b0 Hc Ha0 Hb0) as X. unfold rec_less in *. rewrite <- Sa, <- Sb. auto.
  - intros a k. rewrite (addr_at_set_nth_same _ i (set_q r q) r k Hr eq_refl). apply Hidx.
  - rewrite set_nth_length. auto.
  - rewrite (map_set_nth_same _ _ c_qid _ i (set_q r q) r Hr eq_refl). auto.
  - intros x Hx. apply (in_map c_qid) in Hx.
    rewrite (map_set_nth_same _ _ c_qid _ i (set_q r q) r Hr eq_refl) in Hx.
    apply (cm_inv_bound_map c _ Hinv Hx).
Qed.

Lemma rec_of_set_q : forall c i r q b, cm_inv c -> nth_error (byAge c) i = Some r ->
  rec_of (set_byAge c (set_nth i (set_q r q) (byAge c))) b =
  if N.eqb (c_addr r) b then Some (set_q r q) else rec_of c b.
Proof.
  intros. unfold rec_of, set_byAge; simpl. apply afind_set_nth; auto. apply cm_inv_nodup_addr; auto.
Qed.

Lemma rec_of_locate : forall c a r, cm_inv c -> rec_of c a = Some r ->
  exists i, nth_error (byAge c) i = Some r /\ find_qid (c_qid r) (byAge c) = Some i /\ c_addr r = a.
Proof.
  intros c a r Hinv H. apply rec_of_some in H. destruct H as [Hin Ha].
  apply In_nth_error in Hin. destruct Hin as [i Hi]. exists i. split; auto. split; auto.
  apply find_qid_nth; auto. apply cm_inv_qids, Hinv.
Qed.

Lemma q_send_inv : forall cap k p c, cm_inv c -> cm_inv (fst (q_send cap k p c)).
Proof.
  intros cap k p c Hinv. unfold q_send.
  destruct (find_qid k (byAge c)) as [i|]; auto.
  destruct (nth_error (byAge c) i) as [r|] eqn:Hr; auto.
  destruct (length (c_q r) <? cap); auto. simpl. apply cm_inv_set_q; auto.
Qed.

Lemma q_recv_inv : forall k c, cm_inv c -> cm_inv (fst (q_recv k c)).
Proof.
  intros k c Hinv. unfold q_recv.
  destruct (find_qid k (byAge c)) as [i|].
  - destruct (nth_error (byAge c) i) as [r|] eqn:Hr; auto.
    destruct (c_q r); auto. simpl. apply cm_inv_set_q; auto.
  - destruct (dead_take k (dead c)) as [d r]. simpl. exact Hinv.
Qed.

Lemma dead_take_keys : forall k d, map fst (fst (dead_take k d)) = map fst d.
Proof.
  induction d as [|[k' q] t IH]; simpl; auto.
  destruct (Nat.eqb k' k).
  - destruct q; reflexivity.
  - destruct (dead_take k t) as [t' r]. simpl in *. congruence.
Qed.

(* neither operation makes a queue or forgets that one was closed; a send closes and drains none *)
Lemma q_send_frame : forall cap k p c,
  dead (fst (q_send cap k p c)) = dead c /\ next_qid (fst (q_send cap k p c)) = next_qid c.
Proof.
  intros cap k p c. unfold q_send. destruct (find_qid k (byAge c)) as [i|]; auto.
  destruct (nth_error (byAge c) i) as [r|]; auto. destruct (length (c_q r) <? cap); auto.
Qed.

Lemma q_recv_frame : forall k c,
  map fst (dead (fst (q_recv k c))) = map fst (dead c) /\ next_qid (fst (q_recv k c)) = next_qid c.
Proof.
  intros k c. unfold q_recv. destruct (find_qid k (byAge c)) as [i|].
  - destruct (nth_error (byAge c) i) as [r|]; auto. destruct (c_q r); auto.
  - pose proof (dead_take_keys k (dead c)) as K. destruct (dead_take k (dead c)). auto.
Qed.

Lemma rec_of_not_found : forall c k x r, cm_inv c -> find_qid k (byAge c) = None ->
  rec_of c x = Some r -> c_qid r =? k = false.
Proof.
  intros c k x r Hinv F E. apply Nat.eqb_neq. intros <-.
  destruct (rec_of_locate c x r Hinv E) as (i & _ & Hf & _). congruence.
Qed.

Lemma q_send_by_addr : forall cap p c b rb, cm_inv c -> rec_of c b = Some rb ->
  snd (q_send cap (c_qid rb) p c) = (length (c_q rb) <? cap) /\
  (forall x, rec_of (fst (q_send cap (c_qid rb) p c)) x =
     if N.eqb b x then Some (if length (c_q rb) <? cap then set_q rb (c_q rb ++ [p]) else rb) else rec_of c x).
Proof.
  intros cap p c b rb Hinv Hb. destruct (rec_of_locate c b rb Hinv Hb) as (i & Hi & Hf & Ha).
  unfold q_send. rewrite Hf, Hi. destruct (length (c_q rb) <? cap); simpl; (split; [reflexivity|]); intro x.
  - rewrite rec_of_set_q, Ha by assumption. reflexivity.
  - destruct (N.eqb_spec b x) as [<-|]; [exact Hb | reflexivity].
Qed.

Lemma q_recv_by_addr : forall c b rb, cm_inv c -> rec_of c b = Some rb ->
  snd (q_recv (c_qid rb) c) = (match c_q rb with [] => RcvEmpty | p :: _ => RcvPkt p end) /\
  dead (fst (q_recv (c_qid rb) c)) = dead c /\
  (forall x, rec_of (fst (q_recv (c_qid rb) c)) x =
     if N.eqb b x then Some (set_q rb (tl (c_q rb))) else rec_of c x).
Proof.
  intros c b rb Hinv Hb. destruct (rec_of_locate c b rb Hinv Hb) as (i & Hi & Hf & Ha).
  unfold q_recv. rewrite Hf, Hi.
  destruct (c_q rb) as [|p q'] eqn:Hq; simpl; (split; [reflexivity|]); (split; [reflexivity|]); intro x.
  - destruct (N.eqb_spec b x) as [<-|]; [|reflexivity]. rewrite Hb, <- Hq. f_equal. symmetry. apply set_q_id.
  - rewrite rec_of_set_q, Ha by assumption. reflexivity.
Qed.

(* a receive on queue k - live, closed or unknown - takes the head of the record that holds k; no
   other address has a record with that queue *)
Lemma rec_of_q_recv : forall k c x, cm_inv c ->
  rec_of (fst (q_recv k c)) x =
  option_map (fun r => if c_qid r =? k then set_q r (tl (c_q r)) else r) (rec_of c x).
Proof.
  intros k c x Hinv. destruct (find_qid k (byAge c)) as [i|] eqn:F.
  - destruct (find_qid_some _ _ _ F) as (r & Hr & <-). pose proof (nth_error_In _ _ Hr) as Hin.
    destruct (q_recv_by_addr c (c_addr r) r Hinv (rec_of_in c r Hinv Hin)) as (_ & _ & ->).
    destruct (N.eqb_spec (c_addr r) x) as [<-|Hne].
    + rewrite (rec_of_in c r Hinv Hin). simpl. rewrite Nat.eqb_refl. reflexivity.
    + destruct (rec_of c x) as [r0|] eqn:E; [|reflexivity]. simpl.
      destruct (Nat.eqb_spec (c_qid r0) (c_qid r)) as [Eq|]; [|reflexivity].
      exfalso. apply Hne. destruct (rec_of_some _ _ _ E) as [Hin0 <-].
      f_equal. symmetry. apply (qid_unique c r0 r Hinv Hin0 Hin Eq).
  - unfold q_recv. rewrite F.
    assert (Hsame : rec_of (fst (let '(d, r) := dead_take k (dead c) in
                                  (mkcm (byAge c) (byAddr c) (next_qid c) d, r))) x = rec_of c x)
      by (destruct (dead_take k (dead c)); reflexivity).
    rewrite Hsame. destruct (rec_of c x) as [r0|] eqn:E; [|reflexivity]. simpl.
    rewrite (rec_of_not_found c k x r0 Hinv F E). reflexivity.
Qed.

Lemma rec_of_remove_expired : forall now timeout c a, cm_inv c ->
  rec_of (remove_expired now timeout c) a =
  match rec_of c a with Some r => if expired now timeout r then None else Some r | None => None end.
Proof.
  intros now timeout c a Hinv.
  destruct (remove_expired_spec now timeout c Hinv) as (I1 & _ & I3 & I4 & I5 & _).
  set (c' := remove_expired now timeout c) in *.
  destruct (rec_of c' a) as [r2|] eqn:E2.
  - destruct (rec_of_some _ _ _ E2) as [Hin2 <-].
    rewrite (rec_of_in c r2 Hinv (I5 _ Hin2)), (I3 _ Hin2). reflexivity.
  - destruct (rec_of c a) as [r|] eqn:E; [|reflexivity]. destruct (rec_of_some _ _ _ E) as [Hin <-].
    destruct (I4 r Hin) as [Hk|[Hx _]]; [|rewrite Hx; reflexivity].
    rewrite (rec_of_in c' r I1 Hk) in E2. discriminate.
Qed.

Lemma clients_after_inv : forall cap timeout closed c o, cm_inv c -> cm_inv (clients_after cap timeout closed c o).
Proof.
  intros cap timeout closed c o H. destruct o; simpl; auto.
  - destruct closed; auto. apply q_send_inv, send_queue_inv, H.
  - apply q_recv_inv, send_queue_inv, H.
  - apply q_recv_inv, H.
  - apply remove_expired_inv, H.
Qed.

Lemma qstep_inv : forall cap timeout s o, cm_inv (clients s) ->
  cm_inv (clients (fst (qstep cap timeout s o))).
Proof. intros. rewrite qstep_clients. apply clients_after_inv. assumption. Qed.

Lemma qrun_inv : forall cap timeout ops s, cm_inv (clients s) ->
  cm_inv (clients (fst (qrun cap timeout ops s))).
Proof. intros cap timeout. apply (qrun_preserves cap timeout (fun s => cm_inv (clients s))), qstep_inv. Qed.

Fixpoint written (a : N) (ops : list qop) (outs : list qout) : list payload :=   (* accepted WriteTo(_, a) *)
  match ops, outs with
  | o :: ops', r :: outs' =>
      match o, r with
      | QWrite p b _, OWrote _ _ true =>
          if N.eqb b a then p :: written a ops' outs' else written a ops' outs'
      | _, _ => written a ops' outs'
      end
  | _, _ => []
  end.

Fixpoint received (a : N) (ops : list qop) (outs : list qout) : list payload :=  (* what OutgoingQueue(a) handed out *)
  match ops, outs with
  | o :: ops', r :: outs' =>
      match o, r with
      | QOutRecv b _, ORecv _ (RcvPkt p) =>
          if N.eqb b a then p :: received a ops' outs' else received a ops' outs'
      | _, _ => received a ops' outs'
      end
  | _, _ => []
  end.

Definition no_expiry (o : qop) : bool := match o with QSweep _ | QHeldRecv _ => false | _ => true end.

Definition w1 (a : N) (o : qop) (r : qout) : list payload :=
  match o, r with
  | QWrite p b _, OWrote _ _ true => if N.eqb b a then [p] else []
  | _, _ => []
  end.

Definition r1 (a : N) (o : qop) (r : qout) : list payload :=
  match o, r with
  | QOutRecv b _, ORecv _ (RcvPkt p) => if N.eqb b a then [p] else []
  | _, _ => []
  end.

Lemma written_cons : forall a o ops r outs,
  written a (o :: ops) (r :: outs) = w1 a o r ++ written a ops outs.
Proof.
  intros a o ops r outs. destruct o as [| |p b now| | | |]; try (destruct r; reflexivity).
  destruct r as [| | | | |len k ok| |]; try reflexivity.
  simpl. destruct ok; auto. destruct (N.eqb b a); auto.
Qed.

Lemma received_cons : forall a o ops r outs,
  received a (o :: ops) (r :: outs) = r1 a o r ++ received a ops outs.
Proof.
  intros a o ops r outs. destruct o as [| | |b now| | |]; try (destruct r; reflexivity).
  destruct r as [| | | | | |k x|]; try reflexivity.
  simpl. destruct x; auto. destruct (N.eqb b a); auto.
Qed.
