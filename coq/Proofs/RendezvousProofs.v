(* RendezvousProofs.v — Model/Rendezvous.v: bounded reads of the responses, domain fronting of the HTTP and AMP
   requests, the broker's AMP endpoint against its POST endpoint, and the path of the AMP request through an AMP cache
   end to end ([amp_segs], amp_cache_end_to_end*, the empty poll). *)
From Coq Require Import List NArith Lia String.
From Snow Require Import Lib.Wire Lib.WireFacts Model.B64Url Model.AmpPath Model.CacheURL Model.Rendezvous.
From Snow Require Import Proofs.AmpPathProofs Proofs.CacheURLProofs Proofs.RendezvousPathProofs.
Import ListNotations.
Open Scope N_scope.

(* reading limit+1 bytes tells whether the body is within the limit, and then has read all of it *)
Lemma firstn_limit : forall {A} limit (body : list A),
  let p := firstn (N.to_nat (limit + 1)) body in
  if N.of_nat (length p) =? limit + 1 then limit < N.of_nat (length body)
  else p = body /\ N.of_nat (length body) <= limit.
Proof.
  intros A limit body p. subst p. destruct (N.eqb_spec (N.of_nat (length (firstn (N.to_nat (limit + 1)) body))) (limit + 1)) as [E|E];
    rewrite firstn_length in E; [lia|].
  split; [apply firstn_all2|]; lia.
Qed.

Lemma limited_read_eq : forall limit body,
  limited_read limit body = if N.of_nat (length body) <=? limit then Some body else None.
Proof.
  intros limit body. unfold limited_read. pose proof (firstn_limit limit body) as P. cbv zeta in P.
  destruct (N.leb_spec (N.of_nat (length body)) limit), (_ =? _); try reflexivity; try lia. f_equal. apply P.
Qed.

Lemma limited_read_ok : forall limit body d,
  limited_read limit body = Some d -> d = body /\ N.of_nat (length body) <= limit.
Proof.
  intros limit body d. rewrite limited_read_eq. destruct (N.leb_spec (N.of_nat (length body)) limit); [|discriminate].
  intros [= <-]. auto.
Qed.

Lemma limited_read_complete : forall limit body,
  N.of_nat (length body) <= limit -> limited_read limit body = Some body.
Proof. intros limit body H. rewrite limited_read_eq. apply N.leb_le in H. rewrite H. reflexivity. Qed.

Section AmpRead.
  Variable armor_decode : bytes -> option bytes.

  Lemma amp_read_eq : forall limit body,
    amp_read armor_decode limit body = if N.of_nat (length body) <=? limit then armor_decode body else None.
  Proof.
    intros limit body. unfold amp_read. pose proof (firstn_limit limit body) as P. cbv zeta in P.
    destruct (N.leb_spec (N.of_nat (length body)) limit), (_ =? _); try lia.
    - destruct P as [-> _]. destruct (armor_decode body); reflexivity.
    - destruct (armor_decode _); reflexivity.
  Qed.

  Lemma amp_read_ok : forall limit body d,
    amp_read armor_decode limit body = Some d ->
    armor_decode body = Some d /\ N.of_nat (length body) <= limit.
  Proof.
    intros limit body d. rewrite amp_read_eq. destruct (N.leb_spec (N.of_nat (length body)) limit); [auto|discriminate].
  Qed.

  Lemma amp_read_complete : forall limit body d,
    armor_decode body = Some d -> N.of_nat (length body) <= limit ->
    amp_read armor_decode limit body = Some d.
  Proof. intros limit body d Hd Hl. rewrite amp_read_eq. apply N.leb_le in Hl. rewrite Hl. exact Hd. Qed.

  Lemma amp_response_ok : forall limit status loc body d,
    amp_response armor_decode limit status loc body = Some d ->
    status = 200 /\ loc = false /\ armor_decode body = Some d /\ N.of_nat (length body) <= limit.
  Proof.
    intros limit status loc body d. unfold amp_response.
    destruct (N.eqb_spec status 200); cbn [negb]; [|discriminate].
    destruct loc; [discriminate|]. intros H. apply amp_read_ok in H. tauto.
  Qed.

  Lemma amp_response_non200 : forall limit status loc body,
    status <> 200 -> amp_response armor_decode limit status loc body = None.
  Proof. intros limit status loc body H. unfold amp_response. apply N.eqb_neq in H. rewrite H. reflexivity. Qed.

End AmpRead.

Section Fronting.

  Lemma with_front_eq : forall front q, front <> [] ->
    with_front front q =
    {| q_method := q_method q; q_scheme := q_scheme q; q_connect_host := front; q_host_header := q_connect_host q;
       q_path := q_path q; q_rawquery := q_rawquery q; q_body := q_body q |}.
  Proof. intros front q H. unfold with_front. rewrite beq_nil_false by assumption. reflexivity. Qed.

  Lemma with_front_set : forall front q, front <> [] ->
    q_connect_host (with_front front q) = front /\
    q_host_header (with_front front q) = q_connect_host q /\
    q_method (with_front front q) = q_method q /\ q_scheme (with_front front q) = q_scheme q /\
    q_path (with_front front q) = q_path q /\ q_rawquery (with_front front q) = q_rawquery q /\
    q_body (with_front front q) = q_body q.
  Proof. intros front q H. rewrite with_front_eq by assumption. repeat split. Qed.

  Lemma with_front_none : forall q, with_front [] q = q.
  Proof. reflexivity. Qed.

  Lemma with_front_path : forall front q, q_path (with_front front q) = q_path q.
  Proof. intros. unfold with_front. destruct (beq front []); reflexivity. Qed.

  Definition set_host (b : broker_url) (h : bytes) : broker_url :=
    {| b_scheme := b_scheme b; b_user := b_user b; b_host := h; b_hostname := b_hostname b;
       b_port := b_port b; b_epath := b_epath b |}.
  Definition erase_host_header (q : request) : request :=
    {| q_method := q_method q; q_scheme := q_scheme q; q_connect_host := q_connect_host q;
       q_host_header := []; q_path := q_path q; q_rawquery := q_rawquery q; q_body := q_body q |}.

  Lemma http_fronting : forall b front body, front <> [] ->
    let q := http_request b front body in
    q_connect_host q = front /\ q_host_header q = b_host b /\
    q_method q = bs "POST"%string /\ q_body q = Some body /\
    (* the broker's host appears nowhere but in the Host header *)
    (forall h, erase_host_header (http_request (set_host b h) front body) = erase_host_header q).
  Proof.
    intros b front body H q. subst q. unfold http_request. rewrite with_front_eq by assumption. repeat split.
    intros h. rewrite with_front_eq by assumption. reflexivity.
  Qed.

  Lemma http_no_front : forall b body,
    let q := http_request b [] body in
    q_connect_host q = b_host b /\ q_host_header q = b_host b.
  Proof. intros. split; reflexivity. Qed.

End Fronting.

Section Amp.
  Variable to_unicode : bytes -> option bytes.
  Variable to_ascii : bytes -> option bytes.
  Variable sha256 : bytes -> bytes.
  Variable h34 : bytes -> bool.

  Lemma amp_fronting : forall b cache front cb data q, front <> [] ->
    amp_request to_unicode to_ascii sha256 h34 b cache front cb data = Some q ->
    q_connect_host q = front /\ q_method q = bs "GET"%string /\ q_body q = None /\
    match cache with
    | None => q_host_header q = b_host b
    | Some cu =>
        exists r, cache_url to_unicode to_ascii sha256 h34 (amp_pub_url b cb data) cu (bs "c"%string) = Some r /\
                  q_host_header q = r_host r
    end.
  Proof.
    intros b cache front cb data q Hf. unfold amp_request. destruct cache as [cu|].
    - destruct (cache_url to_unicode to_ascii sha256 h34 (amp_pub_url b cb data) cu (bs "c"%string)) as [r|]; [|discriminate].
      intros [= <-]. rewrite with_front_eq by assumption. repeat split. exists r. split; reflexivity.
    - intros [= <-]. rewrite with_front_eq by assumption. repeat split.
  Qed.

  (* without a cache the broker host is named only in the Host header, as for HTTP rendezvous *)
  Lemma amp_fronting_nocache_only_host_header : forall b front cb data h, front <> [] ->
    option_map erase_host_header (amp_request to_unicode to_ascii sha256 h34 (set_host b h) None front cb data) =
    option_map erase_host_header (amp_request to_unicode to_ascii sha256 h34 b None front cb data).
  Proof. intros. unfold amp_request. rewrite !with_front_eq by assumption. reflexivity. Qed.

  (* the request line carries the poll: path = <dir of broker path>amp/client/0<pad>/<base64url> *)
  Lemma amp_path_nocache : forall b front cb data q,
    amp_request to_unicode to_ascii sha256 h34 b None front cb data = Some q ->
    q_path q = resolve_path (b_epath b) (AMP_PREFIX ++ encode_path cb data).
  Proof. intros b front cb data q [= <-]. apply with_front_path. Qed.

  (* through a cache: the publisher URL has a host, and the path is CacheURL's with one slash in front *)
  Lemma amp_request_cache_inv : forall b cu front cb data q,
    amp_request to_unicode to_ascii sha256 h34 b (Some cu) front cb data = Some q ->
    b_hostname b <> [] /\
    q_path q = lead_slash (path_join (path_components (amp_pub_url b cb data) cu (bs "c"%string))).
  Proof.
    intros b cu front cb data q. unfold amp_request.
    destruct (cache_url to_unicode to_ascii sha256 h34 (amp_pub_url b cb data) cu (bs "c"%string)) as [r|] eqn:E; [|discriminate].
    intros [= <-]. apply cache_url_some in E. destruct E as (_ & _ & _ & _ & Hh & _ & _ & _ & ->).
    split; [exact Hh|apply with_front_path].
  Qed.
End Amp.

Section Broker.
  Variable client_offers : bytes -> option bytes.
  Variable legacy_post : bytes -> http_reply.
  Variable armor : bytes -> bytes.
  Variable decode_error_response : option bytes.

  Lemma strip_prefix_app : forall pre s, strip_prefix pre (pre ++ s) = Some s.
  Proof. induction pre as [|a pre IH]; intros s; cbn; [reflexivity|]. rewrite N.eqb_refl. apply IH. Qed.

  Definition not_legacy (body : bytes) : Prop := match body with 123 :: _ => False | _ => True end.
  Definition is_legacy_b (body : bytes) : bool := match body with 123 :: _ => true | _ => false end.

  (* the pattern 123 :: _ is a tree of matches on the bits of the first byte *)
  Lemma legacy_match : forall A (body : bytes) (x y : A),
    match body with 123 :: _ => x | _ => y end = if is_legacy_b body then x else y.
  Proof.
    intros A [|[|pc] body'] x y; try reflexivity. do 7 (destruct pc as [pc|pc|]; try reflexivity).
  Qed.

  Lemma not_legacy_b : forall body, not_legacy body -> is_legacy_b body = false.
  Proof.
    intros body H. unfold not_legacy in H. rewrite legacy_match in H. destruct (is_legacy_b body); [contradiction|reflexivity].
  Qed.

  (* every case of the two endpoints for one poll, without side conditions: the AMP endpoint never looks at the size
     or the first byte; the POST endpoint refuses bodies over the limit and sends '{'-leading bodies to the legacy shim *)
  Lemma amp_post_cases : forall p body,
    decode_path p = POk body ->
    let post := post_handler client_offers legacy_post body in
    let ampr := amp_handler client_offers armor decode_error_response (AMP_ROUTE ++ p) in
    ampr = match client_offers body with
           | Some r => {| h_status := 200; h_body := armor r |}
           | None => {| h_status := 500; h_body := [] |}
           end /\
    (BROKER_READ_LIMIT < N.of_nat (length body) -> post = {| h_status := 400; h_body := [] |}) /\
    (N.of_nat (length body) <= BROKER_READ_LIMIT -> is_legacy_b body = true -> post = legacy_post body) /\
    (N.of_nat (length body) <= BROKER_READ_LIMIT -> is_legacy_b body = false ->
       post = match client_offers body with
              | Some r => {| h_status := 200; h_body := r |}
              | None => {| h_status := 500; h_body := [] |}
              end).
  Proof.
    intros p body Hd post ampr. subst post ampr. unfold amp_handler, post_handler. rewrite strip_prefix_app, Hd, legacy_match.
    split; [reflexivity|]. split; [|split].
    - intros H. apply N.ltb_lt in H. rewrite H. reflexivity.
    - intros H L. apply N.ltb_ge in H. rewrite H, L. reflexivity.
    - intros H L. apply N.ltb_ge in H. rewrite H, L. reflexivity.
  Qed.

  Lemma amp_equals_post : forall p body,
    decode_path p = POk body ->
    not_legacy body ->
    N.of_nat (length body) <= BROKER_READ_LIMIT ->
    let post := post_handler client_offers legacy_post body in
    let ampr := amp_handler client_offers armor decode_error_response (AMP_ROUTE ++ p) in
    (h_status post = 200 /\ ampr = {| h_status := 200; h_body := armor (h_body post) |}) \/
    (h_status post = 500 /\ ampr = {| h_status := 500; h_body := [] |}).
  Proof.
    intros p body Hd Hn Hl post ampr. destruct (amp_post_cases p body Hd) as (A & _ & _ & P).
    subst post ampr. rewrite A, (P Hl (not_legacy_b body Hn)).
    destruct (client_offers body); [left|right]; split; reflexivity.
  Qed.

  Lemma amp_equals_post_encoded : forall pad body,
    wf_bytes body -> not_legacy body -> N.of_nat (length body) <= BROKER_READ_LIMIT ->
    let post := post_handler client_offers legacy_post body in
    let ampr := amp_handler client_offers armor decode_error_response (AMP_ROUTE ++ encode_path_with_pad pad body) in
    (h_status post = 200 /\ ampr = {| h_status := 200; h_body := armor (h_body post) |}) \/
    (h_status post = 500 /\ ampr = {| h_status := 500; h_body := [] |}).
  Proof. intros. apply amp_equals_post; auto. apply path_roundtrip. assumption. Qed.

  (* an undecodable path is answered with the armored error response, status 200 *)
  Lemma amp_undecodable : forall p e r,
    decode_path p = PErr e -> decode_error_response = Some r ->
    amp_handler client_offers armor decode_error_response (AMP_ROUTE ++ p) = {| h_status := 200; h_body := armor r |}.
  Proof. intros p e r Hd Hr. unfold amp_handler. rewrite strip_prefix_app, Hd, Hr. reflexivity. Qed.
End Broker.

Section EndToEnd.
  Variable to_unicode : bytes -> option bytes.
  Variable to_ascii : bytes -> option bytes.
  Variable sha256 : bytes -> bytes.
  Variable h34 : bytes -> bool.

  Lemma u_encode_nonempty : forall d, d <> [] -> u_encode d <> [].
  Proof. intros [|a [|b [|c r]]] H; try congruence; cbn [u_encode]; discriminate. Qed.

  Lemma dot_not_in_alphabet : ~ in_alphabet DOTC.
  Proof. unfold in_alphabet. vm_compute. congruence. Qed.

  Lemma alphabet_noslash : forall s, Forall in_alphabet s -> ~ In SLASHC s.
  Proof. intros s F H. rewrite Forall_forall in F. apply (slash_not_in_alphabet (F _ H)). Qed.

  Lemma alphabet_seg_normal : forall s, s <> [] -> Forall in_alphabet s -> normal_seg s.
  Proof.
    intros s Hne F. repeat split; [exact Hne|apply alphabet_noslash, F| |];
      intros ->; apply dot_not_in_alphabet; inversion F; assumption.
  Qed.

  Lemma alphabet_nodot : forall s, Forall in_alphabet s -> nodot s.
  Proof. intros [|c s] F; [apply nodot_nil|apply normal_nodot, alphabet_seg_normal; [discriminate|exact F]]. Qed.

  (* the two segments of an encoded path *)
  Definition enc_seg1 (cb : bytes) : bytes := ZERO_CH :: u_encode cb.

  Lemma enc_seg1_normal : forall cb, normal_seg (enc_seg1 cb).
  Proof.
    intros cb. apply alphabet_seg_normal; [discriminate|].
    apply Forall_cons; [unfold in_alphabet; vm_compute; congruence|apply u_encode_alphabet].
  Qed.

  Lemma encode_path_segments : forall cb data,
    SLASHC :: encode_path cb data = abs_path [enc_seg1 cb; u_encode data].
  Proof.
    intros. unfold encode_path, encode_path_with_pad, abs_path, enc_seg1. cbn [flat_map app].
    rewrite app_nil_r. reflexivity.
  Qed.

  Definition amp_segs (cb data : bytes) : list bytes :=
    [bs "amp"%string; bs "client"%string; enc_seg1 cb; u_encode data].

  Lemma amp_segs_normal : forall cb data, data <> [] -> Forall normal_seg (amp_segs cb data).
  Proof.
    intros cb data H. unfold amp_segs. repeat apply Forall_cons; try apply Forall_nil.
    - apply normal_segb_ok. reflexivity.
    - apply normal_segb_ok. reflexivity.
    - apply enc_seg1_normal.
    - apply alphabet_seg_normal; [apply u_encode_nonempty; assumption|apply u_encode_alphabet].
  Qed.

  (* the last segment is empty for an empty poll *)
  Lemma amp_segs_okseg : forall cb data, Forall okseg (amp_segs cb data).
  Proof.
    intros cb data. unfold amp_segs. repeat apply Forall_cons; try apply Forall_nil.
    - apply normal_okseg, normal_segb_ok. reflexivity.
    - apply normal_okseg, normal_segb_ok. reflexivity.
    - apply normal_okseg, enc_seg1_normal.
    - split; [apply alphabet_nodot|apply alphabet_noslash]; apply u_encode_alphabet.
  Qed.

  Lemma abs_amp_segs : forall cb data, abs_path (amp_segs cb data) = AMP_ROUTE ++ encode_path cb data.
  Proof.
    intros. unfold abs_path, amp_segs, enc_seg1, encode_path, encode_path_with_pad. cbn [flat_map]. rewrite app_nil_r.
    reflexivity.
  Qed.

  Lemma split_abs_okseg : forall ms, Forall okseg ms -> split_on SLASHC (abs_path ms) = [] :: ms.
  Proof. intros ms F. apply (split_on_abs ms []). eapply Forall_impl; [|exact F]. intros a H. apply H. Qed.

  (* the relative reference of the AMP rendezvous, segment by segment *)
  Lemma split_amp_ref : forall cb data, split_on SLASHC (AMP_PREFIX ++ encode_path cb data) = amp_segs cb data.
  Proof.
    intros. pose proof (split_abs_okseg _ (amp_segs_okseg cb data)) as S. rewrite abs_amp_segs in S.
    change (AMP_ROUTE ++ encode_path cb data) with (SLASHC :: AMP_PREFIX ++ encode_path cb data) in S.
    rewrite split_on_cons_sep in S. exact (f_equal (@tl _) S).
  Qed.

  (* broker base path "/b1/…/bk/" (k >= 0) without dot segments: the AMP endpoint URL's path *)
  Lemma amp_pub_path : forall b bsegs cb data,
    Forall normal_seg bsegs ->
    b_epath b = abs_path bsegs ++ [SLASHC] ->
    p_epath (amp_pub_url b cb data) = abs_path (bsegs ++ amp_segs cb data).
  Proof.
    intros b bsegs cb data Fb Hb.
    assert (E : upto_last SLASHC (b_epath b) ++ AMP_PREFIX ++ encode_path cb data = abs_path (bsegs ++ amp_segs cb data))
      by (rewrite Hb, upto_last_snoc, abs_path_app, abs_amp_segs, <- app_assoc; reflexivity).
    unfold amp_pub_url. cbn [p_epath].
    change (AMP_PREFIX ++ encode_path cb data) with (97 :: (tl AMP_PREFIX ++ encode_path cb data)) in *.
    assert (Ok : Forall okseg (bsegs ++ amp_segs cb data))
      by (apply Forall_app; split; [eapply Forall_impl; [apply normal_okseg|exact Fb]|apply amp_segs_okseg]).
    rewrite resolve_path_nodots.
    - unfold resolve_rel. rewrite E. destruct bsegs; reflexivity.
    - discriminate.
    - rewrite E, split_abs_okseg by exact Ok. apply Forall_cons; [apply nodot_nil|].
      eapply Forall_impl; [|exact Ok]. intros a H. apply H.
  Qed.

  Lemma amp_request_cache_path : forall b cu front cb data q,
    (c_epath cu = [] \/ exists cp, c_epath cu = SLASHC :: cp) ->
    b_hostname b <> [DOTC] -> b_hostname b <> [DOTC; DOTC] ->
    amp_request to_unicode to_ascii sha256 h34 b (Some cu) front cb data = Some q ->
    exists pre0,
      p_epath (amp_pub_url b cb data) = pre0 ++ SLASHC :: AMP_PREFIX ++ encode_path cb data /\
      q_path q = abs_path (clean_segs true (split_on SLASHC (c_epath cu)) [] ++ middle (amp_pub_url b cb data) ++
                           filter nonempty (split_on SLASHC pre0) ++ filter nonempty (amp_segs cb data)).
  Proof.
    intros b cu front cb data q Hc Hd1 Hd2 Hq. apply amp_request_cache_inv in Hq. destruct Hq as [Hh QP].
    pose proof (resolve_path_dotfree (b_epath b) (AMP_PREFIX ++ encode_path cb data)) as DF.
    assert (Fdd : Forall (fun s => is_dotdot s = false) (split_on SLASHC (p_epath (amp_pub_url b cb data))))
      by (eapply Forall_impl; [|exact DF]; intros a H; apply H).
    pose proof (cache_path_general (amp_pub_url b cb data) cu Hc Hh Hd1 Hd2 Fdd) as G.
    rewrite nodot_keep_nonempty in G by exact DF.
    destruct (resolve_path_keeps_ref (b_epath b) 97 (tl AMP_PREFIX ++ encode_path cb data)) as [pre0 Hp];
      change (97 :: (tl AMP_PREFIX ++ encode_path cb data)) with (AMP_PREFIX ++ encode_path cb data) in *.
    { discriminate. }
    { rewrite split_amp_ref. eapply Forall_impl; [|apply amp_segs_okseg]. intros a H. apply H. }
    exists pre0. split; [exact Hp|].
    rewrite QP, G. cbn [amp_pub_url p_epath]. rewrite Hp, split_on_app, filter_app, split_amp_ref. reflexivity.
  Qed.

  (* no input loses the poll: whatever the broker URL's path and the cache URL's path, the request path ends in the
     broker's AMP route followed by the encoded poll; of the broker's own path only empty segments disappear
     (ResolveReference has already resolved its dot segments), of the cache's path what path.Clean removes *)
  Lemma amp_cache_end_to_end_general : forall b cu front cb data q,
    wf_bytes data -> data <> [] ->
    (c_epath cu = [] \/ exists cp, c_epath cu = SLASHC :: cp) ->
    b_hostname b <> [DOTC] -> b_hostname b <> [DOTC; DOTC] ->
    amp_request to_unicode to_ascii sha256 h34 b (Some cu) front cb data = Some q ->
    q_path q = abs_path (clean_segs true (split_on SLASHC (c_epath cu)) [] ++ middle (amp_pub_url b cb data) ++
                         filter nonempty (split_on SLASHC (p_epath (amp_pub_url b cb data)))) /\
    Forall nodot (split_on SLASHC (p_epath (amp_pub_url b cb data))) /\
    (exists pre, q_path q = pre ++ AMP_ROUTE ++ encode_path cb data) /\
    decode_path (encode_path cb data) = POk data.
  Proof.
    intros b cu front cb data q W Hne Hc Hd1 Hd2 Hq.
    destruct (amp_request_cache_path b cu front cb data q Hc Hd1 Hd2 Hq) as [pre0 [Hp P]].
    split; [|split; [apply resolve_path_dotfree|split]].
    - rewrite P, Hp. rewrite split_on_app, filter_app, split_amp_ref. reflexivity.
    - rewrite P, (filter_nonempty_normal (amp_segs cb data)) by (apply amp_segs_normal; assumption).
      exists (abs_path (clean_segs true (split_on SLASHC (c_epath cu)) [] ++ middle (amp_pub_url b cb data) ++ filter nonempty (split_on SLASHC pre0))).
      rewrite <- abs_amp_segs, <- abs_path_app, <- !app_assoc. reflexivity.
    - apply path_roundtrip_encoder. assumption.
  Qed.

  (* Through an AMP cache, for a broker base path /b1/…/bk/ and a cache path /c1/…/cm[/] without empty or dot segments,
     nothing is cleaned away: the request path is
       /<cache path>/c[/s]/<broker host>/<broker path>/amp/client/0<pad>/<base64url(poll)>. *)
  Lemma amp_cache_end_to_end : forall b cu csegs bsegs (trailing : bool) front cb data q,
    wf_bytes data -> data <> [] ->
    Forall normal_seg csegs -> Forall normal_seg bsegs ->
    c_epath cu = abs_path csegs ++ (if trailing then [SLASHC] else []) ->
    b_epath b = abs_path bsegs ++ [SLASHC] ->
    b_hostname b <> [DOTC] -> b_hostname b <> [DOTC; DOTC] ->
    amp_request to_unicode to_ascii sha256 h34 b (Some cu) front cb data = Some q ->
    q_path q = abs_path (csegs ++ middle (amp_pub_url b cb data) ++ bsegs ++ amp_segs cb data) /\
    (exists pre, q_path q = pre ++ AMP_ROUTE ++ encode_path cb data) /\
    decode_path (encode_path cb data) = POk data.
  Proof.
    intros b cu csegs bsegs trailing front cb data q W Hne Fc Fb Hc Hb Hd1 Hd2 Hq.
    assert (Hr : c_epath cu = [] \/ exists cp, c_epath cu = SLASHC :: cp) by (rewrite Hc; apply abs_trailing_rooted).
    destruct (amp_cache_end_to_end_general b cu front cb data q W Hne Hr Hd1 Hd2 Hq) as (P & _ & S & D).
    split; [|split; assumption].
    assert (Fp : Forall normal_seg (bsegs ++ amp_segs cb data))
      by (apply Forall_app; split; [assumption|apply amp_segs_normal; assumption]).
    rewrite P, Hc, clean_abs_normal, (amp_pub_path b bsegs cb data Fb Hb) by exact Fc.
    rewrite split_abs_okseg by (eapply Forall_impl; [apply normal_okseg|exact Fp]).
    cbn [filter]. change (nonempty []) with false. cbv iota. rewrite filter_nonempty_normal by exact Fp. reflexivity.
  Qed.

  (* the one input whose encoded path does not survive an AMP cache: the empty poll. Its path ends in "/", the empty last
     segment is removed by path.Join inside CacheURL, and what is left after the broker's route has no slash at all:
     the broker answers "missing data". (By design - see cache_test.go; a client poll is never empty.) *)
  Lemma amp_cache_empty_poll : forall b cu front cb q,
    (c_epath cu = [] \/ exists cp, c_epath cu = SLASHC :: cp) ->
    b_hostname b <> [DOTC] -> b_hostname b <> [DOTC; DOTC] ->
    amp_request to_unicode to_ascii sha256 h34 b (Some cu) front cb [] = Some q ->
    (exists pre, q_path q = pre ++ AMP_ROUTE ++ enc_seg1 cb) /\ decode_path (enc_seg1 cb) = PErr MissingData /\
    decode_path (encode_path cb []) = POk [].
  Proof.
    intros b cu front cb q Hc Hd1 Hd2 Hq.
    destruct (amp_request_cache_path b cu front cb [] q Hc Hd1 Hd2 Hq) as [pre0 [Hp P]].
    split; [|split].
    - rewrite P.
      exists (abs_path (clean_segs true (split_on SLASHC (c_epath cu)) [] ++ middle (amp_pub_url b cb []) ++ filter nonempty (split_on SLASHC pre0))).
      rewrite !abs_path_app, <- !app_assoc. do 3 f_equal. cbn. rewrite app_nil_r. reflexivity.
    - apply decode_path_nodata, alphabet_noslash, u_encode_alphabet.
    - apply path_roundtrip_encoder. apply Forall_nil.
  Qed.
End EndToEnd.
