(* ArmorMarkupProofs.v — markup added outside the pre elements; error classes. *)
From Coq Require Import List NArith Lia Bool Arith.
From Snow Require Import Lib.Wire Model.Base64 Model.Armor Proofs.ArmorDecProofs.
Import ListNotations.
Open Scope N_scope.

(* frame: the automaton only ever pushes onto out_rev *)
Definition addo (s : dst) (o : list bytes) : dst :=
  {| tkz := tkz s; active := active s; out_rev := out_rev s ++ o; halt := halt s |}.

Lemma apply_frame : forall t a x o ts, apply_toks t a (x ++ o) ts = addo (apply_toks t a x ts) o.
Proof.
  intros. unfold apply_toks, addo. cbn [tkz active out_rev halt].
  rewrite !rev_append_rev, app_assoc. reflexivity.
Qed.

Lemma step_frame : forall s o c, step (addo s o) c = addo (step s c) o.
Proof.
  intros [t a x h] o c. unfold step, addo. cbn [tkz active out_rev halt].
  destruct h; [reflexivity|]. destruct (tk_step t c) as [t' ts]. apply (apply_frame t' a x o ts).
Qed.

Lemma run_frame : forall l s o, run (addo s o) l = addo (run s l) o.
Proof.
  induction l as [|c l IH]; intros s o; [reflexivity|].
  rewrite !run_cons. rewrite step_frame. apply IH.
Qed.

(* [m] read from the state "just after a complete tag or comment, outside every pre element"
   returns to that state having handed nothing to the decoder *)
Definition neutral (m : bytes) : Prop := forall o, run (mk MTxt 0 false o) m = mk MTxt 0 false o.

Definition dst_quiet0 (s : dst) : bool :=
  match halt s, out_rev s, tmd (tkz s), tbuf (tkz s) with
  | None, [], MTxt, [] => (tcnt (tkz s) =? 0) && negb (active s)
  | _, _, _, _ => false
  end.

Definition neutralb (m : bytes) : bool := dst_quiet0 (run (mk MTxt 0 false []) m).

Definition quiet (s : dst) : Prop := halt s = None /\ active s = false /\ md s = MTxt.

(* outside pre the text token being read will be dropped: two states that differ only in its data and in
   the count have the same future, as long as neither count reaches the buffer limit before that token ends *)
Definition tsim (s s' : dst) : Prop :=
  halt s = None /\ halt s' = None /\ active s = false /\ active s' = false /\ out_rev s = out_rev s' /\
  md s = md s' /\ (md s = MTxt \/ md s = MLt).

Definition starts_tok (c : N) : bool := is_letter c || (c =? SLASH) || (c =? BANG) || (c =? QMARK).
(* how many more bytes of [b] are read into a text token that is being read (lt: after a '<') *)
Fixpoint tlen (lt : bool) (b : bytes) : N :=
  match b with
  | [] => 0
  | c :: b' =>
      if lt && starts_tok c then 1
      else 1 + tlen (c =? LT) b'
  end.

Lemma apply_inactive_flush : forall t tb o, apply_toks t false o (flush KText tb) = st t false o.
Proof. exact apply_flush_inactive. Qed.

Lemma tsim_step : forall s s' c, tsim s s' -> cnt s + 1 < MAXBUF -> cnt s' + 1 < MAXBUF ->
  step s c = step s' c \/
  (tsim (step s c) (step s' c) /\ cnt (step s c) = cnt s + 1 /\ cnt (step s' c) = cnt s' + 1 /\
   md (step s c) = (if negb (c =? LT) then MTxt else MLt) /\ (md s = MLt -> starts_tok c = false)).
Proof.
  intros [[m n tb] a o h] [[m' n' tb'] a' o' h'] c (H1 & H2 & H3 & H4 & H5 & H6 & H7) Hn Hn'.
  unfold md, cnt in *. cbn [tkz tmd tcnt tbuf active out_rev halt] in *. subst h h' a a' o' m'.
  unfold step. cbn [halt tkz active out_rev]. fold (tk m n tb) (tk m n' tb').
  destruct H7 as [-> | ->].
  - rewrite !tk_step_txt by assumption.
    right. unfold txt_on. destruct (c =? LT); cbn [negb];
      (split; [repeat split; cbn; auto|]); cbn; repeat split; try reflexivity; intros; discriminate.
  - rewrite !tk_step_lt by assumption. unfold starts_tok.
    destruct (is_letter c); [left; rewrite !apply_flush_inactive; reflexivity|].
    destruct (c =? SLASH); [left; rewrite !apply_flush_inactive; reflexivity|].
    destruct (c =? BANG); [left; rewrite !apply_flush_inactive; reflexivity|].
    destruct (c =? QMARK); [left; rewrite !apply_flush_inactive; reflexivity|].
    right. unfold txt_on. destruct (c =? LT); cbn [negb];
      (split; [repeat split; cbn; auto|]); cbn; repeat split; reflexivity.
Qed.

Lemma dw_flush_eof_inactive : forall k tb,
  dw_toks false (flush k tb ++ [TkEOF]) = {| w_act := false; w_words := []; w_end := Some TEnd |}.
Proof. intros k [|c tb]; reflexivity. Qed.

Lemma tsim_finish : forall s s', tsim s s' -> finish s = finish s'.
Proof.
  intros [[m n tb] a o h] [[m' n' tb'] a' o' h'] (H1 & H2 & H3 & H4 & H5 & H6 & H7).
  unfold md in *. cbn [tkz tmd tcnt tbuf active out_rev halt] in *. subst h h' a a' o' m'.
  unfold finish. cbn [halt tkz active out_rev]. unfold tk_fin. cbn [tmd tbuf].
  destruct H7 as [-> | ->]; cbn [is_text_mode kind_of pending push rev_append];
    unfold apply_toks; rewrite !dw_flush_eof_inactive; reflexivity.
Qed.

Lemma tsim_run : forall b s s', tsim s s' ->
  cnt s + tlen (match md s with MLt => true | _ => false end) b < MAXBUF ->
  cnt s' + tlen (match md s with MLt => true | _ => false end) b < MAXBUF ->
  finish (run s b) = finish (run s' b).
Proof.
  induction b as [|c b IH]; intros s s' Hs Hn Hn'.
  - apply tsim_finish. exact Hs.
  - rewrite !run_cons.
    assert (Hlen : 1 <= tlen (match md s with MLt => true | _ => false end) (c :: b)).
    { cbn [tlen]. destruct (_ && _); lia. }
    destruct (tsim_step s s' c Hs ltac:(lia) ltac:(lia)) as [E | (Hs' & C1 & C2 & M & St)].
    + rewrite E. reflexivity.
    + assert (A : forall k, k + tlen (match md s with MLt => true | _ => false end) (c :: b) < MAXBUF ->
                  k + 1 + tlen (match (if negb (c =? LT) then MTxt else MLt) with MLt => true | _ => false end) b < MAXBUF).
      { intros k Hk. cbn [tlen] in Hk.
        destruct Hs as (_ & _ & _ & _ & _ & _ & [Hm|Hm]); rewrite Hm in *; cbn [andb] in Hk;
          [|rewrite (St eq_refl) in Hk]; destruct (c =? LT); cbn [negb]; lia. }
      apply IH; [exact Hs'|rewrite C1, M; apply A, Hn|rewrite C2, M; apply A, Hn'].
Qed.

Lemma quiet_tsim : forall s s', quiet s -> quiet s' -> out_rev s = out_rev s' -> tsim s s'.
Proof.
  intros s s' (A & B & C) (A' & B' & C') O. unfold tsim. rewrite C, C'. repeat split; auto.
Qed.

(* [m], read from text position [s] outside pre, hands nothing to the decoder and ends at a text
   position: then the rest of the document is decoded as if [m] were not there, provided the text token
   that is being read at the junction still fits the tokenizer's buffer *)
Lemma outside_any : forall a m b s s',
  run dinit a = s -> quiet s ->
  run s m = s' -> quiet s' -> out_rev s' = out_rev s ->
  cnt s + tlen false b < MAXBUF -> cnt s' + tlen false b < MAXBUF ->
  armor_decode (a ++ m ++ b) = armor_decode (a ++ b).
Proof.
  intros a m b s s' Ha Qs Hm Qs' Ho Hn Hn'. unfold armor_decode, armor_scan, armor_words_of.
  rewrite !run_app. rewrite Ha, Hm.
  assert (E : finish (run s' b) = finish (run s b)).
  { apply tsim_run.
    - apply quiet_tsim; assumption.
    - destruct Qs' as (_ & _ & ->). exact Hn'.
    - destruct Qs' as (_ & _ & ->). exact Hn. }
  rewrite E. reflexivity.
Qed.

(* decidable form: run [m] from count [n] with nothing buffered and nothing written *)
Definition neutral_atb (n : N) (m : bytes) : option N :=
  let s := run (mkb MTxt n [] false []) m in
  match halt s, out_rev s, tmd (tkz s) with
  | None, [], MTxt => if active s then None else Some (tcnt (tkz s))
  | _, _, _ => None
  end.

Lemma tsim_run_state : forall m s s', tsim s s' -> cnt s = cnt s' ->
  run s m = run s' m \/ (tsim (run s m) (run s' m) /\ cnt (run s m) = cnt (run s' m)) \/
  (is_err (run s m) /\ is_err (run s' m)).
Proof.
  induction m as [|c m IH]; intros s s' Hs Hc.
  - right. left. split; [exact Hs|exact Hc].
  - rewrite !run_cons. destruct (N.lt_ge_cases (cnt s + 1) MAXBUF) as [Hlt|Hge].
    + destruct (tsim_step s s' c Hs Hlt ltac:(lia)) as [E | (Hs' & C1 & C2 & _)].
      * left. rewrite E. reflexivity.
      * apply IH; [exact Hs'|lia].
    + right. right.
      destruct s as [[md0 n tb] a o h], s' as [[md0' n' tb'] a' o' h'].
      destruct Hs as (H1 & H2 & H3 & H4 & H5 & H6 & H7). unfold md, cnt in *.
      cbn [tkz tmd tcnt tbuf active out_rev halt] in *. subst.
      split; apply run_err; (apply step_over; [destruct H7 as [-> | ->]; reflexivity|lia]).
Qed.

(* the same run from any text position with that count: same count, nothing written *)
Lemma neutral_atb_sound : forall n m n', neutral_atb n m = Some n' ->
  forall s, quiet s -> cnt s = n ->
  quiet (run s m) /\ out_rev (run s m) = out_rev s /\ cnt (run s m) = n'.
Proof.
  intros n m n' H s Qs Hc. unfold neutral_atb in H.
  set (s0 := mkb MTxt n [] false []) in *.
  assert (Q0 : quiet (addo s0 (out_rev s))) by (repeat split).
  assert (T : tsim s (addo s0 (out_rev s))) by (apply quiet_tsim; [exact Qs|exact Q0|reflexivity]).
  assert (R0 : run (addo s0 (out_rev s)) m = addo (run s0 m) (out_rev s)) by apply run_frame.
  destruct (run s0 m) as [[md1 n1 tb1] a1 o1 h1] eqn:E1. cbn [tkz tmd tcnt tbuf active out_rev halt] in H.
  destruct h1; try discriminate. destruct o1; try discriminate. destruct md1; try discriminate.
  destruct a1; try discriminate. injection H as <-.
  assert (Q1 : quiet (run (addo s0 (out_rev s)) m) /\ out_rev (run (addo s0 (out_rev s)) m) = out_rev s /\
               cnt (run (addo s0 (out_rev s)) m) = n1).
  { rewrite R0. unfold addo, quiet, md, cnt. cbn. repeat split. }
  destruct (tsim_run_state m s (addo s0 (out_rev s)) T ltac:(rewrite Hc; reflexivity)) as [E | [(T' & C') | (_ & [e He])]].
  - rewrite E. exact Q1.
  - destruct Q1 as ((_ & _ & Qm) & Qo & Qc). destruct T' as (A1 & _ & A3 & _ & A5 & A6 & _).
    repeat split; try assumption; congruence.
  - exfalso. destruct Q1 as ((Qh & _) & _). congruence.
Qed.

Definition end_class (t : tend) : Prop :=
  t = TEnd \/ t = TErr EStray \/ t = TErr ENested \/ t = TErr EUnterminated \/ t = TErr EOversize \/ t = TErr ETooLong.

Lemma dw_tok_class : forall a t e, w_end (dw_tok a t) = Some e -> end_class e.
Proof.
  intros a t e H. unfold end_class. destruct t; cbn [dw_tok] in H.
  - destruct a; [|discriminate]. destruct (cut_long _) as [ws [|]]; cbn in H; [|discriminate].
    injection H as <-. auto 10.
  - destruct (beq name PRE); [|discriminate]. destruct a; [|discriminate]. injection H as <-. auto 10.
  - destruct (beq name PRE); [|discriminate]. destruct a; [discriminate|]. injection H as <-. auto 10.
  - discriminate.
  - destruct a; injection H as <-; auto 10.
  - injection H as <-. auto 10.
Qed.

Lemma dw_toks_class : forall ts a e, w_end (dw_toks a ts) = Some e -> end_class e.
Proof.
  induction ts as [|t ts IH]; intros a e H; [discriminate|].
  cbn [dw_toks] in H. destruct (w_end (dw_tok a t)) eqn:E.
  - rewrite E in H. injection H as <-. eapply dw_tok_class; exact E.
  - cbn [w_end] in H. eapply IH; exact H.
Qed.

Definition halt_ok (s : dst) : Prop := match halt s with Some e => end_class e | None => True end.

Lemma step_ok : forall s c, halt_ok s -> halt_ok (step s c).
Proof.
  intros [t a x h] c H. unfold step. cbn [halt tkz active out_rev]. destruct h; [exact H|].
  destruct (tk_step t c) as [t' ts]. unfold halt_ok, apply_toks. cbn [halt].
  destruct (w_end (dw_toks a ts)) eqn:E; [|exact I]. eapply dw_toks_class; exact E.
Qed.

Lemma run_ok : forall l s, halt_ok s -> halt_ok (run s l).
Proof. induction l as [|c l IH]; intros s H; [exact H|]. rewrite run_cons. apply IH, step_ok, H. Qed.

Lemma finish_class : forall s, halt_ok s -> end_class (snd (finish s)).
Proof.
  intros [t a x h] H. unfold finish. cbn [halt tkz active out_rev]. destruct h; [exact H|].
  cbn [snd]. unfold apply_toks. cbn [halt].
  destruct (w_end (dw_toks a (tk_fin t))) eqn:E; [eapply dw_toks_class; exact E|].
  unfold end_class. auto 10.
Qed.

Lemma scan_end_class : forall doc, end_class (snd (armor_scan doc)).
Proof.
  intros doc. unfold armor_scan, armor_words_of.
  pose proof (finish_class (run dinit doc) (run_ok doc dinit I)) as H.
  destruct (finish (run dinit doc)) as [ws e]. exact H.
Qed.

Lemma decode_classes : forall doc,
  let out := fst (armor_scan doc) in
  let t := snd (armor_scan doc) in
  end_class t /\
  match armor_decode doc with
  | DOk d => t = TEnd /\ exists body, out = VERSION :: body /\ b64_decode_seq body = (d, B64Clean)
  | DErr EEmpty => out = [] /\ t = TEnd
  | DErr EUnknownVersion => exists v body, out = v :: body /\ v <> VERSION
  | DErr EBadBase64 =>
      exists body, out = VERSION :: body /\
        (snd (b64_decode_seq body) = B64Corrupt \/ (snd (b64_decode_seq body) = B64Partial /\ t = TEnd))
  | DErr e =>
      t = TErr e /\
      (out = [] \/ exists body, out = VERSION :: body /\ snd (b64_decode_seq body) <> B64Corrupt)
  end.
Proof.
  intros doc. cbv zeta. split; [apply scan_end_class|].
  pose proof (scan_end_class doc) as C. unfold armor_decode.
  destruct (armor_scan doc) as [out t]. cbn [fst snd] in *. unfold decode_result.
  destruct out as [|v body].
  - destruct C as [ -> | [ -> | [ -> | [ -> | [ -> | -> ] ] ] ] ]; auto.
  - destruct (N.eqb_spec v VERSION) as [->|Hv]; cbn [negb].
    + destruct (b64_decode_seq body) as [d ev] eqn:Eb.
      assert (Hs : snd (b64_decode_seq body) = ev) by (rewrite Eb; reflexivity).
      destruct ev.
      * (* every quantum decoded: the data at a clean end, else the error of the token stream *)
        destruct C as [ -> | C ]; [split; [reflexivity|exists body; split; [reflexivity|exact Eb]]|].
        destruct C as [ -> | [ -> | [ -> | [ -> | -> ] ] ] ];
          (split; [reflexivity|right; exists body; split; [reflexivity|rewrite Hs; discriminate]]).
      * (* characters left over: bad base64 at a clean end, else the error of the token stream *)
        destruct C as [ -> | C ]; [exists body; split; [reflexivity|right; split; [exact Hs|reflexivity]]|].
        destruct C as [ -> | [ -> | [ -> | [ -> | -> ] ] ] ];
          (split; [reflexivity|right; exists body; split; [reflexivity|rewrite Hs; discriminate]]).
      * (* a corrupt quantum wins over the way the token stream ended *)
        exists body. split; [reflexivity|left; exact Hs].
    + exists v, body. auto.
Qed.
