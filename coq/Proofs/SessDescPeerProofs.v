(* SessDescPeerProofs.v — Model/SessDescPeer.v (C13): under the library contract the step-by-step model of
   remoteIPFromSDP computes [remote_ip] of Model/SdpStrip.v on the erased input, hence never panics; without either
   check of the code there is an input on which it does. *)
From Coq Require Import List NArith Bool Lia Arith.
From Snow Require Import Model.IpClass Model.SdpStrip Model.SessDescPeer.
From Snow Require Import Proofs.SdpStripProofs.
Import ListNotations.
Open Scope N_scope.

(* a text pion/sdp rejects never reaches any partial operation, whatever the other libraries would do *)
Lemma remote_ip_code_unparsable : forall g caps, remote_ip_g g None caps = PVal None.
Proof. reflexivity. Qed.

Lemma first_remote_app : forall l1 l2,
  first_remote (l1 ++ l2) = match first_remote l1 with Some ip => Some ip | None => first_remote l2 end.
Proof.
  induction l1 as [|a l1 IH]; intros l2; cbn [app first_remote]; [reflexivity|].
  destruct (a_class a) as [t addr| |]; try apply IH.
  destruct addr as [ip|]; [|apply IH]. destruct (negb (bad_addr ip)); [reflexivity|apply IH].
Qed.

Lemma scan_attrs_erase : forall l, forallb pattr_ok l = true ->
  scan_attrs CODE l = option_map (fun ip => PVal (Some ip)) (first_remote (map erase_attr l)).
Proof.
  induction l as [|a l IH]; intros Hok; cbn [scan_attrs map first_remote]; [reflexivity|].
  cbn [forallb] in Hok. apply andb_true_iff in Hok. destruct Hok as [Ha Hl]. specialize (IH Hl).
  destruct a as [[c err]|]; cbn [erase_attr a_class]; [|exact IH].
  cbn [CODE g_err andb uc_err uc_c]. destruct err.
  - destruct c as [[t addr]|]; cbn [a_class]; exact IH.
  - cbn [pattr_ok] in Ha. unfold ucand_ok in Ha. cbn [uc_err uc_c orb] in Ha.
    destruct c as [[t addr]|]; [|discriminate]. cbn [a_class].
    destruct addr as [ip|]; [|exact IH]. destruct (negb (bad_addr ip)); [reflexivity|exact IH].
Qed.

Lemma scan_media_erase : forall ms, forallb pmedia_ok ms = true ->
  scan_media CODE ms = option_map (fun ip => PVal (Some ip)) (first_remote (concat (map erase_media ms))).
Proof.
  induction ms as [|m ms IH]; intros Hok; cbn [scan_media map concat]; [reflexivity|].
  cbn [forallb] in Hok. apply andb_true_iff in Hok. destruct Hok as [Hm Hms]. specialize (IH Hms).
  destruct m as [attrs|]; [|discriminate]. cbn [pmedia_ok] in Hm. cbn [erase_media].
  rewrite first_remote_app, (scan_attrs_erase attrs Hm).
  destruct (first_remote (map erase_attr attrs)); cbn [option_map]; [reflexivity|exact IH].
Qed.

Lemma scan_patterns_erase : forall caps, forallb submatch_ok caps = true ->
  scan_patterns CODE caps = PVal (first_remote_pattern (map erase_cap caps)).
Proof.
  induction caps as [|c caps IH]; intros Hok; cbn [scan_patterns map first_remote_pattern]; [reflexivity|].
  cbn [forallb] in Hok. apply andb_true_iff in Hok. destruct Hok as [Hc Hcaps]. specialize (IH Hcaps).
  destruct c as [|l]; cbn [erase_cap]; [cbn [CODE g_match]; exact IH|].
  cbn [submatch_ok] in Hc. apply Nat.eqb_eq in Hc.
  destruct l as [|x0 [|x1 l']]; cbn [List.length] in Hc; try lia. cbn [nth_error].
  destruct x1 as [ip|]; [|exact IH]. destruct (negb (bad_addr ip)); [reflexivity|exact IH].
Qed.

(* under the contract the fine model computes exactly the coarse one *)
Lemma remote_ip_code_refines : forall parsed caps, lib_contract parsed caps = true ->
  remote_ip_code parsed caps = PVal (remote_ip (erase parsed) (map erase_cap caps)).
Proof.
  intros parsed caps Hc. unfold lib_contract in Hc. apply andb_true_iff in Hc. destruct Hc as [Hp Hcaps].
  unfold remote_ip_code, remote_ip_g, remote_ip, erase. destruct parsed as [ms|]; cbn [option_map]; [|reflexivity].
  rewrite (scan_media_erase ms Hp). destruct (first_remote (concat (map erase_media ms))); cbn [option_map]; [reflexivity|].
  apply (scan_patterns_erase caps Hcaps).
Qed.

(* Panic is unreachable for every input the libraries can produce *)
Lemma remote_ip_code_never_panics : forall parsed caps,
  lib_contract parsed caps = true -> forall w, remote_ip_code parsed caps <> PPanic w.
Proof. intros parsed caps Hc w. rewrite (remote_ip_code_refines parsed caps Hc). discriminate. Qed.

(* value or nil, never a panic, and a returned address is never local / unspecified / loopback *)
Lemma remote_ip_code_total : forall parsed caps, lib_contract parsed caps = true ->
  remote_ip_code parsed caps = PVal None
  \/ exists ip, remote_ip_code parsed caps = PVal (Some ip)
       /\ is_local ip = false /\ is_unspecified ip = false /\ is_loopback ip = false.
Proof.
  intros parsed caps Hc. rewrite (remote_ip_code_refines parsed caps Hc).
  destruct (remote_ip_total (erase parsed) (map erase_cap caps)) as [E|[ip [E H]]]; rewrite E.
  - left. reflexivity.
  - right. exists ip. split; [reflexivity|exact H].
Qed.

(* the checks are what makes it so:
   without either of them there is an input, allowed by the contract, on which the function panics *)

Lemma err_check_needed :
  let parsed := Some [Some [PCand (mkUcand None true)]] in
  lib_contract parsed [] = true
  /\ remote_ip_g (mkGuards false true) parsed [] = PPanic WNilCandidate
  /\ remote_ip_code parsed [] = PVal None.
Proof. repeat split; reflexivity. Qed.

Lemma match_check_needed :
  lib_contract (Some []) [SNil] = true
  /\ remote_ip_g (mkGuards true false) (Some []) [SNil] = PPanic WIndex
  /\ remote_ip_code (Some []) [SNil] = PVal None.
Proof. repeat split; reflexivity. Qed.

Lemma remote_addr_needs_remote_description : remote_addr None = APanicNoRemote.
Proof. reflexivity. Qed.
