(* RendezvousPathProofs.v — C11, the path clauses for ALL paths (dot and empty segments included):
   url.ResolveReference's path resolution as the rendezvous code uses it (Model/Rendezvous.v resolve_path) and
   path.Join/Clean inside amp.CacheURL (Model/CacheURL.v path_join) on arbitrary segment lists. *)
From Coq Require Import List NArith Bool String.
From Snow Require Import Lib.Wire Lib.WireFacts Model.CacheURL Model.Rendezvous.
From Snow Require Import Proofs.CacheURLProofs.
Import ListNotations.
Open Scope N_scope.

Definition nodot (e : bytes) : Prop := is_dot e = false /\ is_dotdot e = false.

Lemma rp_stack_nodots : forall elems st, Forall nodot elems -> rp_stack elems st = rev elems ++ st.
Proof.
  induction elems as [|e r IH]; intros st F; [reflexivity|]. inversion F as [|? ? [H1 H2] F']; subst.
  cbn [rp_stack]. rewrite H1, H2, IH by assumption. cbn [rev]. rewrite <- app_assoc. reflexivity.
Qed.

Lemma rp_stack_app : forall a b st, rp_stack (a ++ b) st = rp_stack b (rp_stack a st).
Proof.
  induction a as [|e a IH]; intros b st; [reflexivity|]. cbn [app rp_stack].
  destruct (is_dot e); [apply IH|]. destruct (is_dotdot e); apply IH.
Qed.

Lemma last_is_dots_app : forall a b, b <> [] -> last_is_dots (a ++ b) = last_is_dots b.
Proof.
  intros a b H. unfold last_is_dots. rewrite rev_app_distr.
  destruct (rev b) eqn:E; [|reflexivity]. apply (f_equal (@rev _)) in E. rewrite rev_involutive in E. contradiction.
Qed.

Lemma last_is_dots_nodots : forall l, Forall nodot l -> last_is_dots l = false.
Proof.
  intros l F. apply Forall_rev in F. unfold last_is_dots. destruct F as [|e r [H1 H2] _]; [reflexivity|].
  rewrite H1, H2. reflexivity.
Qed.

Lemma nodot_nil : nodot [].
Proof. split; reflexivity. Qed.

Lemma upto_last_snoc : forall sep l, upto_last sep (l ++ [sep]) = l ++ [sep].
Proof.
  intros sep. induction l as [|c l IH]; cbn [app upto_last].
  - rewrite N.eqb_refl. reflexivity.
  - rewrite IH. destruct (l ++ [sep]) eqn:E; [destruct l; discriminate|reflexivity].
Qed.

Lemma upto_last_shape : forall sep l, upto_last sep l = [] \/ exists d, upto_last sep l = d ++ [sep].
Proof.
  intros sep. induction l as [|b l IH]; [left; reflexivity|]. cbn [upto_last].
  destruct IH as [->|[d ->]].
  - destruct (N.eqb_spec b sep) as [->|_]; [right; exists []|left]; reflexivity.
  - right. exists (b :: d). cbn [app]. destruct (d ++ [sep]) eqn:E; [destruct d; discriminate|reflexivity].
Qed.

(* a relative reference: the result is the joined stack (and the trailing slash after a final dot segment), with one
   slash in front unless it has one already *)
Lemma resolve_path_rel : forall base c ref, c <> SLASHC ->
  let elems := split_on SLASHC (upto_last SLASHC base ++ c :: ref) in
  let z := join [SLASHC] (rev (rp_stack elems [])) ++ (if last_is_dots elems then [SLASHC] else []) in
  z <> [] -> resolve_path base (c :: ref) = lead_slash z.
Proof.
  intros base c ref Hc. cbv zeta. unfold resolve_path. apply N.eqb_neq in Hc. rewrite Hc.
  assert (Hf : upto_last SLASHC base ++ c :: ref <> []) by (destruct (upto_last SLASHC base); discriminate).
  generalize dependent (upto_last SLASHC base ++ c :: ref). intros [|f0 f'] Hf; [congruence|].
  destruct (_ ++ _) as [|z0 z']; [congruence|]. intros _.
  unfold lead_slash. cbn [tl]. destruct (z0 =? SLASHC); reflexivity.
Qed.

(* for paths without dot segments it is resolve_rel: the directory of the base path followed by the reference *)
Lemma resolve_path_nodots : forall base c ref,
  c <> SLASHC ->
  Forall nodot (split_on SLASHC (upto_last SLASHC base ++ c :: ref)) ->
  resolve_path base (c :: ref) = resolve_rel base (c :: ref).
Proof.
  intros base c ref Hc F. pose proof (resolve_path_rel base c ref Hc) as R. cbv zeta in R.
  rewrite rp_stack_nodots, app_nil_r, rev_involutive, join_split, last_is_dots_nodots, app_nil_r in R by exact F.
  apply R. destruct (upto_last SLASHC base); discriminate.
Qed.

(* the stack only ever holds slash-free elements that are neither "." nor ".." *)
Definition okseg (e : bytes) : Prop := nodot e /\ ~ In SLASHC e.

Lemma rp_stack_ok : forall elems st, Forall (fun e => ~ In SLASHC e) elems -> Forall okseg st -> Forall okseg (rp_stack elems st).
Proof.
  induction elems as [|e r IH]; intros st Fe Fs; [assumption|]. inversion Fe as [|? ? He Fe']; subst. cbn [rp_stack].
  destruct (is_dot e) eqn:D1.
  - apply IH; [assumption|]. destruct st; [|assumption]. apply Forall_cons; [|apply Forall_nil]. split; [apply nodot_nil|intros []].
  - destruct (is_dotdot e) eqn:D2.
    + apply IH; [assumption|]. destruct st as [|a [|b st']]; try apply Forall_nil. inversion Fs; assumption.
    + apply IH; [assumption|]. apply Forall_cons; [|assumption]. split; [split; assumption|assumption].
Qed.

Lemma nodot_empty_path sep : Forall nodot (split_on sep []).
Proof. apply Forall_cons; [apply nodot_nil|apply Forall_nil]. Qed.

Lemma split_join_okseg : forall l, Forall okseg l -> Forall nodot (split_on SLASHC (join [SLASHC] l)).
Proof.
  intros [|x xs] F; [apply nodot_empty_path|].
  rewrite split_join; [|discriminate|]; eapply Forall_impl; try exact F; intros a [H1 H2]; assumption.
Qed.

(* url.ResolveReference never leaves a dot segment in the path, whatever the base path and the reference *)
Theorem resolve_path_dotfree : forall base ref, Forall nodot (split_on SLASHC (resolve_path base ref)).
Proof.
  intros base ref. unfold resolve_path.
  destruct (match ref with [] => base | c :: _ => if c =? SLASHC then ref else upto_last SLASHC base ++ ref end)
    as [|f0 full']; [apply nodot_empty_path|].
  set (elems := split_on SLASHC (f0 :: full')).
  assert (Fj : Forall nodot (split_on SLASHC (join [SLASHC] (rev (rp_stack elems [])))))
    by (apply split_join_okseg, Forall_rev, rp_stack_ok; [apply split_on_elems|apply Forall_nil]).
  (* all segments of "/" ++ join ++ trailing slash *)
  assert (Fr : Forall nodot (split_on SLASHC (SLASHC :: join [SLASHC] (rev (rp_stack elems [])) ++
                                              (if last_is_dots elems then [SLASHC] else [])))).
  { rewrite split_on_cons_sep. apply Forall_cons; [apply nodot_nil|].
    destruct (last_is_dots elems); [|rewrite app_nil_r; exact Fj].
    rewrite split_on_app. apply Forall_app. split; [exact Fj|apply nodot_empty_path]. }
  (* a doubled slash in front loses its first, empty, segment *)
  destruct (join [SLASHC] (rev (rp_stack elems [])) ++ _) as [|c1 x']; [exact Fr|].
  destruct (N.eqb_spec c1 SLASHC) as [->|_]; [|exact Fr]. cbn [tl].
  rewrite split_on_cons_sep in Fr. inversion Fr; assumption.
Qed.

Lemma lead_slash_suffix : forall j y, exists p, lead_slash (j ++ SLASHC :: y) = p ++ SLASHC :: y.
Proof.
  intros [|k ks] y; [exists []; reflexivity|]. cbn [app]. unfold lead_slash.
  destruct (k =? SLASHC); [exists (k :: ks)|exists (SLASHC :: k :: ks)]; reflexivity.
Qed.

(* the elements of the reference are the last segments of the result when the reference has no dot segments of its own:
   nothing that follows can pop them *)
Lemma resolve_path_keeps_ref : forall base c ref,
  c <> SLASHC -> Forall nodot (split_on SLASHC (c :: ref)) ->
  exists pre, resolve_path base (c :: ref) = pre ++ SLASHC :: c :: ref.
Proof.
  intros base c ref Hc F. pose proof (resolve_path_rel base c ref Hc) as R. cbv zeta in R.
  (* the base directory is empty or ends in a slash: the reference's elements are the last ones *)
  assert (Hs : exists a, split_on SLASHC (upto_last SLASHC base ++ c :: ref) = a ++ split_on SLASHC (c :: ref)).
  { destruct (upto_last_shape SLASHC base) as [->|[d ->]]; [exists []; reflexivity|].
    exists (split_on SLASHC d). rewrite <- app_assoc. apply split_on_app. }
  destruct Hs as [a Ha]. rewrite Ha in R.
  rewrite rp_stack_app, rp_stack_nodots, rev_app_distr, rev_involutive in R by exact F.
  rewrite last_is_dots_app, last_is_dots_nodots, app_nil_r in R by (exact F || apply split_on_nonempty).
  destruct (rev (rp_stack a [])) as [|x pre].
  - cbn [app] in R. rewrite join_split in R. exists []. rewrite R by discriminate.
    unfold lead_slash. apply N.eqb_neq in Hc. rewrite Hc. reflexivity.
  - rewrite join_app, join_split in R by (discriminate || apply split_on_nonempty).
    rewrite R by (destruct (join [SLASHC] (x :: pre)); discriminate). apply lead_slash_suffix.
Qed.

Definition keep (s : bytes) : bool := nonempty s && negb (is_dot s).

Lemma clean_segs_nodotdot : forall rooted l out, Forall (fun s => is_dotdot s = false) l ->
  clean_segs rooted l out = rev out ++ filter keep l.
Proof.
  intros rooted. induction l as [|s l IH]; intros out F; [cbn; rewrite app_nil_r; reflexivity|].
  inversion F as [|? ? Hs F']; subst. cbn [clean_segs filter]. unfold keep, nonempty.
  destruct (beq s []) eqn:E0; cbn [orb negb andb]; [apply IH; assumption|].
  destruct (is_dot s) eqn:E1; cbn [negb]; [apply IH; assumption|]. rewrite Hs.
  rewrite IH by assumption. cbn [rev]. rewrite <- app_assoc. reflexivity.
Qed.

(* clean_segs returns the reversed final stack: continuing with more segments is continuing from that stack *)
Lemma clean_segs_app : forall rooted a b out, clean_segs rooted (a ++ b) out = clean_segs rooted b (rev (clean_segs rooted a out)).
Proof.
  intros rooted. induction a as [|s a IH]; intros b out; [cbn; rewrite rev_involutive; reflexivity|].
  cbn [app clean_segs]. destruct (beq s [] || is_dot s); [apply IH|].
  destruct (is_dotdot s); [|apply IH]. destruct out as [|top out']; [destruct rooted; apply IH|].
  destruct (is_dotdot top); apply IH.
Qed.

Lemma clean_segs_app_nodotdot : forall rooted a b, Forall (fun s => is_dotdot s = false) b ->
  clean_segs rooted (a ++ b) [] = clean_segs rooted a [] ++ filter keep b.
Proof. intros. rewrite clean_segs_app, clean_segs_nodotdot by assumption. rewrite rev_involutive. reflexivity. Qed.

Lemma nodot_keep_nonempty : forall l, Forall nodot l -> filter keep l = filter nonempty l.
Proof.
  induction l as [|s l IH]; intros F; [reflexivity|]. inversion F as [|? ? [H1 _] F']; subst. cbn [filter]. rewrite IH by assumption.
  unfold keep. rewrite H1. cbn [negb]. rewrite andb_true_r. reflexivity.
Qed.

Lemma normal_nodot : forall s, normal_seg s -> nodot s.
Proof. intros s [_ [_ [H1 H2]]]. split; [unfold is_dot|unfold is_dotdot]; apply beq_neq; assumption. Qed.

Lemma normal_okseg : forall s, normal_seg s -> okseg s.
Proof. intros s H. split; [apply normal_nodot, H|apply H]. Qed.

Lemma normal_keep : forall ms, Forall normal_seg ms -> filter keep ms = ms.
Proof.
  intros ms F. rewrite nodot_keep_nonempty by (eapply Forall_impl; [apply normal_nodot|exact F]).
  apply filter_nonempty_normal. exact F.
Qed.

Lemma normal_nodotdot : forall ms, Forall normal_seg ms -> Forall (fun s => is_dotdot s = false) ms.
Proof. intros ms F. eapply Forall_impl; [|exact F]. intros a H. apply normal_nodot. exact H. Qed.

(* Clean of a non-empty path from the cleaned segments: rooted stays rooted, unrooted stays unrooted *)
Lemma path_clean_rooted : forall p, clean_segs true (split_on SLASHC (SLASHC :: p)) [] <> [] ->
  path_clean (SLASHC :: p) = abs_path (clean_segs true (split_on SLASHC (SLASHC :: p)) []).
Proof. intros p H. unfold path_clean. rewrite N.eqb_refl. apply slash_join_abs. exact H. Qed.

Lemma path_clean_unrooted : forall c p, c <> SLASHC -> clean_segs false (split_on SLASHC (c :: p)) [] <> [] ->
  SLASHC :: path_clean (c :: p) = abs_path (clean_segs false (split_on SLASHC (c :: p)) []).
Proof.
  intros c p Hc H. unfold path_clean. apply N.eqb_neq in Hc. rewrite Hc.
  destruct (clean_segs false (split_on SLASHC (c :: p)) []) eqn:E; [congruence|]. apply slash_join_abs. discriminate.
Qed.

(* the first non-empty element starts path.Join's buffer *)
Lemma join_buf_first : forall e elems, e <> [] -> join_buf (e :: elems) [] = e ++ abs_path elems.
Proof. intros [|c e] elems H; [congruence|]. cbn [join_buf]. apply join_buf_nonempty. discriminate. Qed.

Lemma split_on_abs : forall ms x, Forall (fun m => ~ In SLASHC m) ms ->
  split_on SLASHC (x ++ abs_path ms) = split_on SLASHC x ++ ms.
Proof.
  induction ms as [|m ms IH]; intros x F; [cbn; rewrite !app_nil_r; reflexivity|]. inversion F as [|? ? Hm F']; subst.
  change (abs_path (m :: ms)) with (SLASHC :: m ++ abs_path ms).
  replace (x ++ SLASHC :: m ++ abs_path ms) with ((x ++ SLASHC :: m) ++ abs_path ms) by (rewrite <- app_assoc; reflexivity).
  rewrite IH, split_on_app, (split_on_nosep SLASHC m), <- app_assoc by assumption. reflexivity.
Qed.

Lemma normal_noslash : forall ms, Forall normal_seg ms -> Forall (fun m => ~ In SLASHC m) ms.
Proof. intros ms F. eapply Forall_impl; [|exact F]. intros a H. apply H. Qed.

(* CacheURL's path before the final lead_slash, for ANY cache path (empty or rooted) and ANY publisher path without ".."
   segments: the cleaned cache path, then c[/s]/<host>, then the publisher path's segments except the empty and "." ones.
   Without a cache path the join starts at "c" and Clean leaves it unrooted. *)
Theorem cache_path_raw : forall pu cu,
  p_hostname pu <> [] -> p_hostname pu <> [DOTC] -> p_hostname pu <> [DOTC; DOTC] ->
  Forall (fun s => is_dotdot s = false) (split_on SLASHC (p_epath pu)) ->
  let raw := path_join (path_components pu cu (bs "c"%string)) in
  let tail := middle pu ++ filter keep (split_on SLASHC (p_epath pu)) in
  (c_epath cu = [] -> SLASHC :: raw = abs_path tail) /\
  (forall cp, c_epath cu = SLASHC :: cp -> raw = abs_path (clean_segs true (split_on SLASHC (c_epath cu)) [] ++ tail)).
Proof.
  intros pu cu H0 H1 H2 Fp raw tail. subst raw tail.
  pose proof (middle_normal pu H0 H1 H2) as Fm.
  (* what follows the cache path, segment by segment *)
  assert (S : forall x, split_on SLASHC (x ++ abs_path (middle pu ++ [p_epath pu])) =
                        split_on SLASHC x ++ middle pu ++ split_on SLASHC (p_epath pu)).
  { intros x. rewrite abs_path_app, app_assoc. cbn [abs_path flat_map]. rewrite app_nil_r, split_on_app.
    rewrite split_on_abs, <- app_assoc by (apply normal_noslash; exact Fm). reflexivity. }
  assert (Ft : Forall (fun s => is_dotdot s = false) (middle pu ++ split_on SLASHC (p_epath pu)))
    by (apply Forall_app; split; [apply normal_nodotdot|]; assumption).
  assert (Kt : filter keep (middle pu ++ split_on SLASHC (p_epath pu)) = middle pu ++ filter keep (split_on SLASHC (p_epath pu)))
    by (rewrite filter_app, normal_keep by exact Fm; reflexivity).
  unfold path_join. rewrite path_components_middle.
  replace (forallb _ _) with false
    by (unfold middle; cbn [app forallb]; change (beq (bs "c"%string) []) with false; rewrite andb_false_r; reflexivity).
  destruct (middle_cons pu) as [m' Em]. split.
  - intros ->. pose proof (S []) as S0. rewrite Em in *. cbn [app] in *.
    change (join_buf ([] :: ?l) []) with (join_buf l []). rewrite join_buf_first by discriminate.
    change (abs_path (bs "c"%string :: m' ++ [p_epath pu])) with (SLASHC :: 99 :: abs_path (m' ++ [p_epath pu])) in S0.
    rewrite split_on_cons_sep in S0. injection S0 as S0.
    change (bs "c"%string ++ abs_path (m' ++ [p_epath pu])) with (99 :: abs_path (m' ++ [p_epath pu])).
    assert (C : clean_segs false (split_on SLASHC (99 :: abs_path (m' ++ [p_epath pu]))) []
                = bs "c"%string :: m' ++ filter keep (split_on SLASHC (p_epath pu)))
      by (rewrite S0, clean_segs_nodotdot, Kt by exact Ft; reflexivity).
    rewrite path_clean_unrooted, C by (rewrite ?C; discriminate). reflexivity.
  - intros cp He. rewrite join_buf_first by (rewrite He; discriminate).
    assert (C : clean_segs true (split_on SLASHC (c_epath cu ++ abs_path (middle pu ++ [p_epath pu]))) []
                = clean_segs true (split_on SLASHC (c_epath cu)) [] ++ middle pu ++ filter keep (split_on SLASHC (p_epath pu)))
      by (rewrite S, clean_segs_app_nodotdot, Kt by exact Ft; reflexivity).
    rewrite He in *. cbn [app] in *.
    rewrite path_clean_rooted; rewrite C; [reflexivity|].
    rewrite Em. destruct (clean_segs true (split_on SLASHC (SLASHC :: cp)) []); discriminate.
Qed.

(* as the request carries it: with one slash in front *)
Theorem cache_path_general : forall pu cu,
  (c_epath cu = [] \/ exists cp, c_epath cu = SLASHC :: cp) ->
  p_hostname pu <> [] -> p_hostname pu <> [DOTC] -> p_hostname pu <> [DOTC; DOTC] ->
  Forall (fun s => is_dotdot s = false) (split_on SLASHC (p_epath pu)) ->
  lead_slash (path_join (path_components pu cu (bs "c"%string))) =
  abs_path (clean_segs true (split_on SLASHC (c_epath cu)) [] ++ middle pu ++ filter keep (split_on SLASHC (p_epath pu))).
Proof.
  intros pu cu Hc H0 H1 H2 Fp. destruct (cache_path_raw pu cu H0 H1 H2 Fp) as [R0 R1].
  destruct (middle_cons pu) as [m' Em]. destruct Hc as [He|[cp He]].
  - specialize (R0 He). rewrite He. change (clean_segs true (split_on SLASHC []) []) with (@nil bytes).
    rewrite Em in *. injection R0 as ->. reflexivity.
  - rewrite (R1 cp He), Em. destruct (clean_segs true (split_on SLASHC (c_epath cu)) []); reflexivity.
Qed.

Lemma abs_trailing_rooted : forall cs (trailing : bool),
  let p := abs_path cs ++ (if trailing then [SLASHC] else []) in p = [] \/ exists cp, p = SLASHC :: cp.
Proof. intros [|c cs] [|]; cbn; eauto. Qed.

Lemma clean_abs_normal : forall cs (trailing : bool), Forall normal_seg cs ->
  clean_segs true (split_on SLASHC (abs_path cs ++ (if trailing then [SLASHC] else []))) [] = cs.
Proof.
  intros cs trailing F.
  assert (E : split_on SLASHC (abs_path cs) = [] :: cs) by (apply (split_on_abs cs []), normal_noslash, F).
  assert (Nd : Forall (fun s => is_dotdot s = false) ([] :: cs)) by (apply Forall_cons; [reflexivity|apply normal_nodotdot, F]).
  destruct trailing.
  - rewrite split_on_app, E. change (split_on SLASHC []) with [@nil N].
    rewrite clean_segs_app_nodotdot, clean_segs_nodotdot by (exact Nd || (repeat constructor)).
    cbn [filter rev app]. rewrite normal_keep by exact F. apply app_nil_r.
  - rewrite app_nil_r, E, clean_segs_nodotdot by exact Nd. cbn [filter rev app]. apply normal_keep, F.
Qed.

(* for a publisher path /p1/.../pn and a cache path /c1/.../cm[/] without empty or dot segments nothing is cleaned away *)
Lemma cache_path_shape : forall pu cu cs ps (trailing : bool),
  Forall normal_seg cs -> Forall normal_seg ps ->
  c_epath cu = abs_path cs ++ (if trailing then [SLASHC] else []) ->
  p_epath pu = abs_path ps ->
  p_hostname pu <> [] -> p_hostname pu <> [DOTC] -> p_hostname pu <> [DOTC; DOTC] ->
  let raw := path_join (path_components pu cu (bs "c"%string)) in
  (c_epath cu <> [] -> raw = abs_path (cs ++ middle pu ++ ps)) /\
  (c_epath cu = [] -> SLASHC :: raw = abs_path (middle pu ++ ps)).
Proof.
  intros pu cu cs ps trailing Fc Fp Hc Hp H0 H1 H2 raw.
  assert (Sp : split_on SLASHC (p_epath pu) = [] :: ps) by (rewrite Hp; apply (split_on_abs ps []), normal_noslash, Fp).
  assert (Fd : Forall (fun s => is_dotdot s = false) (split_on SLASHC (p_epath pu)))
    by (rewrite Sp; apply Forall_cons; [reflexivity|apply normal_nodotdot, Fp]).
  destruct (cache_path_raw pu cu H0 H1 H2 Fd) as [R0 R1]. fold raw in R0, R1.
  rewrite Sp in R0, R1. cbn [filter] in R0, R1. change (keep []) with false in R0, R1. cbv iota in R0, R1.
  rewrite normal_keep in R0, R1 by exact Fp. split; [|exact R0].
  intros Hne. destruct (abs_trailing_rooted cs trailing) as [E|[cp E]]; cbv zeta in E; rewrite <- Hc in E; [congruence|].
  rewrite (R1 cp E), Hc, clean_abs_normal by exact Fc. reflexivity.
Qed.

(* which inputs DO lose path components: a publisher path with a ".." segment, handed to the exported CacheURL directly,
   eats the host (and the content type) in front of it - the resulting cache URL names another origin path *)
Example cache_url_dotdot_loses_host :
  let pu := {| p_scheme := S_HTTPS; p_user := false; p_hostname := bs "h.example"; p_port := [];
               p_epath := bs "/../x"; p_rawquery := []; p_fragment := [] |} in
  let cu := {| c_scheme := S_HTTPS; c_user := None; c_hostname := bs "cdn.ampproject.org"; c_port := [];
               c_epath := bs "/"; c_rawquery := []; c_fragment := [] |} in
  option_map r_rawpath (cache_url (fun x => Some x) (fun x => Some x) (fun _ => []) h34_runes pu cu (bs "c")) = Some (bs "/c/s/x").
Proof. vm_compute. reflexivity. Qed.
